(** C12 — the writer emits whole blocks in write order; Flush+Wait makes
    written data durable.  Statements, each derived from the lemmas of
    Proofs/WriterConc.v and WriterThms.v (vocabulary: Props/C01.v).
    [x_out st] has one element per successful Write call on the underlying
    writer; [s_sub] are the payloads of the blocks submitted so far in order,
    [s_data] all bytes accepted by Write so far; ghost marks of the model:
    [s_flushmark] = length of s_data when the last Flush returned nil,
    [s_durable]   = flush mark when the last Wait returned nil (all of s_data
                    when Close returned nil). *)
From Coq Require Import ZArith List Bool.
From Hts Require Import Base.Prim Base.WrList Generated Model.Bgzf Model.Writer Model.WriterConc
  Proofs.Bgzf Proofs.Writer Proofs.WriterConc Proofs.WriterThms Proofs.WrSkel.
Import ListNotations.
Open Scope Z_scope.

(** In every reachable state (every wc, every schedule prefix): the chunks
    delivered are exactly the members of the first k submitted blocks, one
    per underlying Write (then the marker once Close succeeded); they decode
    to a prefix of the data written so far, which is a prefix of the script's
    data; the durable mark is covered; no error, no WaitGroup panic. *)
Theorem emitted_is_block_prefix :
  forall deflate inflate crc32, codec_laws deflate inflate crc32 ->
  forall lvl h, hdr_ok h ->
  forall wc script sched,
    let st := wr_conc deflate crc32 lvl h wc script sched in
    let s := x_api st in
    exists k,
      (k <= length (s_sub s))%nat
      /\ x_out st = map (member_of deflate crc32 lvl h) (firstn k (s_sub s)) ++ (if s_eof s then [bgzf_magicBlock] else [])
      /\ gunzip_multi inflate crc32 (out_bytes st) = Some (concat (firstn k (s_sub s)))
      /\ prefix_of (concat (firstn k (s_sub s))) (s_data s)
      /\ prefix_of (s_data s) (written script)
      /\ s_durable s <= zlen (concat (firstn k (s_sub s)))
      /\ (quiescent st -> k = length (s_sub s))
      /\ x_err st = None /\ x_panic st = false.
Proof.
  intros d i c laws lvl h ok wc script sched st s.
  pose proof (wr_conc_CInv d i c laws lvl h ok wc script sched) as I. fold st in I.
  destruct (CInv_emitted _ _ _ _ _ _ I) as (done & P & O & Sm & Pd & Du & Q).
  destruct (prefix_firstn _ _ P) as [F L]. exists (length done). fold s in F, L. rewrite F.
  split; [exact L|]. split; [exact O|].
  split; [unfold out_bytes; rewrite O, concat_marker; apply (gunzip_multi_stream d i c laws lvl h ok), Sm|].
  split; [exact Pd|]. split; [apply (data_prefix_written _ _ (api_inv _ _ _ _ _ _ I))|]. split; [exact Du|].
  split; [intros Hq; rewrite (Q (quiescent_pending _ Hq)); reflexivity|].
  split; [apply (ci_err _ _ _ _ _ _ I)|apply (ci_panic _ _ _ _ _ _ I)].
Qed.
Print Assumptions emitted_is_block_prefix.

(** The same for an underlying writer that FAILS: for every fault plan
    (fault k = true: the k-th Write call on the underlying writer is refused),
    every wc, script and schedule, in every reachable state the chunks the
    underlying writer accepted are the members of the first k submitted
    blocks — whole blocks in write order, decoding to a prefix of the data
    handed to Write so far; after a failure nothing more is delivered and no
    EOF marker is written. *)
Theorem emitted_is_block_prefix_faulty :
  forall deflate inflate crc32, codec_laws deflate inflate crc32 ->
  forall lvl h, hdr_ok h ->
  forall (fault : Z -> bool) wc script sched,
    let st := run_conc deflate crc32 bgzf_wr_patch_mode bgzf_wr_patch_guard bgzf_wr_overflow_check lvl h fault wc script sched in
    let s := x_api st in
    exists k,
      (k <= length (s_sub s))%nat
      /\ x_out st = map (member_of deflate crc32 lvl h) (firstn k (s_sub s)) ++ (if s_eof s then [bgzf_magicBlock] else [])
      /\ gunzip_multi inflate crc32 (out_bytes st) = Some (concat (firstn k (s_sub s)))
      /\ prefix_of (concat (firstn k (s_sub s))) (s_data s)
      /\ (x_err st <> None -> s_eof s = false)
      /\ Forall small (firstn k (s_sub s))
      /\ (s_eof s = true -> s_closed s = true /\ x_err st = None).
Proof.
  intros d i c laws lvl h ok fault wc script sched st s.
  pose proof (run_conc_FInv d i c laws lvl h ok fault wc script sched) as I. fold st in I.
  destruct (FInv_emitted _ _ _ _ _ _ I) as (done & P & O & Sm & Pd).
  destruct (prefix_firstn _ _ P) as [F L]. exists (length done). fold s in F, L. rewrite F.
  split; [exact L|]. split; [exact O|].
  split; [unfold out_bytes; rewrite O, concat_marker; apply (gunzip_multi_stream d i c laws lvl h ok), Sm|].
  split; [exact Pd|]. split; [|split; [exact Sm|exact (FInv_eof _ _ _ _ _ _ I)]].
  intros E. destruct (s_eof s) eqn:He; [destruct (FInv_eof _ _ _ _ _ _ I He); contradiction|reflexivity].
Qed.
Print Assumptions emitted_is_block_prefix_faulty.

(** Once Flush and then Wait have returned nil, the stream decodes to a
    prefix of the data that contains everything written before the Flush. *)
Theorem flush_wait_durable :
  forall deflate inflate crc32, codec_laws deflate inflate crc32 ->
  forall lvl h, hdr_ok h ->
  forall wc script sched,
    let st := wr_conc deflate crc32 lvl h wc script sched in
    exists d, gunzip_multi inflate crc32 (out_bytes st) = Some d
              /\ prefix_of d (s_data (x_api st))
              /\ s_durable (x_api st) <= zlen d.
Proof.
  intros d i c laws lvl h ok wc script sched st.
  destruct (CInv_emitted _ _ _ _ _ _ (wr_conc_CInv d i c laws lvl h ok wc script sched)) as (done & _ & O & Sm & Pd & Du & _).
  exists (concat done). split; [|split; assumption].
  unfold out_bytes. fold st in O. rewrite O, concat_marker. apply (gunzip_multi_stream d i c laws lvl h ok), Sm.
Qed.
Print Assumptions flush_wait_durable.

(** Close returned nil: everything written is in the stream, then the marker. *)
Theorem close_durable :
  forall deflate inflate crc32, codec_laws deflate inflate crc32 ->
  forall lvl h, hdr_ok h ->
  forall wc script sched,
    let st := wr_conc deflate crc32 lvl h wc script sched in
    s_eof (x_api st) = true ->
    x_out st = map (member_of deflate crc32 lvl h) (s_sub (x_api st)) ++ [bgzf_magicBlock]
    /\ concat (s_sub (x_api st)) = written script
    /\ gunzip_multi inflate crc32 (out_bytes st) = Some (written script)
    /\ has_eof (out_bytes st) = true.
Proof. exact close_complete. Qed.
Print Assumptions close_durable.

(** bam.NewWriter = Write(header bytes); Flush(); Wait(): when it returns, the
    stream decodes to exactly the header, whatever its length. *)
Theorem bam_header_durable :
  forall deflate inflate crc32, codec_laws deflate inflate crc32 ->
  forall lvl h, hdr_ok h ->
  forall wc hb sched,
    let st := wr_conc deflate crc32 lvl h wc [OpWrite hb; OpFlush; OpWait] sched in
    cdone st = true -> gunzip_multi inflate crc32 (out_bytes st) = Some hb.
Proof.
  intros d i c laws lvl h ok wc hb sched st Hd.
  unfold st. rewrite (flush_wait_complete d i c laws lvl h ok wc [OpWrite hb; OpFlush; OpWait] sched eq_refl Hd).
  cbn [written]. rewrite app_nil_r. reflexivity.
Qed.
Print Assumptions bam_header_durable.

(** The script of that theorem is the one the source runs: after writeHeader,
    bam.NewWriterLevel calls Flush and then Wait on its BGZF writer, both
    unconditionally and nothing else (1 = Flush, 2 = Wait in the list that
    gen/emit_bamwriter.go reads off bam/writer.go on every run; a Wait that
    has become conditional, or is gone, fails here). *)
Theorem bam_newwriter_runs_flush_wait : bam_NewWriterLevel_bg_calls = [1; 2].
Proof. reflexivity. Qed.
Print Assumptions bam_newwriter_runs_flush_wait.

Example c12_faulty_run :
  let dfl := fun (_ : Z) (d : list Z) => d ++ [0; 0] in
  let st := run_conc dfl (fun _ => 0) bgzf_wr_patch_mode bgzf_wr_patch_guard bgzf_wr_overflow_check 6 default_hdr
                     (fun k => k =? 1) 3 [OpWrite [1]; OpFlush; OpWrite [2]; OpFlush; OpWrite [3]; OpFlush; OpClose] (rr 40 4) in
  cdone st = true /\ length (x_out st) = 1%nat /\ x_err st = Some 9 /\ s_eof (x_api st) = false.
Proof. vm_compute. auto. Qed.

Example c12_run :
  let dfl := fun (_ : Z) (d : list Z) => d ++ [0; 0] in
  let st := wr_conc dfl (fun _ => 0) 6 default_hdr 1 [OpWrite [1; 2; 3]; OpFlush; OpWait] (rr 20 2) in
  cdone st = true /\ s_durable (x_api st) = 3 /\ length (x_out st) = 1%nat.
Proof. vm_compute. auto. Qed.
