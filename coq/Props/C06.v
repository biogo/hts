(** C06 — SAM text round trip; SAM and BAM views of a record agree; the SAM
    reader returns every line.  Statements, each derived in a few lines from
    the lemmas of Proofs/Sam*.v.

    [format_record] / [parse_record] / [reader_run] (Model/SamText.v) model
    Record.MarshalSAM / Record.UnmarshalSAM / Reader.Read following the Go code;
    the nucleotide, CIGAR and aux-kind tables and the format strings they use
    are regenerated from the Go source on every run (coq/Generated.v).
    [spec_format] / [view] (Model/SamSpec.v) are written from SAMv1 1.4/1.5.
    [fmt_f32] / [parse_f32] stand for strconv's float32 formatting/parsing. *)
From Coq Require Import ZArith List Bool Lia.
From Hts Require Import Base.Prim Generated Model.SamText Model.SamSpec.
From Hts Require Import Proofs.SamBytes Proofs.SamFormat Proofs.SamReader Proofs.SamBam
  Proofs.SamAux Proofs.SamRoundtrip.
Import ListNotations.
Open Scope Z_scope.

(** The reader returns every line.  For every text made of lines (no LF
    inside a line, no CR at its end; each ended by LF or CRLF, the last one
    possibly unterminated if it is not empty) and every header: the sequence of
    results of calling Read until io.EOF has exactly one entry per line, in
    order, and the entry is what UnmarshalSAM makes of that line.  No line is
    dropped or merged with another, an unterminated last line is returned, and
    an empty line yields UnmarshalSAM's error ([parse_record _ _ [] = Err 0]),
    not a panic of the reader. *)
Theorem sam_reader_lines :
  forall (parse_f32 : list Z -> option Z) (h : header) (ls : list (list Z * eol)),
    lines_ok ls ->
    reader_run parse_f32 h (join_lines ls) = map (fun le => parse_record parse_f32 h (fst le)) ls.
Proof. intros parse_f32 h ls H. apply reader_all_lines; [exact H|apply Nat.lt_succ_diag_r]. Qed.
Print Assumptions sam_reader_lines.

Theorem sam_reader_empty_line_is_error :
  forall parse_f32 h, parse_record parse_f32 h [] = Err 0.
Proof. reflexivity. Qed.
Print Assumptions sam_reader_empty_line_is_error.

Example sam_reader_lines_ex :
  lines_ok [([97], ECRLF); ([], ELF); ([98; 9; 99], ENONE)]
  /\ join_lines [([97], ECRLF); ([], ELF); ([98; 9; 99], ENONE)] = [97; 13; 10; 10; 98; 9; 99].
Proof.
  split; [|reflexivity]. cbn. unfold line_ok, free. cbn.
  repeat split; try discriminate; intuition discriminate.
Qed.

(** MarshalSAM writes the line of the specification.  For every header with
    pairwise distinct, TAB-free names other than "*" and "=", and every record
    expressible in SAM text ([valid 8]: references of that header, CIGAR
    operations MIDNSHP=X, canonical 4-bit sequence, quality absent or of the
    sequence's length, aux fields of all eleven types with values in range)
    whose Phred values are 0..93 or absent: the line written with decimal
    flags, and the line written with hexadecimal flags, are exactly the
    TAB-joined fields that SAMv1 1.4/1.5 prescribes for the record's view. *)
Theorem sam_format_is_spec :
  forall (fmt_f32 : Z -> list Z) (h : header) (r : samrec),
    valid 8 h r -> phred_ok (r_qual r) ->
    format_record fmt_f32 h sam_FlagDecimal r
      = Ok (spec_format fmt_f32 (print_Z (r_flags r)) (view h r)) /\
    format_record fmt_f32 h sam_FlagHex r
      = Ok (spec_format fmt_f32 ([48; 120] ++ print_hex (r_flags r)) (view h r)).
Proof.
  intros fmt_f32 h r V Hq.
  split; [exact (format_is_spec fmt_f32 h r sam_FlagDecimal V Hq (or_introl eq_refl))
         |exact (format_is_spec fmt_f32 h r sam_FlagHex V Hq (or_intror eq_refl))].
Qed.
Print Assumptions sam_format_is_spec.

(** SAM text round trip.  For every header and every record expressible in
    SAM text ([valid 8], see above; Phred values 0..93 or absent), under the
    premises on strconv's float32 text for the float values [f32_ok] that
    occur in the record (parsing what was formatted gives the value back; the
    text contains neither TAB nor comma — validated on every run against
    strconv and IEEE 754, NaN excluded), and for both parseable flag formats
    (decimal, hexadecimal):
      * MarshalSAM gives a line;
      * UnmarshalSAM of that line against the same header succeeds and gives
        [rec_back r]: [r] itself except that an absent quality is in its
        canonical form (nil without a sequence, all 0xff with one) and aux
        integers have the smallest type that holds their value;
      * [rec_back r] has the same view at the level of the specification as
        [r] — every field equal, aux integers compared by value;
      * MarshalSAM of [rec_back r] gives the identical line. *)
Theorem sam_roundtrip :
  forall (fmt_f32 : Z -> list Z) (parse_f32 : list Z -> option Z) (f32_ok : Z -> Prop),
    (forall x, f32_ok x -> parse_f32 (fmt_f32 x) = Some x) ->
    (forall x, f32_ok x -> free 9 (fmt_f32 x) /\ free 44 (fmt_f32 x)) ->
    forall (h : header) (r : samrec) (fl : Z),
      valid 8 h r -> phred_ok (r_qual r) ->
      Forall (fun a => floats_ok_all f32_ok (a_val a)) (r_aux r) ->
      (fl = sam_FlagDecimal \/ fl = sam_FlagHex) ->
      exists line,
        format_record fmt_f32 h fl r = Ok line /\
        parse_record parse_f32 h line = Ok (rec_back r) /\
        view h (rec_back r) = view h r /\
        format_record fmt_f32 h fl (rec_back r) = Ok line.
Proof. exact roundtrip_gen. Qed.
Print Assumptions sam_roundtrip.

(** Aux fields of all eleven types: ParseAux reads back the text samAux.String
    writes — same tag, same value, integers in the smallest type ([aux_back]). *)
Theorem sam_aux_roundtrip :
  forall (fmt_f32 : Z -> list Z) (parse_f32 : list Z -> option Z) (f32_ok : Z -> Prop),
    (forall x, f32_ok x -> parse_f32 (fmt_f32 x) = Some x) ->
    (forall x, f32_ok x -> free 9 (fmt_f32 x) /\ free 44 (fmt_f32 x)) ->
    forall a,
      auxv_ok (a_val a) -> floats_ok_all f32_ok (a_val a) ->
      format_aux fmt_f32 a = Some (spec_opt fmt_f32 ([a_t0 a; a_t1 a], view_val (a_val a))) /\
      parse_aux parse_f32 (spec_opt fmt_f32 ([a_t0 a; a_t1 a], view_val (a_val a))) = Ok (aux_back a) /\
      view_val (a_val (aux_back a)) = view_val (a_val a).
Proof.
  intros fmt_f32 parse_f32 f32_ok L C a Hok Hf. split; [apply format_aux_spec, Hok|].
  split; [apply (aux_roundtrip_all fmt_f32 parse_f32 f32_ok L C a Hok Hf)|apply view_canon].
Qed.
Print Assumptions sam_aux_roundtrip.

(** The pieces, each for all inputs: ParseCigar after Cigar.String, contract
    after Expand. *)
Theorem sam_cigar_roundtrip :
  forall c, Forall (fun co => 0 <= co < 2 ^ 32 /\ co mod 16 <= 8) c ->
    cigar_string c = Some (spec_cigar (map (fun co => (co / 16, co mod 16)) c)) /\
    parse_cigar (spec_cigar (map (fun co => (co / 16, co mod 16)) c)) = Ok c.
Proof. exact (fun c H => conj (cigar_string_spec c H) (parse_cigar_back c H)). Qed.
Print Assumptions sam_cigar_roundtrip.

Theorem sam_seq_roundtrip :
  forall len ds, seq_ok len ds ->
    expand len ds = Ok (map (base_at ds) (seq 0 (Z.to_nat len))) /\
    contract (map (base_at ds) (seq 0 (Z.to_nat len))) = ds.
Proof. exact seq_roundtrip_full. Qed.
Print Assumptions sam_seq_roundtrip.

(** The number texts used by every field: what %d / "0x%x" write is read back
    by Atoi, ParseUint(base 10) and ParseUint(base 0). *)
Theorem sam_number_text_roundtrip :
  (forall z, - 2 ^ 63 <= z < 2 ^ 63 -> go_atoi (print_Z z) = Some z) /\
  (forall n bits, 0 <= n < 2 ^ bits -> go_parse_uint (print_Z n) 10 bits = Some n) /\
  (forall n bits, 0 <= n < 2 ^ bits -> go_parse_uint (print_Z n) 0 bits = Some n) /\
  (forall n bits, 0 <= n < 2 ^ bits -> go_parse_uint ([48; 120] ++ print_hex n) 0 bits = Some n).
Proof. exact (conj atoi_print (conj parse_uint10_print (conj parse_uint0_print parse_uint0_hex))). Qed.
Print Assumptions sam_number_text_roundtrip.

(** SAM and BAM views agree.  Formatting does not distinguish records that a
    BAM round trip identifies (all fields equal, an absent quality being the
    same as all-0xff) ... *)
Theorem sam_format_respects_bam_view :
  forall fmt_f32 h fl a b,
    qual_len_ok a -> qual_len_ok b -> bam_equiv a b ->
    format_record fmt_f32 h fl a = format_record fmt_f32 h fl b.
Proof. exact format_respects_bam_equiv. Qed.
Print Assumptions sam_format_respects_bam_view.

(** ... hence for any BAM codec with the round-trip law (premise; the codec
    itself is property C05), a record read back from BAM formats to the same
    SAM line as the record that was written, in every flag format. *)
Theorem bam_sam_agree :
  forall (bam_ok : samrec -> Prop) (bam_encode : samrec -> option (list Z)) (bam_decode : list Z -> option samrec),
    (forall r, bam_ok r ->
       exists bs r', bam_encode r = Some bs /\ bam_decode bs = Some r' /\ bam_equiv r r' /\ qual_len_ok r') ->
    forall fmt_f32 h fl r,
      bam_ok r -> qual_len_ok r ->
      exists bs r', bam_encode r = Some bs /\ bam_decode bs = Some r' /\
                    format_record fmt_f32 h fl r' = format_record fmt_f32 h fl r.
Proof.
  intros bam_ok bam_encode bam_decode RT fmt_f32 h fl r Hok Hq.
  destruct (RT r Hok) as (bs & r' & He & Hd & Heq & Hq').
  exists bs, r'. repeat split; [exact He|exact Hd|]. symmetry. apply format_respects_bam_equiv; assumption.
Qed.
Print Assumptions bam_sam_agree.

(** The tables the model reads from the Go source are those of the
    specification. *)
Theorem sam_tables_are_spec :
  sam_n16TableRev = spec_bases /\ map (fun s => hd 0 s) (firstn 9 sam_cigarOps) = spec_ops
  /\ firstn 9 sam_cigarLetters = spec_ops.
Proof. repeat split; reflexivity. Qed.
Print Assumptions sam_tables_are_spec.

(** Non-vacuity: a concrete valid record, its line, and the way back. *)
Example sam_example_record :
  let h := [([99; 104; 114; 49], 1000)] in
  let r := mk_rec [114; 49] 99 (Some 0%nat) 9 60 [] (Some 0%nat) 19 30 0 [] None [] in
  format_record (fun _ => []) h 0 r
    = Ok [114; 49; 9; 57; 57; 9; 99; 104; 114; 49; 9; 49; 48; 9; 54; 48; 9; 42; 9; 61; 9; 50; 48; 9; 51; 48; 9; 42; 9; 42]
  /\ parse_record (fun _ => None) h
       [114; 49; 9; 57; 57; 9; 99; 104; 114; 49; 9; 49; 48; 9; 54; 48; 9; 42; 9; 61; 9; 50; 48; 9; 51; 48; 9; 42; 9; 42] = Ok r
  /\ format_record (fun _ => []) h 1 r
    = Ok [114; 49; 9; 48; 120; 54; 51; 9; 99; 104; 114; 49; 9; 49; 48; 9; 54; 48; 9; 42; 9; 61; 9; 50; 48; 9; 51; 48; 9; 42; 9; 42].
Proof. repeat split; vm_compute; reflexivity. Qed.

Example sam_example_valid :
  valid 8 [([99; 104; 114; 49], 1000)]
        (mk_rec [114; 49] 99 (Some 0%nat) 9 60 [] (Some 0%nat) 19 30 0 [] None []).
Proof.
  constructor; simpl; try lia; auto using seq_ok_nil.
  - split; [repeat constructor; cbn; tauto|]. repeat constructor; try discriminate.
    unfold free. cbn. intuition discriminate.
  - unfold free. cbn. intuition discriminate.
Qed.
