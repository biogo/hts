(** C05 — BAM encoding round trip: Writer -> Reader reproduces header and
    every record field; the bytes are those of an encoder written from the
    SAM specification except for the bin field; Omit modes return the same
    records minus exactly the omitted parts.
    Statements, each derived in a few lines from the lemmas of Proofs/Bam*.v.
    [encode_record], [decode_record], [read_stream] ... are the model of
    bam.Writer.Write, bam.Reader.Read, newBuffer/Read loop (Model/BamCodec.v);
    they interpret tables and field skeletons regenerated from the Go source
    (Generated.v). *)
From Coq Require Import ZArith List Bool.
From Hts Require Import Base.Prim Generated Model.BamCodec Model.BamSpec
  Proofs.BamAux Proofs.BamRecord Proofs.BamStream Proofs.BamProps Proofs.BamSpecEq.
Import ListNotations.
Open Scope Z_scope.

(** Every valid record (name 1..254 bytes without NUL, references in the
    header or nil, int32 positions, <= 65535 CIGAR operations of any type,
    len Seq = (L+1)/2, qualities absent or of length L, aux fields well formed
    for A c C s S i I f Z H B, block size below 2^31): Write emits the block
    size and a block, and Read on that block returns [canon r] (absent
    qualities as L bytes 0xff), retaining nothing of the shared buffer,
    whichever buffer was used. *)
Theorem bam_record_roundtrip :
  forall nrefs r shared,
    valid_rec nrefs r = true ->
    exists body,
      encode_record r = Ok (le_put 4 (zlen body) ++ body) /\
      zlen body = block_size r /\
      decode_record bam_None nrefs shared body = Ok (canon r, false).
Proof.
  intros nrefs r shared Hv. destruct (record_roundtrip_all nrefs r Hv) as (body & He & Hl & Hd).
  exists body. repeat split; [exact He|exact Hl|exact (Hd bam_None shared)].
Qed.
Print Assumptions bam_record_roundtrip.

(** Header and records: the stream the writer produces is read back as the
    same header, the records in order (under any Omit mode) and a clean EOF;
    by induction on the record list. *)
Theorem bam_stream_roundtrip :
  forall h rs omit,
    valid_hdr h = true -> forallb (valid_rec (zlen (h_refs h))) rs = true ->
    exists bs,
      encode_stream h rs = Ok bs /\
      read_stream omit bs = Ok (h, (map (fun r => (omit_view omit (canon r), false)) rs, EndEOF)).
Proof. exact stream_roundtrip. Qed.
Print Assumptions bam_stream_roundtrip.

(** The binary header frame alone (text opaque), followed by anything. *)
Theorem bam_header_roundtrip :
  forall h rest, valid_hdr h = true -> decode_header (encode_header h ++ rest) = Ok (h, rest).
Proof. exact header_roundtrip. Qed.
Print Assumptions bam_header_roundtrip.

(** Omit modes: AuxTags returns canon r without the aux fields,
    AllVariableLengthData additionally without sequence and qualities
    (Seq.Length 0, nil slices); nothing else changes. *)
Theorem bam_omit :
  forall nrefs r shared,
    valid_rec nrefs r = true ->
    exists body,
      encode_record r = Ok (le_put 4 (zlen body) ++ body) /\
      decode_record bam_None nrefs shared body = Ok (canon r, false) /\
      decode_record bam_AuxTags nrefs shared body
        = Ok (mkRec (r_name r) (r_ref r) (r_pos r) (r_mapq r) (r_cigar r) (r_flags r) (r_mref r) (r_mpos r)
                    (r_tlen r) (r_lseq r) (r_seq r) (Some (qual_bytes r)) [], false) /\
      decode_record bam_AllVariableLengthData nrefs shared body
        = Ok (mkRec (r_name r) (r_ref r) (r_pos r) (r_mapq r) (r_cigar r) (r_flags r) (r_mref r) (r_mpos r)
                    (r_tlen r) 0 [] None [], false).
Proof.
  intros nrefs r shared Hv. destruct (record_roundtrip_all nrefs r Hv) as (body & He & _ & Hd).
  exists body. repeat split; [exact He|exact (Hd bam_None shared)|exact (Hd bam_AuxTags shared)|exact (Hd bam_AllVariableLengthData shared)].
Qed.
Print Assumptions bam_omit.

(** The encoder's bytes are the specification's bytes for the record read as
    specification values ([abs]: operation length/type pairs, base codes,
    typed aux values), for some value of the bin field; so the two differ at
    most in bytes 14..15 (bytes 10..11 of the block). *)
Theorem bam_encode_is_spec :
  forall nrefs r,
    valid_rec nrefs r = true -> pad_ok r = true ->
    exists bin, 0 <= bin < 65536 /\ encode_record r = Ok (spec_encode (abs bin r)).
Proof. exact encode_is_spec. Qed.
Print Assumptions bam_encode_is_spec.

Theorem bam_spec_bin_only :
  forall s b b', 0 <= b < 65536 -> 0 <= b' < 65536 ->
    mask_bin (spec_encode (set_bin b s)) = mask_bin (spec_encode (set_bin b' s)).
Proof. exact spec_bin_only. Qed.
Print Assumptions bam_spec_bin_only.

(** The shared-vs-private buffer decision (block size <= 4096) does not
    influence the result on any input, and no record returned by Read retains
    a slice of storage the reader reuses for a later record: not of the inline
    buffer (the block is marked shared and bytes() copies), and not of a long
    record's block (newBuffer allocates it in the call: every long record has
    its own allocation).  These three facts are read off newBuffer and
    buffer.bytes by gen ([bam_newBuffer_private_fresh],
    [bam_newBuffer_inline_shared], [bam_buffer_bytes_copies]); the second
    component of the result is [storage_reused shared] for a record that
    keeps Seq/Qual/aux slices. *)
Theorem shared_buffer_irrelevant :
  (forall omit nrefs data, decode_record omit nrefs true data = decode_record omit nrefs false data) /\
  (forall omit nrefs sh data res, decode_record omit nrefs sh data = Ok res -> snd res = false).
Proof. split; [exact shared_irrelevant_all_inputs|exact no_alias]. Qed.
Print Assumptions shared_buffer_irrelevant.

(** Reader.Read on one block is total on byte strings: a record or an error,
    never a panic, never non-termination.  Reader.Read reports a record block
    shorter than its length fields, and parseAux checks each optional field
    against the end of the record. *)
Theorem bam_decode_total :
  forall omit nrefs shared data, all_bytes data = true ->
    (exists r, decode_record omit nrefs shared data = Ok r) \/ (exists e, decode_record omit nrefs shared data = Err e).
Proof. exact decode_total. Qed.
Print Assumptions bam_decode_total.

Theorem parse_aux_total :
  forall aux, all_bytes aux = true -> (exists r, parse_aux aux = Ok r) \/ (exists e, parse_aux aux = Err e).
Proof. exact BamAux.parse_aux_total. Qed.
Print Assumptions parse_aux_total.

(** A record cut inside a fixed-size aux field, and a B array of element
    type Z: errors 23 and 25. *)
Example former_defect_inputs :
  decode_record 0 0 true cut_aux_record = Err 23 /\ decode_record 0 0 false cut_aux_record = Err 23
  /\ parse_aux stuck_aux = Err 25.
Proof. repeat split; vm_compute; reflexivity. Qed.

(** Nybble packing (sam.NewSeq / Seq.Expand over the generated tables). *)
Theorem seq_pack_roundtrip :
  forall s, all_bytes s = true ->
    expand (zlen s) (contract s) = Ok (map (fun b => getz sam_n16TableRev (getz sam_n16Table b)) s)
    /\ zlen (contract s) = (zlen s + 1) / 2
    /\ all_bytes (contract s) = true.
Proof.
  intros s _. split; [apply expand_contract_all|split; [apply contract_len|apply contract_bytes]].
Qed.
Print Assumptions seq_pack_roundtrip.

Theorem seq_codes_fixed :
  forall i, 0 <= i < 16 -> getz sam_n16Table (getz sam_n16TableRev i) = i.
Proof.
  intros i H. rewrite <- (Z2Nat.id i) by apply H.
  assert (Hn : (Z.to_nat i < 16)%nat) by (apply Nat2Z.inj_lt; rewrite Z2Nat.id; apply H).
  revert Hn. generalize (Z.to_nat i). intros n Hn.
  do 16 (destruct n as [|n]; [reflexivity|]). do 16 apply Nat.succ_lt_mono in Hn. inversion Hn.
Qed.
Print Assumptions seq_codes_fixed.

(** A sequence packed by sam.NewSeq has a zero pad nybble, so records built
    with it satisfy the [pad_ok] premise of [bam_encode_is_spec]. *)
Theorem seq_newseq_pad_ok :
  forall s, all_bytes s = true -> Z.odd (zlen s) = true -> last (contract s) 0 mod 16 = 0.
Proof. intros s _. apply contract_pad. Qed.
Print Assumptions seq_newseq_pad_ok.

(** sam.NewAux (binary aux layout) for every typed value except Hex: what
    buildAux writes for the field is the specification's encoding of the
    value (integers in two's complement at the width of the type, strings
    NUL-terminated, arrays with subtype and count). *)
Theorem new_aux_is_spec_partial :
  forall t1 t2 t sub v l,
    t <> 72 ->
    (0 < spec_width t \/ t = 90 \/ (t = 66 /\ 0 < spec_width sub /\ zlen l < 2 ^ 32)) ->
    build_aux [new_aux t1 t2 t sub v l] = Ok (spec_aux (mkSaux t1 t2 (typed_of t sub v l))).
Proof. exact new_aux_spec_partial. Qed.
Print Assumptions new_aux_is_spec_partial.

(** Hex (known finding C05-newaux-hex-raw): NewAux(tag, Hex(v)) keeps the
    value bytes; the BAM form of an H field is the hex text of the value. *)
Theorem new_aux_is_spec_refuted :
  exists t1 t2 l,
    build_aux [new_aux t1 t2 72 0 0 l] <> Ok (spec_aux (mkSaux t1 t2 (typed_of 72 0 0 l))).
Proof. exists 88, 72, [26]. vm_compute. discriminate. Qed.
Print Assumptions new_aux_is_spec_refuted.

(** Non-vacuity: a concrete valid record with every kind of field, through
    the model. *)
Definition ex_rec : rec :=
  mkRec [114; 49] 0 100 60 [Z.shiftl 5 4; Z.lor (Z.shiftl 2 4) 1] 99 0 200 (-150) 5 [18; 72; 128]
        None [[78; 77; 67; 3]; [88; 90; 90; 104; 105]; [88; 66; 66; 115; 2; 0; 0; 0; 1; 0; 255; 255]].

Example ex_rec_valid : valid_rec 1 ex_rec = true /\ pad_ok ex_rec = true.
Proof. split; vm_compute; reflexivity. Qed.

Example ex_rec_roundtrip :
  exists e, encode_record ex_rec = Ok e /\ decode_record 0 1 true (skipn 4 e) = Ok (canon ex_rec, false)
            /\ mask_bin e = mask_bin (spec_encode (abs 0 ex_rec)).
Proof. eexists. split; [vm_compute; reflexivity|]. split; vm_compute; reflexivity. Qed.

Example ex_hdr_valid : valid_hdr (mkHdr [64; 72; 68; 10] [([99; 104; 114; 49], 1000)]) = true.
Proof. vm_compute. reflexivity. Qed.

Example ex_new_aux :
  build_aux [new_aux 88 73 105 0 (-5) []] = Ok [88; 73; 105; 251; 255; 255; 255]
  /\ build_aux [new_aux 88 66 66 115 0 [1; -1]] = Ok [88; 66; 66; 115; 2; 0; 0; 0; 1; 0; 255; 255]
  /\ build_aux [new_aux 88 72 72 0 0 [26]] = Ok [88; 72; 72; 26; 0]
  /\ spec_aux (mkSaux 88 72 (typed_of 72 0 0 [26])) = [88; 72; 72; 49; 65; 0].
Proof. repeat split; vm_compute; reflexivity. Qed.
