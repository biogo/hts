(** C13 — record chunks are replayable: chunk-bounded reads return exactly the span.
    Proofs in Proofs/ChunkReaderProof.v ([chunkreader_run]), Proofs/ClientSim.v,
    Proofs/BamReplay.v and Proofs/IterReplay.v.
    [cr_new] / [cr_reads]: index.NewChunkReader and a sequence of
    ChunkReader.Read calls with the given buffer sizes (Model/ChunkReader.v),
    running on the reader model of C02 ([rM]: bgzf.Reader with store objects,
    rd = 1; [vM]: the same on block values). *)
From Coq Require Import ZArith List Bool Lia.
From Hts Require Import Base.Prim Model.Flat Model.Reader Model.ChunkReader
  Proofs.ReaderFlat Proofs.ChunkReaderProof Proofs.ClientSim Proofs.BamReplay Proofs.IterReplay.
Import ListNotations.
Open Scope Z_scope.

(** For every well-formed file whose members are addressable, every chunk
    list that is ordered and non-overlapping in the flat stream with both ends
    of every chunk at valid offsets (block start + offset <= block length; the
    two representations of a block boundary, zero-length chunks and chunks
    ending at the start of an empty block are all allowed: [sorted_from]) and
    every sequence of buffer sizes: NewChunkReader succeeds, every Read
    returns at most its buffer, only the last Read may report an error and
    that error is io.EOF, the bytes returned so far are a prefix of the
    concatenated flat spans [tr Begin, tr End) of the chunks, and when io.EOF is
    reported nothing is left: the stream is exactly the spans.
    (Partial: termination is the separate theorem chunkreader_terminates
    below; together they are the full statement for addressable files.) *)
Theorem chunkreader_exact_partial :
  forall (F : file) (ch : list nat) (cs : list chunk) (bufs : list Z),
    wf_file F = true -> F <> [] -> addressable F = true ->
    sorted_from F 0 cs -> Forall (fun n => 0 <= n) bufs ->
    exists s1, cr_new (rM F ch) (fst (r_init F)) cs = Ok (s1, eNil) /\
    exists l, cr_reads (rM F ch) s1 cs bufs = Ok l /\ sizes_ok l bufs /\
      exists tail, spans F cs = concat (map fst l) ++ tail /\ reads_ok l tail.
Proof.
  intros F ch cs bufs W Hne Ha Hso Hb.
  destruct (chunkreader_run F W Ha cs bufs Hne Hso Hb) as (s1 & l & Hnew & Hl & Hsz & Hex & _).
  destruct (cr_run_r F ch cs bufs s1 eNil l Hnew Hl) as (Hnew2 & Hl2). eauto 7.
Qed.
Print Assumptions chunkreader_exact_partial.

(** Termination: every Read with a non-empty buffer returns bytes, or moves
    to a later block, or leaves a chunk behind ([progress]); so with buffers of
    size >= 1, after at most (chunks + 1) * (bytes owed + 1) * (members + 1)
    reads the ChunkReader has reported io.EOF, and by then it has delivered
    exactly the concatenated spans. *)
Theorem chunkreader_terminates :
  forall (F : file) (ch : list nat) (cs : list chunk) (bufs : list Z),
    wf_file F = true -> F <> [] -> addressable F = true ->
    sorted_from F 0 cs -> Forall (fun n => 1 <= n) bufs ->
    (Z.of_nat (length cs) + 1) * ((zlen (spans F cs) + 1) * (Z.of_nat (length F) + 1)) <= Z.of_nat (length bufs) ->
    exists s1 l, cr_new (rM F ch) (fst (r_init F)) cs = Ok (s1, eNil) /\
      cr_reads (rM F ch) s1 cs bufs = Ok l /\ snd (last l ([], 0)) = eEOF /\ concat (map fst l) = spans F cs.
Proof.
  intros F ch cs bufs W Hne Ha Hso Hb Hlen.
  destruct (chunkreader_run F W Ha cs bufs Hne Hso) as (s1 & l & Hnew & Hl & _ & _ & Hend).
  { eapply Forall_impl; [|exact Hb]. simpl. lia. }
  destruct (cr_run_r F ch cs bufs s1 eNil l Hnew Hl) as (Hnew2 & Hl2). destruct (Hend Hb Hlen). eauto 7.
Qed.
Print Assumptions chunkreader_terminates.

(** The same on the reader on block values. *)
Theorem chunkreader_exact_value_partial :
  forall (F : file) (cs : list chunk) (bufs : list Z),
    wf_file F = true -> F <> [] -> addressable F = true ->
    sorted_from F 0 cs -> Forall (fun n => 0 <= n) bufs ->
    exists s1, cr_new (vM F) (fst (v_init F)) cs = Ok (s1, eNil) /\
    exists l, cr_reads (vM F) s1 cs bufs = Ok l /\ sizes_ok l bufs /\
      exists tail, spans F cs = concat (map fst l) ++ tail /\ reads_ok l tail.
Proof.
  intros F cs bufs W Hne Ha Hso Hb.
  destruct (chunkreader_run F W Ha cs bufs Hne Hso Hb) as (s1 & l & Hnew & Hl & Hsz & Hex & _). eauto 7.
Qed.
Print Assumptions chunkreader_exact_value_partial.

(** One Read: from any state the ChunkReader can be in (Blocked, positioned
    inside its first remaining chunk), a Read of n >= 0 bytes returns at most n
    bytes that are the next bytes still owed, and leaves such a state again, or
    reports io.EOF with nothing owed. *)
Theorem chunkreader_read_step :
  forall (F : file), wf_file F = true -> addressable F = true ->
  forall s pre m post c0 rest n, cinv F s pre m post c0 rest -> 0 <= n ->
  exists s' cs' bs e, cr_read (vM F) s (c0 :: rest) n = Ok (s', cs', bs, e) /\ zlen bs <= n /\
    ((e = eNil /\ exists R', rem F (qpos pre s) c0 rest = bs ++ R' /\ cr_post F s' cs' R') \/
     (e = eEOF /\ rem F (qpos pre s) c0 rest = bs)).
Proof.
  intros F W Ha s pre m post c0 rest n Ci Hn.
  destruct (cr_read_spec F W Ha s (c0 :: rest) _ n (or_intror (cinv_post Ci)) Hn) as (s' & cs' & bs & e & Hrd & Hz & H).
  exists s', cs', bs, e. split; [exact Hrd|]. split; [exact Hz|].
  destruct H as [(He & R' & HR & Hpost & _)|H]; [left; eauto|right; exact H].
Qed.
Print Assumptions chunkreader_read_step.

(** bam.Reader (record-framing level, on the reader on block values, not
    Blocked).  Hypothesis about the codec, which is not modelled: from position
    p0 (just after the BAM header) to the end of the data the flat stream is a
    sequence of frames - a 4-byte little-endian length sz >= 1 followed by sz
    body bytes ([frames]); the list of frames is split as pre ++ mid ++ post
    with mid non-empty, i.e. records i..j are those of mid.
    Then: reading sequentially returns every body in order and then io.EOF;
    the chunk reported for each record has as Begin / End the canonical
    offsets of the record's two ends; and for ANY reader state reached later
    (any position, after any other replay), SetChunk(Begin of record i, End of
    record j) succeeds and reading then yields exactly the bodies of records
    i..j and then io.EOF.  Since the state is arbitrary this covers any list
    of such chunks in any order, which is what bam.Iterator runs through. *)
Theorem chunk_replay :
  forall (F : file), wf_file F = true -> addressable F = true ->
  forall (s0 : vstate) (p0 : Z) (pre mid post : list Z) (blc0 : chunk) (dflt : list Z * chunk),
    simv F s0 p0 -> frames F p0 (pre ++ mid ++ post) (total F) -> mid <> [] ->
    exists b1 recs, br_readall (vM F) (S (length (pre ++ mid ++ post))) (mkBR (vM F) s0 None blc0) = Ok (b1, recs, BEOF) /\
      map fst recs = bodies F p0 (pre ++ mid ++ post) /\
      exists rp rm rq, recs = rp ++ rm ++ rq /\ length rp = length pre /\ length rm = length mid /\
        forall (b : bstate (vM F)) (fb : fstate), sim F (br_s _ b) fb -> f_blocked fb = false ->
          exists b2, br_setchunk (vM F) b (fst (snd (hd dflt rm)), snd (snd (last rm dflt))) = Ok (b2, eNil) /\
          exists b3 l, br_readall (vM F) (S (length mid)) b2 = Ok (b3, l, BEOF) /\ map fst l = map fst rm.
Proof. exact chunk_replay_proof. Qed.
Print Assumptions chunk_replay.

(** bam.Iterator (NewIterator + Next until false), same level and hypothesis:
    for any non-empty list of chunks each running from the Begin of a record
    to the End of a later record ([rchunk_ok]: the chunk's ends are the canonical
    offsets of flat positions p and pe, with frames of sizes [rc_sizes] between
    them) - in ANY order, overlapping or repeated -, and any reader state that is
    not Blocked: the iteration yields the bodies of the first chunk's records,
    then those of the second, ..., and ends with io.EOF after exactly that many
    records. *)
Theorem iterator_replay :
  forall (F : file), wf_file F = true -> addressable F = true ->
  forall (b : bstate (vM F)) (L : list rchunk),
    simok F (br_s _ b) -> Forall (rchunk_ok F) L -> L <> [] ->
    exists b', it_run (vM F) (S (nrecs L)) b (map rc_c L) = Ok (b', all_bodies F L, eEOF).
Proof. exact iterator_replay_proof. Qed.
Print Assumptions iterator_replay.

(** The offset recorded as End after a read that returned bytes is canonical:
    it is determined by the flat position alone (the block holding the last
    byte read), whichever way the reader got there. *)
Theorem end_offset_canonical :
  forall (F : file) (o o' : voff) (p : Z), is_after F o p -> is_after F o' p -> o = o'.
Proof. exact after_unique. Qed.
Print Assumptions end_offset_canonical.

(** Non-vacuity: three members (one empty), four chunks: one inside a block,
    a zero-length chunk, one across the empty member ending in the block-end
    representation, one ending at the start of a block; buffers 2,0,3,... *)
Example c13_example :
  let F := [mkMember 0 30 [1; 2; 3]; mkMember 30 28 []; mkMember 58 31 [4; 5; 6]] in
  let cs := [((0, 0), (0, 1)); ((0, 1), (0, 1)); ((0, 2), (58, 1)); ((58, 2), (58, 3))] in
  sorted_from F 0 cs /\ spans F cs = [1; 3; 4; 6] /\
  match cr_new (rM F []) (fst (r_init F)) cs with
  | Ok (s1, _) => match cr_reads (rM F []) s1 cs [2; 0; 3; 3; 3; 3; 3; 3] with
                  | Ok l => concat (map fst l) = [1; 3; 4; 6] /\ snd (last l ([], 0)) = eEOF
                  | _ => False end
  | _ => False
  end.
Proof.
  cbv zeta. split.
  - simpl. unfold off_ok. repeat split; vm_compute; try reflexivity; discriminate.
  - split; [vm_compute; reflexivity|]. vm_compute. split; reflexivity.
Qed.

(** Non-vacuity of chunk_replay: three frames (bodies of 1, 2 and 1 bytes) cut into
    members inside a length field and at a record end; replay of records 1..2. *)
Example c13_bam_example :
  let F := [mkMember 0 30 [1; 0]; mkMember 30 30 [0; 0; 7; 2; 0; 0; 0; 8; 9]; mkMember 60 28 []; mkMember 88 31 [1; 0; 0; 0; 5]] in
  wf_file F = true /\ addressable F = true /\ frames F 0 ([1] ++ [2; 1] ++ []) (total F) /\
  match br_readall (vM F) 4 (mkBR (vM F) (fst (v_init F)) None ((0, 0), (0, 0))) with
  | Ok (b1, recs, BEOF) =>
      map fst recs = [[7]; [8; 9]; [5]] /\
      match br_setchunk (vM F) b1 (fst (snd (nth 1 recs ([], ((0,0),(0,0))))), snd (snd (nth 2 recs ([], ((0,0),(0,0)))))) with
      | Ok (b2, _) => match br_readall (vM F) 4 b2 with Ok (_, l, BEOF) => map fst l = [[8; 9]; [5]] | _ => False end
      | _ => False
      end
  | _ => False
  end.
Proof.
  cbv zeta. split; [reflexivity|]. split; [reflexivity|].
  split; [simpl frames; repeat split; try (vm_compute; reflexivity); try lia|].
  vm_compute. split; reflexivity.
Qed.
