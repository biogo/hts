(** C16 — coordinate arithmetic: End, Len, Bin, CIGAR lengths and validity,
    bin numbers and bin lists (BAI fixed scheme, every CSI geometry).
    Statements, each derived in a few lines from the lemmas of
    Proofs/Cigar.v, Proofs/CigarValid.v, Proofs/Bins.v, Proofs/CsiGen.v.

    Model side: [sam_CigarOp_Type], [sam_CigarOp_Len], [sam_NewCigarOp],
    [sam_consume], [sam_Record_Bin], [internal_BinFor] and all level constants
    are regenerated from the Go source on every run (Generated.v); the loops
    [record_end], [cigar_lengths], [cigar_isvalid], [overlapping_bins_for],
    [csi_reg2bin], [csi_reg2bins] follow the Go code by hand (Model/Cigar.v,
    Model/Bins.v) and are run against the implementation. The loop of
    csi.reg2bin is in addition translated statement by statement by gen/
    ([csigen_reg2bin], a fuel recursion) and proved equal to the hand model for
    every input ([csi_reg2bin_translated]), so the CSI bin theorems are
    re-checked against the source text of that loop on every run.
    Specification side: Model/SamSpecArith.v (SAMv1 1.4, 4.2.1, 5.3; CSIv1).

    A CIGAR is a list of uint32 words; [spec_decode c = Some sc] decodes it
    into (operation, length) pairs: the nine standard operations, B, and the
    undefined codes 10..15 as an operation that consumes nothing. Every word
    decodes ([every_cigar_decodes]), so the theorems quantify over all CIGARs,
    which contains the property's quantifier (nine operations plus B).
    Go [int] is unbounded [Z]. *)
From Coq Require Import ZArith List Bool Lia.
From Hts Require Import Base.Prim Base.BinArith Generated
  Model.SamSpecArith Model.Cigar Model.Bins
  Proofs.Bins Proofs.Cigar Proofs.CigarValid Proofs.CsiGen.
Import ListNotations.
Open Scope Z_scope.

(** NewCigarOp / Type / Len are the BAM packing: for every type code 0..15 and
    every legal length the word fits uint32 and Type and Len give back the
    arguments. *)
Theorem cigarop_roundtrip :
  forall t n, 0 <= t <= 15 -> 0 <= n <= 2 ^ 28 - 1 ->
    exists w, sam_NewCigarOp t n = Ok w /\ 0 <= w < 2 ^ 32 /\
              sam_CigarOp_Type w = Ok t /\ sam_CigarOp_Len w = Ok n.
Proof. exact newcigarop_roundtrip_gen. Qed.
Print Assumptions cigarop_roundtrip.

(** ... and every other int64 length panics. *)
Theorem cigarop_illegal_length_panics :
  forall t n, - 2 ^ 63 <= n < 2 ^ 63 -> (n < 0 \/ 2 ^ 28 - 1 < n) -> sam_NewCigarOp t n = Panic 2.
Proof. exact newcigarop_panics_gen. Qed.
Print Assumptions cigarop_illegal_length_panics.

(** Cigar.Lengths: reference length = sum over M D N = X, query length = sum
    over M I S = X, for every CIGAR over the ten operations (any lengths). *)
Theorem lengths_is_spec :
  forall c sc, spec_decode c = Some sc ->
    cigar_lengths c = Ok (spec_reflen sc, spec_querylen sc).
Proof. intros c sc H. exact (lengths_loop_spec c sc 0 0 H). Qed.
Print Assumptions lengths_is_spec.

(** Record.End for every flag word, position and CIGAR: pos+1 for unmapped
    reads and reads without CIGAR, otherwise the rightmost reference position
    reached (B moves left). *)
Theorem end_is_spec :
  forall flags pos c sc, spec_decode c = Some sc ->
    record_end flags pos c = Ok (spec_end flags pos sc).
Proof. exact record_end_spec. Qed.
Print Assumptions end_is_spec.

(** ... which for a mapped read with a non-empty CIGAR over the nine standard
    operations is pos + sum of the lengths of M D N = X. *)
Theorem end_is_pos_plus_reflen :
  forall flags pos c sc, spec_decode c = Some sc ->
    spec_unmapped flags = false -> c <> [] ->
    has_back sc = false -> Forall (fun w => 0 <= w) c ->
    record_end flags pos c = Ok (pos + spec_reflen sc).
Proof. exact record_end_no_back. Qed.
Print Assumptions end_is_pos_plus_reflen.

(** Record.Len = End - Start. *)
Theorem len_is_spec :
  forall flags pos c sc, spec_decode c = Some sc ->
    record_len flags pos c = Ok (spec_len flags pos sc).
Proof.
  intros flags pos c sc H. unfold record_len, spec_len, record_start.
  rewrite (record_end_spec _ _ _ _ H). reflexivity.
Qed.
Print Assumptions len_is_spec.

(** Cigar.IsValid: the loop with its early returns and neighbour look-ups
    accepts exactly the CIGARs that satisfy the rules of SAMv1 1.4 (H only
    first/last; only H between an S and the nearer end; query lengths sum to the
    sequence length) and the B rule of the library documentation; it never
    panics on the ten operations. *)
Theorem isvalid_is_spec :
  forall c sc seqlen, spec_decode c = Some sc ->
    cigar_isvalid c seqlen = Ok (spec_valid sc seqlen).
Proof.
  intros c sc seqlen H. unfold cigar_isvalid, spec_valid.
  rewrite <- clip_code_eq_spec, <- code_valid_split.
  exact (isvalid_loop_code c [] [] sc seqlen 0 eq_refl H).
Qed.
Print Assumptions isvalid_is_spec.

(** Record.Bin is reg2bin(pos, end) of SAMv1 4.2.1/5.3 for every flag word,
    every CIGAR and every position from -1 (unplaced) up: no flag combination
    is special-cased; 4680 is what reg2bin(-1, 0) evaluates to. *)
Theorem bin_is_spec :
  forall flags pos c sc, spec_decode c = Some sc -> -1 <= pos < 2 ^ 31 ->
    record_bin flags pos c = Ok (spec_bin flags pos sc).
Proof.
  intros flags pos c sc H Hp. unfold record_bin, sam_Record_Bin, spec_bin.
  rewrite (record_end_spec _ _ _ _ H). apply binfor_is_spec_gen. assumption.
Qed.
Print Assumptions bin_is_spec.

(** The bin of a placed record fits the uint16 BIN field of BAM (and is below
    the pseudo-bin 37450). *)
Theorem bin_fits_uint16 :
  forall b e, 0 <= b < 2 ^ 29 -> 0 <= spec_reg2bin b e < 37449.
Proof. intros b e Hb. rewrite <- csi_default_reg2bin_spec. apply (spec_csi_reg2bin_range b e 14 5); lia. Qed.
Print Assumptions bin_fits_uint16.

(** Operation codes 10..15 (not operations of SAMv1) consume nothing: the
    library's Consumes clamps them to the empty lastCigar row. *)
Theorem undefined_op_consumes_nothing :
  forall k, 10 <= k <= 15 -> consumes k = Ok (0, 0).
Proof.
  intros k H. unfold consumes, sam_CigarOpType_Consumes.
  destruct (Z.ltb_spec 10 k); [|replace k with 10 by lia]; reflexivity.
Qed.
Print Assumptions undefined_op_consumes_nothing.

(** No type byte makes Consumes panic. *)
Theorem consumes_never_panics :
  forall k, 0 <= k -> exists q r, consumes k = Ok (q, r).
Proof.
  intros k H. destruct (Z.le_gt_cases k 10).
  - destruct (cop_of_code_total k ltac:(lia)) as [o Ho]. rewrite (consumes_known k o Ho). eauto.
  - exists 0, 0. unfold consumes, sam_CigarOpType_Consumes. destruct (Z.ltb_spec 10 k); [reflexivity|lia].
Qed.
Print Assumptions consumes_never_panics.

(** Every uint32 word decodes. *)
Theorem every_cigar_decodes :
  forall c, exists sc, spec_decode c = Some sc.
Proof. exact decode_total. Qed.
Print Assumptions every_cigar_decodes.

(** So the hypothesis [spec_decode c = Some sc] of the theorems above holds
    for EVERY list of words: End, Len, Lengths, IsValid (and Bin for pos >= -1)
    return the specified values, and never panic, for every record. *)
Theorem record_arith_total :
  forall flags pos c seqlen,
    exists sc, spec_decode c = Some sc /\
      record_end flags pos c = Ok (spec_end flags pos sc) /\
      record_len flags pos c = Ok (spec_len flags pos sc) /\
      cigar_lengths c = Ok (spec_reflen sc, spec_querylen sc) /\
      cigar_isvalid c seqlen = Ok (spec_valid sc seqlen) /\
      (-1 <= pos < 2 ^ 31 -> record_bin flags pos c = Ok (spec_bin flags pos sc)).
Proof.
  intros flags pos c seqlen. destruct (decode_total c) as [sc H]. exists sc.
  repeat split; [assumption|apply end_is_spec|apply len_is_spec|apply lengths_is_spec|apply isvalid_is_spec|];
    try assumption.
  intros Hp. apply bin_is_spec; assumption.
Qed.
Print Assumptions record_arith_total.

(** BinFor is the reg2bin of SAMv1 5.3 (also for the unplaced position -1). *)
Theorem binfor_is_spec :
  forall b e, -1 <= b < 2 ^ 31 -> internal_BinFor b e = Ok (spec_reg2bin b e).
Proof. exact binfor_is_spec_gen. Qed.
Print Assumptions binfor_is_spec.

(** OverlappingBinsFor is the reg2bins of SAMv1 5.3, same bins in the same order. *)
Theorem bai_bins_is_spec :
  forall b e, -1 <= b < 2 ^ 31 -> 0 <= e <= 2 ^ 31 ->
    overlapping_bins_for b e = Ok (spec_reg2bins b e).
Proof. exact obf_is_spec_gen. Qed.
Print Assumptions bai_bins_is_spec.

(** BAI: whenever two intervals within [0, 2^29] overlap, the bin of one is
    in the bin list of the other. *)
Theorem bai_bin_in_bins :
  forall b1 e1 b2 e2,
    0 <= b1 -> 0 <= b2 -> b1 < e1 <= 2 ^ 29 -> b2 < e2 <= 2 ^ 29 -> b1 < e2 -> b2 < e1 ->
    exists k l, internal_BinFor b1 e1 = Ok k /\ overlapping_bins_for b2 e2 = Ok l /\ In k l.
Proof. exact bai_bin_in_bins_gen. Qed.
Print Assumptions bai_bin_in_bins.

(** End to end for BAM indexing: the bin of a placed record is in the bin list
    of every query interval that overlaps its alignment. *)
Theorem record_bin_in_query_bins :
  forall flags pos c sc b2 e2,
    spec_decode c = Some sc -> 0 <= pos ->
    pos < spec_end flags pos sc <= 2 ^ 29 ->
    0 <= b2 -> b2 < e2 <= 2 ^ 29 ->
    pos < e2 -> b2 < spec_end flags pos sc ->
    exists k l, record_bin flags pos c = Ok k /\ overlapping_bins_for b2 e2 = Ok l /\ In k l.
Proof.
  intros flags pos c sc b2 e2 H Hp He Hb2 He2 Ho1 Ho2.
  exists (spec_bin flags pos sc), (spec_reg2bins b2 e2).
  split; [apply bin_is_spec; [assumption|lia]|].
  split; [apply obf_is_spec_gen; lia|].
  apply bai_bin_in_bins_spec; lia.
Qed.
Print Assumptions record_bin_in_query_bins.

(** CSI: reg2bin and reg2bins in uint32 arithmetic are the functions of the
    CSI specification for EVERY geometry with depth <= 10 and
    min_shift + 3*depth <= 62. *)
Theorem csi_reg2bin_is_spec :
  forall b e ms depth,
    0 <= ms -> 0 <= depth <= 10 -> ms + 3 * depth <= 62 ->
    0 <= b <= 2 ^ (ms + 3 * depth) -> 0 <= e <= 2 ^ (ms + 3 * depth) ->
    csi_reg2bin b e ms depth = Ok (spec_csi_reg2bin b e ms depth).
Proof. exact csi_reg2bin_is_spec_gen. Qed.
Print Assumptions csi_reg2bin_is_spec.

(** The translation of csi.reg2bin regenerated from csi/csi.go on every run is
    the hand model for every input and every fuel above the depth (so the
    theorems below speak about the loop as the source has it). *)
Theorem csi_reg2bin_translated :
  forall beg e ms depth k,
    0 <= depth < 2 ^ 32 ->
    csigen_reg2bin (S (Z.to_nat depth) + k) beg e ms depth = csi_reg2bin beg e ms depth.
Proof. exact csigen_reg2bin_is_model. Qed.
Print Assumptions csi_reg2bin_translated.

(** It is the specification's function on every legal geometry, and with no
    fuel it reports Stuck rather than a value. *)
Theorem csi_reg2bin_translated_is_spec :
  forall b e ms depth,
    0 <= ms -> 0 <= depth <= 10 -> ms + 3 * depth <= 62 ->
    0 <= b <= 2 ^ (ms + 3 * depth) -> 0 <= e <= 2 ^ (ms + 3 * depth) ->
    csigen_reg2bin 11 b e ms depth = Ok (spec_csi_reg2bin b e ms depth)
    /\ csigen_reg2bin 0 b e ms depth = Stuck.
Proof.
  intros b e ms depth Hms Hd Hsum Hb He. split; [|reflexivity].
  replace 11%nat with (S (Z.to_nat depth) + (10 - Z.to_nat depth))%nat by lia.
  rewrite csigen_reg2bin_is_model by lia. apply csi_reg2bin_is_spec_gen; assumption.
Qed.
Print Assumptions csi_reg2bin_translated_is_spec.

Theorem csi_reg2bins_is_spec :
  forall b e ms depth,
    0 <= ms -> 0 <= depth <= 10 -> ms + 3 * depth <= 62 ->
    0 <= b <= 2 ^ (ms + 3 * depth) -> 1 <= e <= 2 ^ (ms + 3 * depth) ->
    csi_reg2bins b e ms depth = Ok (spec_csi_reg2bins b e ms depth).
Proof. exact csi_reg2bins_is_spec_gen. Qed.
Print Assumptions csi_reg2bins_is_spec.

(** CSI: for every such geometry and every pair of overlapping intervals in
    [0, 2^(min_shift+3*depth)], the bin of one is in the bin list of the other. *)
Theorem csi_bin_in_bins :
  forall ms depth b1 e1 b2 e2,
    0 <= ms -> 0 <= depth <= 10 -> ms + 3 * depth <= 62 ->
    0 <= b1 -> 0 <= b2 -> b1 < e1 <= 2 ^ (ms + 3 * depth) -> b2 < e2 <= 2 ^ (ms + 3 * depth) ->
    b1 < e2 -> b2 < e1 ->
    exists k l, csi_reg2bin b1 e1 ms depth = Ok k /\ csi_reg2bins b2 e2 ms depth = Ok l /\ In k l.
Proof. exact csi_bin_in_bins_gen. Qed.
Print Assumptions csi_bin_in_bins.

(** The bin list is exactly the set of bins (level m, index i, number
    (8^m-1)/7 + i) whose interval [i*2^s, (i+1)*2^s) meets the query, for every
    min_shift >= 0 and depth >= 0 ... *)
Theorem csi_bins_exact :
  forall k b e ms depth, 0 <= ms -> 0 <= depth ->
    (In k (spec_csi_reg2bins b e ms depth) <->
     exists m i, (m <= Z.to_nat depth)%nat /\ k = geo8 m + i /\
       bin_lo ms depth (Z.of_nat m) i < e /\ b < bin_hi ms depth (Z.of_nat m) i).
Proof. exact csi_bins_exact_spec. Qed.
Print Assumptions csi_bins_exact.

(** ... and the bin of an interval is a bin whose interval contains it. *)
Theorem csi_bin_contains :
  forall b e ms depth, 0 <= ms -> 0 <= depth -> 0 <= b < e -> e <= 2 ^ (ms + 3 * depth) ->
    exists m i, (m <= Z.to_nat depth)%nat /\ spec_csi_reg2bin b e ms depth = geo8 m + i /\
      bin_lo ms depth (Z.of_nat m) i <= b /\ e <= bin_hi ms depth (Z.of_nat m) i.
Proof.
  intros b e ms depth Hms Hd Hb He.
  destruct (csi_bin_smallest_spec b e ms depth Hms Hd Hb He) as (m & i & Hm & E & Hlo & Hhi & _).
  exists m, i. auto.
Qed.
Print Assumptions csi_bin_contains.

(** ... it is the smallest such bin: no bin of a finer level contains the interval. *)
Theorem csi_bin_smallest :
  forall b e ms depth, 0 <= ms -> 0 <= depth -> 0 <= b < e -> e <= 2 ^ (ms + 3 * depth) ->
    exists m i, (m <= Z.to_nat depth)%nat /\ spec_csi_reg2bin b e ms depth = geo8 m + i /\
      bin_lo ms depth (Z.of_nat m) i <= b /\ e <= bin_hi ms depth (Z.of_nat m) i /\
      forall j i', (m < j <= Z.to_nat depth)%nat ->
        ~ (bin_lo ms depth (Z.of_nat j) i' <= b /\ e <= bin_hi ms depth (Z.of_nat j) i').
Proof. exact csi_bin_smallest_spec. Qed.
Print Assumptions csi_bin_smallest.

(** The Go bin lists themselves (uint32 arithmetic), for every geometry: no
    bin twice, and exactly the bins whose interval meets the query. *)
Theorem csi_model_bins_exact :
  forall b e ms depth,
    0 <= ms -> 0 <= depth <= 10 -> ms + 3 * depth <= 62 ->
    0 <= b <= 2 ^ (ms + 3 * depth) -> 1 <= e <= 2 ^ (ms + 3 * depth) ->
    exists l, csi_reg2bins b e ms depth = Ok l /\ NoDup l /\
      forall k, In k l <->
        exists m i, (m <= Z.to_nat depth)%nat /\ k = geo8 m + i /\
          bin_lo ms depth (Z.of_nat m) i < e /\ b < bin_hi ms depth (Z.of_nat m) i.
Proof.
  intros. exists (spec_csi_reg2bins b e ms depth).
  split; [apply csi_reg2bins_is_spec_gen; lia|].
  split; [apply csi_bins_nodup_spec; lia|].
  intros k. apply csi_bins_exact; lia.
Qed.
Print Assumptions csi_model_bins_exact.

Theorem bai_model_bins_exact :
  forall b e, 0 <= b < 2 ^ 29 -> 1 <= e <= 2 ^ 29 ->
    exists l, overlapping_bins_for b e = Ok l /\ NoDup l /\
      forall k, In k l <->
        exists m i, (m <= 5)%nat /\ k = geo8 m + i /\
          bin_lo 14 5 (Z.of_nat m) i < e /\ b < bin_hi 14 5 (Z.of_nat m) i.
Proof.
  intros b e Hb He. exists (spec_reg2bins b e).
  split; [apply obf_is_spec_gen; lia|].
  rewrite <- csi_default_reg2bins_spec by lia.
  split; [apply csi_bins_nodup_spec; simpl; lia|].
  intros k. apply (csi_bins_exact k b e 14 5); lia.
Qed.
Print Assumptions bai_model_bins_exact.

(** The default CSI geometry is the BAI scheme: same bins, same lists. *)
Theorem csi_default_is_bai :
  forall b e, 0 <= b < 2 ^ 29 -> 1 <= e <= 2 ^ 29 ->
    csi_reg2bin b e csi_DefaultShift csi_DefaultDepth = internal_BinFor b e /\
    csi_reg2bins b e csi_DefaultShift csi_DefaultDepth = overlapping_bins_for b e.
Proof.
  intros b e Hb He. change csi_DefaultShift with 14. change csi_DefaultDepth with 5.
  rewrite csi_reg2bin_is_spec_gen, csi_reg2bins_is_spec_gen by (simpl; lia).
  rewrite binfor_is_spec_gen, obf_is_spec_gen, csi_default_reg2bin_spec, csi_default_reg2bins_spec by lia.
  split; reflexivity.
Qed.
Print Assumptions csi_default_is_bai.

(** Generated level constants: offsets (8^l-1)/7, shifts 29-3l. *)
Theorem level_constants_geometric :
  [internal_level0; internal_level1; internal_level2; internal_level3; internal_level4; internal_level5]
  = map level_offset [0; 1; 2; 3; 4; 5]
  /\ [internal_level0Shift; internal_level1Shift; internal_level2Shift; internal_level3Shift;
      internal_level4Shift; internal_level5Shift]
     = map (level_shift 14 5) [0; 1; 2; 3; 4; 5]
  /\ internal_nextBinShift = 3 /\ csi_nextBinShift = 3
  /\ csi_DefaultShift = 14 /\ csi_DefaultDepth = 5 /\ internal_indexWordBits = 14 + 3 * 5.
Proof. repeat split; reflexivity. Qed.
Print Assumptions level_constants_geometric.

(** Outside the property's quantifier (empty query ending at 0): the uint32
    loop bound of csi.reg2bins wraps to 2^32-1 and the loop does not end,
    whereas the specification's C code returns an empty range there. Recorded
    as a theorem about the model so that the limit of [csi_reg2bins_is_spec]
    (1 <= e) is not an artefact of the proof. *)
Theorem csi_reg2bins_empty_query_at_0_stuck :
  forall b ms depth,
    0 <= ms -> 0 <= depth <= 10 -> ms + 3 * depth <= 62 -> 0 <= b <= 2 ^ (ms + 3 * depth) ->
    csi_reg2bins b 0 ms depth = Stuck.
Proof. intros b ms depth Hms Hd Hsum _. apply csi_reg2bins_end0_stuck; assumption. Qed.
Print Assumptions csi_reg2bins_empty_query_at_0_stuck.

Example ex_record :
  (* 100000, 3S 10M 2I 5D 20M 4H: end 100035, bin 4687, valid for 35 bases *)
  let c := [52; 160; 33; 82; 320; 69] in
  spec_decode c = Some [(opS, 3); (opM, 10); (opI, 2); (opD, 5); (opM, 20); (opH, 4)]
  /\ record_end 0 100000 c = Ok 100035 /\ record_len 0 100000 c = Ok 35
  /\ record_bin 0 100000 c = Ok 4687 /\ cigar_lengths c = Ok (35, 35)
  /\ cigar_isvalid c 35 = Ok true /\ cigar_isvalid c 34 = Ok false
  /\ record_bin 12 100000 c = Ok 4687 /\ record_bin 12 (-1) [] = Ok 4680
  /\ record_end 0 10 [160; 57; 176] = Ok 28   (* 10M3B11M *)
  /\ cigar_isvalid [160; 52; 160] 23 = Ok false
  /\ record_end 0 10 [160; 173; 80] = Ok 25      (* 10M 10<code 13> 5M: the undefined code moves nothing *)
  /\ cigar_lengths [160; 173; 80] = Ok (15, 15).
Proof. vm_compute. repeat split; reflexivity. Qed.

Example ex_bins :
  internal_BinFor 0 16389 = Ok 585
  /\ csi_reg2bin 0 16389 14 5 = Ok 585
  /\ csi_reg2bins 16385 16387 14 5 = Ok [0; 1; 9; 73; 585; 4682]
  /\ overlapping_bins_for 16385 16387 = Ok [0; 1; 9; 73; 585; 4682]
  /\ csi_reg2bin 1000 9000 3 10 = Ok 37449
  /\ csigen_reg2bin 11 1000 9000 3 10 = Ok 37449 /\ csigen_reg2bin 6 0 16389 14 5 = Ok 585
  /\ csigen_reg2bin 5 0 (2 ^ 29) 14 5 = Stuck
  /\ existsb (Z.eqb 37449) (spec_csi_reg2bins 8999 9001 3 10) = true.
Proof. vm_compute. repeat split; reflexivity. Qed.
