(** C17 — chunk merge strategies never lose coverage.
    Statements, each derived in a few lines from Proofs/StrategyLoop.v (the
    generated translation computes the functional model: [run_model],
    [run_inv]; on BGZF offsets every strategy is the merge loop with its
    condition: [model_merge]) and Proofs/Strategy.v (the merge loop for any
    condition).

    [run_strategy s l] runs the Gallina translation of index.Identity /
    Adjacent / Squash / CompressorStrategy(near) that /verif/gen regenerates
    from bgzf/index/strategy.go on every run (coq/Generated.v, section
    50_strategy) on the chunk list [l]; [Ok out] is a normal return, the other
    outcomes are a run-time panic and an exhausted loop budget.

    Vocabulary (Model/StrategySpec.v): [pos o] = File*2^16+Block;
    [covered l v]: some chunk c of l has pos Begin <= v < pos End;
    [sorted_begin]: ascending by pos Begin; [valid_chunks]: offsets of a BGZF
    file (0 <= File < 2^47, 0 <= Block < 2^16). *)
From Coq Require Import ZArith List Lia Sorting.Sorted.
From Hts Require Import Base.Prim Base.Chunks Model.StrategySpec Model.StrategyRun
  Proofs.Strategy Proofs.StrategyLoop.
Open Scope Z_scope.

(** Every strategy returns normally on every list whatsoever (no index out of
    range, no endless loop): any loop budget of at least the length suffices
    and the result does not depend on it. *)
Theorem strategy_total :
  forall s fuel l, (length l <= fuel)%nat ->
    exists out, run_strategy_fuel s fuel l = Ok out /\ run_strategy s l = Ok out.
Proof.
  intros s fuel l Hf. exists (model_of s l).
  split; [apply run_fuel_model; assumption | apply run_model].
Qed.
Print Assumptions strategy_total.

(** The result of every strategy on a list sorted by begin is sorted by begin. *)
Theorem strategy_sorted :
  forall s l out, sorted_begin l -> run_strategy s l = Ok out -> sorted_begin out.
Proof.
  intros s l out Hs H. apply run_inv in H. subst. destruct s; simpl.
  - assumption.
  - apply merge_sorted; assumption.
  - destruct l; repeat constructor.
  - apply merge_sorted; assumption.
Qed.
Print Assumptions strategy_sorted.

(** No strategy loses coverage: every position covered by the (sorted) input
    is covered by the result. *)
Theorem strategy_covers :
  forall s l out, valid_chunks l -> sorted_begin l -> run_strategy s l = Ok out ->
    forall v, covered l v -> covered out v.
Proof.
  intros s l out Hv Hs H. apply run_inv in H. subst.
  rewrite model_merge by assumption. apply merge_covers; assumption.
Qed.
Print Assumptions strategy_covers.

(** Adjacent covers exactly the positions the input covers ... *)
Theorem adjacent_exact :
  forall l out, valid_chunks l -> sorted_begin l -> run_strategy Adjacent l = Ok out ->
    forall v, covered out v <-> covered l v.
Proof. intros l out Hv Hs H. apply run_inv in H. subst. apply adjacent_exact_gen; assumption. Qed.
Print Assumptions adjacent_exact.

(** ... with chunks that are pairwise separated: each ends strictly before
    every later one begins. *)
Theorem adjacent_separated :
  forall l out, valid_chunks l -> sorted_begin l -> run_strategy Adjacent l = Ok out ->
    pairwise_separated out.
Proof. intros l out Hv Hs H. apply run_inv in H. subst. apply adjacent_separated_gen; assumption. Qed.
Print Assumptions adjacent_separated.

(** Squash returns no chunk for no chunks and otherwise the single enclosing
    chunk: it begins where the first chunk begins, which is the least begin,
    and ends at the End of an input chunk that no End exceeds. *)
Theorem squash_enclosing :
  forall l out, valid_chunks l -> sorted_begin l -> run_strategy Squash l = Ok out ->
    (l = [] -> out = []) /\ (l <> [] -> exists e, out = [e] /\ encloses e l).
Proof.
  intros l out Hv Hs H. apply run_inv in H. subst. destruct l as [| c t].
  - split; [reflexivity | intros N; destruct N; reflexivity].
  - split; [discriminate | intros _; apply squash_enclosing_gen; assumption].
Qed.
Print Assumptions squash_enclosing.

(** A Compressor leaves no two neighbours within its threshold: for every
    threshold (any integer, in particular every int64, negative ones and
    MaxInt64 included) consecutive result chunks a, b have
    File(End a) + near < File(Begin b).  Sortedness is not needed. *)
Theorem compressor_gap :
  forall near l out, valid_chunks l -> run_strategy (Compressor near) l = Ok out ->
    neighbours_far near out.
Proof. intros near l out Hv H. apply run_inv in H. subst. apply compressor_gap_gen; assumption. Qed.
Print Assumptions compressor_gap.

(** Applying a strategy to its own result changes nothing (all lists). *)
Theorem strategy_idempotent :
  forall s l out, run_strategy s l = Ok out -> run_strategy s out = Ok out.
Proof.
  intros s l out H. apply run_inv in H. subst. rewrite run_model. f_equal. destruct s; simpl.
  - reflexivity.
  - apply merge_idempotent, adj_mergeable_begin.
  - destruct l; reflexivity.
  - apply merge_idempotent, cmp_mergeable_begin.
Qed.
Print Assumptions strategy_idempotent.

(** Identity leaves the list unaltered. *)
Theorem identity_unaltered : forall l, run_strategy Identity l = Ok l.
Proof. reflexivity. Qed.
Print Assumptions identity_unaltered.

(** Results consist of BGZF offsets again (so the theorems above apply to
    repeated merging, e.g. MergeChunks called twice with different strategies). *)
Theorem strategy_valid :
  forall s l out, valid_chunks l -> run_strategy s l = Ok out -> valid_chunks out.
Proof.
  intros s l out Hv H. apply run_inv in H. subst.
  rewrite model_merge by assumption. apply merge_valid; assumption.
Qed.
Print Assumptions strategy_valid.

(** What exactly a strategy returns (all lists of BGZF chunks, sorted or not):
    the input is cut into consecutive runs and every run is replaced by its
    enclosing chunk (Begin of its first chunk, the largest End); a chunk
    continues the run before it exactly when the strategy's relation holds
    between the run's enclosing chunk so far and the chunk — never for
    Identity, always for Squash, "begins at or before the end" for Adjacent,
    "begins within near compressed bytes of the end" for a Compressor.  So a
    strategy neither merges more nor less than it documents, and every result
    offset is an input offset. *)
Theorem strategy_runs :
  forall s l out, valid_chunks l -> run_strategy s l = Ok out -> merged_runs (joins s) l out.
Proof.
  intros s l out Hv H. apply run_inv in H. subst.
  rewrite model_merge by assumption. apply merge_runs; [apply merge_cond_joins | assumption].
Qed.
Print Assumptions strategy_runs.

(** Non-vacuity: a sorted list of BGZF chunks with a nested, a touching, a
    zero-length and a distant chunk, and what each strategy returns for it. *)
Definition c17_example : list chunk :=
  [((0, 0), (7, 100)); ((0, 5), (0, 9)); ((7, 100), (7, 200)); ((7, 200), (7, 200)); ((50, 0), (60, 0))].

Example c17_example_hyps : valid_chunks c17_example /\ sorted_begin c17_example.
Proof.
  split; unfold c17_example.
  - repeat (apply Forall_cons;
            [unfold valid_chunk, valid_offset, c_Begin, c_End, o_File, o_Block; cbn [fst snd]; lia |]).
    apply Forall_nil.
  - repeat (apply Sorted_cons;
            [| first [apply HdRel_nil
                     | apply HdRel_cons; unfold begin_le, pos, c_Begin, o_File, o_Block; cbn [fst snd]; lia]]).
    apply Sorted_nil.
Qed.

Example c17_example_runs :
  run_strategy Adjacent c17_example = Ok [((0, 0), (7, 200)); ((50, 0), (60, 0))]
  /\ run_strategy Squash c17_example = Ok [((0, 0), (60, 0))]
  /\ run_strategy (Compressor 42) c17_example = Ok [((0, 0), (7, 200)); ((50, 0), (60, 0))]
  /\ run_strategy (Compressor 43) c17_example = Ok [((0, 0), (60, 0))]
  /\ run_strategy (Compressor (-1)) c17_example
     = Ok [((0, 0), (7, 100)); ((7, 100), (7, 200)); ((7, 200), (7, 200)); ((50, 0), (60, 0))]
  /\ run_strategy (Compressor 9223372036854775807) c17_example = Ok [((0, 0), (60, 0))]
  /\ covered c17_example 300 /\ ~ covered c17_example (7 * 65536 + 200).
Proof.
  do 6 (split; [vm_compute; reflexivity |]). split.
  - exists ((0, 0), (7, 100)). split; [left; reflexivity |].
    unfold covers, pos, c_Begin, c_End, o_File, o_Block; cbn [fst snd]; lia.
  - intros [c [Hin Hc]]. unfold covers, pos in Hc. cbn in Hin.
    repeat (destruct Hin as [<- | Hin];
            [unfold c_Begin, c_End, o_File, o_Block in Hc; cbn [fst snd] in Hc; lia |]).
    destruct Hin.
Qed.
