(** C01 — BGZF write -> read round trip is lossless.
    Statements, each derived from the lemmas of Proofs/Bgzf.v, Writer.v,
    WriterThms.v, WriterReaderThms.v, WriterProgress.v, WrSkel.v.
    [run_writer] is the sequential writer machine (Model/Writer.v: the program
    of Write/Flush/Wait/Close as coded), [wr_out] the bytes it hands to the
    underlying writer, [wr_conc] the concurrent pipeline (Model/WriterConc.v)
    run under a schedule, [read_all] a BGZF reader written from the
    specification (walks members by BSIZE), [codec_laws] the assumptions about
    DEFLATE / CRC-32 (Section hypotheses, validated at run time), [hdr_ok] a
    gzip header setting that compress/gzip accepts and that leaves room for a
    full block.  The BSIZE back-patch mode, BlockSize, MaxBlockSize,
    magicBlock, compressBound are regenerated from the Go source. *)
From Coq Require Import ZArith List Bool.
From Hts Require Import Base.Prim Generated Model.Bgzf Model.Writer Model.WriterConc
  Model.Flat Model.Reader Proofs.Bgzf Proofs.Writer Proofs.WriterThms Proofs.WrSkel
  Proofs.ReaderFlat Proofs.WriterReader Proofs.WriterReaderThms Model.WriterEnabled Proofs.WriterProgress.
Import ListNotations.
Open Scope Z_scope.

(** Every script of Write p | Flush | Wait | Close calls followed by Close,
    every level, every admissible header: once the writer machine has run to
    completion, reading its output back gives exactly the payloads written
    before the first Close, then end of data; a plain multi-member gzip
    decoder gives the same; the stream ends with the EOF marker. *)
Theorem bgzf_roundtrip :
  forall deflate inflate crc32, codec_laws deflate inflate crc32 ->
  forall lvl h, hdr_ok h ->
  forall script fuel,
    let s := run_writer fuel (script ++ [OpClose]) in
    sdone s = true ->
    read_all inflate crc32 (wr_out deflate crc32 lvl h s) = Some (written (script ++ [OpClose]))
    /\ gunzip_multi inflate crc32 (wr_out deflate crc32 lvl h s) = Some (written (script ++ [OpClose]))
    /\ has_eof (wr_out deflate crc32 lvl h s) = true.
Proof.
  intros d i c laws lvl h ok script fuel s Hd.
  assert (I : SInv (written (script ++ [OpClose])) s) by apply run_writer_inv.
  pose proof (close_finished script fuel Hd : s_eof s = true) as He. destruct (eof_complete _ _ I He) as [_ E].
  rewrite (wr_out_stream d i c laws lvl h ok _ _ I), <- E.
  split; [apply (read_all_stream d i c laws lvl h ok), I|]. split; [apply (gunzip_multi_stream d i c laws lvl h ok), I|].
  rewrite He. apply has_eof_app_magic.
Qed.
Print Assumptions bgzf_roundtrip.

(** Reader side: composition with the model of the real bgzf.Reader
    (Model/Reader.v, C02: reader.go + cache.go with blocks as store objects,
    proved to refine the flat reader).  For every script followed by Close:
    the bytes of the finished writer ARE the BGZF file [wr_file] - at every
    member's base the stream continues with a member of m_size = BSIZE+1 bytes
    that a BGZF reader decodes to m_data ([members_at]) -, the file is
    well-formed for the Reader (members of at most 65280 data bytes, so the
    65536-byte corner of C02 does not arise: [addressable]), and for EVERY mix
    of Read n (n >= 0) and ReadByte calls ([read_op]) the modelled Reader
    starts without error, every call returns, and ([reads_ok]) each call
    delivers exactly the next min(wanted, remaining) bytes of the written data
    and reports io.EOF iff it delivered fewer bytes than wanted or the data
    was already exhausted.  [ch] is the Reader model's choice list
    (irrelevant without a cache). *)
Theorem bgzf_roundtrip_reader :
  forall deflate inflate crc32, codec_laws deflate inflate crc32 ->
  forall lvl h, hdr_ok h ->
  forall script fuel,
    let s := run_writer fuel (script ++ [OpClose]) in
    sdone s = true ->
    let F := wr_file deflate crc32 lvl h s in
    wf_file F = true /\ F <> [] /\ addressable F = true
    /\ members_at (bgzf_member inflate crc32) (wr_out deflate crc32 lvl h s) F
    /\ flat_data F = written (script ++ [OpClose])
    /\ forall ch ops, Forall read_op ops ->
         snd (r_init F) = eNil /\
         exists l, r_run F ch (fst (r_init F)) ops = Ok l
                   /\ reads_ok (written (script ++ [OpClose])) 0 ops (rets l).
Proof.
  intros d i c laws lvl h ok script fuel s Hd.
  exact (reader_roundtrip d i c laws lvl h ok _ s (run_writer_inv _ _) (close_finished script fuel Hd)).
Qed.
Print Assumptions bgzf_roundtrip_reader.

(** The sequential writer machine finishes every script (so the premise
    [sdone s = true] above can always be met). *)
Theorem writer_seq_terminates :
  forall script, exists fuel, sdone (run_writer fuel script) = true.
Proof. intros script. eexists. apply run_writer_terminates. Qed.
Print Assumptions writer_seq_terminates.

(** Every writer concurrency wc, every schedule of the caller, the emitter
    and the compressor goroutines: when the caller has finished the script
    and the pipeline holds no block (always so after a successful Close, next
    theorem), the caller saw the same results and the underlying writer
    received exactly the chunks of the sequential writer. *)
Theorem writer_conc_refines_seq :
  forall deflate inflate crc32, codec_laws deflate inflate crc32 ->
  forall lvl h, hdr_ok h ->
  forall wc script sched fuel,
    let st := wr_conc deflate crc32 lvl h wc script sched in
    let sq := run_writer fuel script in
    cdone st = true -> sdone sq = true -> quiescent st ->
    x_api st = sq
    /\ x_out st = seq_chunks deflate crc32 bgzf_wr_patch_mode bgzf_wr_patch_guard bgzf_wr_overflow_check lvl h sq
    /\ out_bytes st = wr_out deflate crc32 lvl h sq.
Proof.
  intros d i c laws lvl h ok wc script sched fuel st sq Hd Hsd Hq.
  pose proof (wr_conc_CInv d i c laws lvl h ok wc script sched) as I.
  pose proof (finished_api _ _ _ _ _ _ _ I Hd Hsd) as E. pose proof (quiescent_refines d i c laws lvl h ok _ _ I Hq) as O.
  fold st in E, O. rewrite E in O.
  split; [exact E|]. split; [exact O|]. unfold out_bytes, wr_out, seq_out. rewrite O. reflexivity.
Qed.
Print Assumptions writer_conc_refines_seq.

Theorem closed_writer_is_quiescent :
  forall deflate inflate crc32, codec_laws deflate inflate crc32 ->
  forall lvl h, hdr_ok h ->
  forall wc script sched,
    let st := wr_conc deflate crc32 lvl h wc script sched in
    s_eof (x_api st) = true -> quiescent st.
Proof.
  intros d i c laws lvl h ok wc script sched st. apply (eof_quiescent d c lvl h script), (wr_conc_CInv d i c laws lvl h ok).
Qed.
Print Assumptions closed_writer_is_quiescent.

(** No deadlock: for every wc, script and schedule (fault-free underlying
    writer), in every reachable state in which the caller has not finished its
    script, the caller, the emitter or a compressor goroutine is enabled
    ([some_enabled]: the guards of the model's channel operations,
    Model/WriterEnabled.v; a thread that is not enabled does not move:
    [api_blocked_noop], [emit_blocked_noop]).  So no call of the script blocks
    for ever: the pipeline is never Stuck. *)
Theorem writer_conc_no_deadlock :
  forall deflate inflate crc32, codec_laws deflate inflate crc32 ->
  forall lvl h, hdr_ok h ->
  forall wc script sched,
    let st := wr_conc deflate crc32 lvl h wc script sched in
    cdone st = false -> some_enabled st.
Proof.
  exact (fun d i c laws lvl h ok wc script sched =>
           run_no_stuck d c bgzf_wr_patch_mode bgzf_wr_patch_guard bgzf_wr_overflow_check lvl h no_fault
                        (fun _ => eq_refl) (proj1 (proj2 laws)) gen_patch_at_12 (proj1 ok) (proj2 ok) wc script sched).
Qed.
Print Assumptions writer_conc_no_deadlock.

(** compressBound(BlockSize) <= MaxBlockSize on the regenerated constants, and
    under the size law no default-header member reaches 64 KiB: writeBlock
    succeeds on every block of at most BlockSize bytes. *)
Theorem member_fits :
  (exists v, bgzf_compressBound bgzf_BlockSize = Ok v /\ v <= bgzf_MaxBlockSize)
  /\ forall deflate inflate crc32, codec_laws deflate inflate crc32 ->
     forall lvl p, zlen p <= bgzf_BlockSize ->
       write_block deflate crc32 bgzf_wr_patch_mode bgzf_wr_patch_guard bgzf_wr_overflow_check lvl default_hdr [] p
       = Ok (member_of deflate crc32 lvl default_hdr p)
       /\ zlen (member_of deflate crc32 lvl default_hdr p) <= 65536.
Proof.
  split; [exact compress_bound_fits|]. intros d i c (_ & B & _) lvl p Hp. destruct default_hdr_ok as [Hl Hs].
  split; [apply write_block_ok; auto using gen_patch_at_12|apply (member_of_fields d c B lvl default_hdr p Hs Hp)].
Qed.
Print Assumptions member_fits.

(** Non-vacuity: a concrete script finishes, sequentially and under a
    round-robin schedule with two extra compressors. *)
Example c01_run_finishes :
  sdone (run_writer 40 ([OpWrite [1; 2; 3]; OpFlush; OpWait; OpWrite [4]] ++ [OpClose])) = true
  /\ let dfl := fun (_ : Z) (d : list Z) => d ++ [0; 0] in
     let st := wr_conc dfl (fun _ => 0) 6 default_hdr 2 [OpWrite [1; 2; 3]; OpFlush; OpWait; OpWrite [4]; OpClose] (rr 30 3) in
     cdone st = true /\ s_eof (x_api st) = true /\ length (x_out st) = 3%nat.
Proof. vm_compute. auto. Qed.
