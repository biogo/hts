(** C03 — block caches are transparent.
    Statements and their derivations; the lemmas are in Proofs/CacheSim.v and
    Proofs/AsyncInv.v, the witnesses in Proofs/CacheWitness.v.
    [r_run]: the rd = 1 reader with store objects and the functional models of
    bgzf/cache LRU / FIFO / Random (Model/Reader.v); [a_run]: the rd > 1
    reader, schedule-driven (Model/ReaderAsync.v). *)
From Coq Require Import ZArith List Bool.
From Hts Require Import Base.Prim Model.Flat Model.Reader Model.ReaderAsync Proofs.ReaderFlat Proofs.ReaderStore Proofs.CacheWitness Proofs.CacheSim Proofs.AsyncInv.
Import ListNotations.
Open Scope Z_scope.

(** rd = 1, LRU, FIFO and Random caches (a StatsRecorder around one behaves as
    its inner cache): for every well-formed file, every valid history with
    SetCache(kind, capacity) calls at arbitrary points - any capacity; a
    capacity below 1 yields no cache, as NewLRU/NewFIFO/NewRandom return nil -,
    and every choice list for Random's eviction victim: the run of the reader
    with store objects and the cache hooks (cacheSwap, cachePut, Peek chain,
    recycling of the current block) returns call by call exactly what the
    reader on block values returns, which ignores SetCache: the same bytes,
    error classes, LastChunk values and BlockLen values; and every call
    returns.  Invariant ([cache_ok], [csr] in Proofs/CacheSim.v): a cached block
    under key k holds the data of the member at k; block ids in the cache are
    distinct; for LRU and Random the current block is never in the cache; for
    FIFO it may be (Get keeps used blocks) but then Put answers (nil, false) and
    the reader allocates a new block instead of recycling it. *)
Theorem cache_transparent_sync :
  forall (F : file) (ch : list nat) (ops : list rop),
    wf_file F = true -> F <> [] -> Forall (valid_op F) ops ->
    r_run F ch (fst (r_init F)) ops = v_run F (fst (v_init F)) ops /\
    exists l, v_run F (fst (v_init F)) ops = Ok l /\ length l = length ops.
Proof.
  intros F ch ops W Hne Hv. destruct (init_sim F W Hne) as [Hs _]. split.
  - exact (run_c F W (get_holds F) (put_holds F) peek_holds ch ops _ _ f_init (init_csr F W Hne) Hs Hv).
  - destruct (v_refines_flat F ops W Hne Hv) as (_ & l & Hl & H1 & _).
    exists l. split; [exact Hl|exact (rets_length _ _ _ _ H1)].
Qed.
Print Assumptions cache_transparent_sync.

(** The cache models honour the contract the reader relies on (Get hands the
    block over and forgets it; Put retains or returns the block and evicts at
    most other entries; Peek knows exactly the keys held), for LRU, FIFO and Random
    in any state satisfying the invariant (FIFO: Get keeps a used block, Put of a
    block that is still indexed answers (nil, false)). *)
Theorem cache_models_honour_contract :
  forall F, get_contract F /\ put_contract F /\ peek_contract.
Proof. exact (fun F => conj (get_holds F) (conj (put_holds F) peek_holds)). Qed.
Print Assumptions cache_models_honour_contract.

(** rd > 1 with a cache: the statement is false.  rd = 2, LRU(2), a 15-byte
    member plus EOF marker; under the schedule that runs the read-ahead only
    when the consumer waits, the history ends in a deadlock (outcome 2), while
    the same history without SetCache returns (outcome 0) and so does the rd = 1
    reader with the cache.  Recorded finding C03-async-cache; replayed on the code. *)
Theorem cache_transparent_async_refuted :
  wf_file small_file = true /\ Forall (valid_op small_file) async_history /\
  a_outcome small_file 2 [0; 0; 0; 0; 0]%nat async_history = 2 /\
  a_outcome small_file 2 [0; 0; 0; 0; 0]%nat (strip_cache async_history) = 0 /\
  (exists l, run_rets small_file [] async_history = Some l).
Proof.
  split; [vm_compute; reflexivity|].
  split; [repeat constructor; vm_compute; try reflexivity; discriminate|].
  split; [vm_compute; reflexivity|]. split; [vm_compute; reflexivity|].
  eexists. vm_compute. reflexivity.
Qed.
Print Assumptions cache_transparent_async_refuted.

(** rd > 1, safety (holds for every file, cache, schedule and history, with
    or without a cache): the rd decompressors are conserved.  After any
    history that returned, every decompressor 0..rd-1 is in exactly one of
    waiting, working or the hands of the parked read-ahead thread, so neither
    channel (capacity rd) can overflow and no decompressor is used by two
    parties.  Partial: this is the clause [ci_tok] of the invariant [chinv]
    (Proofs/AsyncRefine.v) and it is all that survives with a cache; without a cache the
    full refinement of the flat model under every schedule is
    reader_async_refines_flat_partial in Props/C02.v, with a cache the
    refinement is false (above). *)
Theorem reader_async_safe_partial :
  forall (F : file) (ch : list nat) (rd : nat) (sched : list nat) (ops : list rop) (a' : astate),
    (1 <= rd)%nat -> a_exec F ch (fst (a_init F rd sched)) ops = Ok a' ->
    Permutation.Permutation (tokens a') (seq 0 rd) /\
    (length (a_waiting a') + length (a_working a') <= rd)%nat.
Proof.
  intros F ch rd sched ops a' Hrd H.
  pose proof (Permutation.Permutation_trans (a_exec_tokens F ch ops _ a' H) (a_init_tokens F rd sched Hrd)) as P.
  split; [exact P|exact (tokens_bound a' rd P)].
Qed.
Print Assumptions reader_async_safe_partial.

(** Non-vacuity: histories with SetCache calls, evictions and re-visits, incl. a
    FIFO history that re-visits a used block. *)
Example c03_example :
  let F := ten_blocks in
  let ops := [OSetCache KLRU 2; ORead 3; OSeek 0 1; ORead 5; OSetCache KRandom 1; OSeek 60 0; ORead 100; OSeek 30 2; OByte;
              OSetCache KFIFO 2; OSeek 0 0; ORead 5; OSeek 0 0; ORead 7; OSeek 60 1; ORead 3] in
  Forall (valid_op F) ops /\
  r_run F [1; 0]%nat (fst (r_init F)) ops = v_run F (fst (v_init F)) ops /\
  last_ret F [] fifo_history = Some ([4; 5], eNil).
Proof.
  cbv zeta. split; [repeat constructor; vm_compute; try reflexivity; discriminate|].
  split; vm_compute; reflexivity.
Qed.
