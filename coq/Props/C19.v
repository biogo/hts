(** C19 — FAI index and File return exactly the requested subsequence.
    Statements with short derivations from Proofs/FaiBase.v, FaiIndex.v, FaiRead.v,
    FaiTsv.v, FaiTsvIndex.v.

    [newindex], [file_seq], [file_seqrange], [seq_script] (a script of
    Seq.Read / Reset calls), [writeto], [readfrom] are the executable model
    of fai/fai.go and fai/file.go (Model/Fai.v); Record.position,
    Record.endOfLineOffset and the blank-line arm of NewIndex are regenerated
    from the Go source on every run (Generated.v).  [fasta] / [wf] / [render]
    / [index_of] / [bases] / [ideal_script] describe well-formed FASTA files,
    their true faidx entries and an ideal reader, independently of the code. *)
From Coq Require Import ZArith List Bool Lia.
From Hts Require Import Base.Prim Generated Model.Fai Proofs.FaiBase Proofs.FaiIndex Proofs.FaiRead Proofs.FaiTsv Proofs.FaiTsvIndex.
From Coq Require Import Permutation.
Open Scope Z_scope.

(** For every well-formed FASTA structure (any number of records, records
    WITHOUT sequence — a header directly followed by another header, by blank
    lines or by the end of the file — included, any line width, LF or CRLF per
    record, descriptions, blank lines before / between records, last line
    terminated or not) whose lines fit the bufio.Scanner of NewIndex
    ([lines_fit]: every line with its terminator has at most 65536 bytes, an
    unterminated last line at most 65535), NewIndex of the rendered bytes is
    exactly the list of true entries (name, length, offset of the first base,
    bases per line, bytes per line; a record without sequence has
    length 0, the offset just after its header line, and 0 / 0). *)
Theorem fai_index_correct :
  forall f, wf f = true -> lines_fit (render f) = true -> newindex (render f) = Ok (index_of f).
Proof. exact newindex_render. Qed.
Print Assumptions fai_index_correct.

(** The io.ReaderAt under File is quantified by its contract (Model/Fai.v,
    [read_at]): ReadAt(p, off) delivers min(len p, size-off) bytes; io.EOF is
    mandatory when that is fewer than len p, excluded when the bytes do not
    end at the end of the source, and FREE (nil or io.EOF) when all len p
    bytes were delivered and they end exactly at the end of the source.
    [ch : nat -> bool] is that free choice for the 1st, 2nd, ... ReadAt call
    of the history, [c] the number of calls made before.

    Every record r of a well-formed file, every range 0 <= s <= e <= length,
    EVERY script of Read calls (any buffer sizes, including empty buffers and
    Reset) and EVERY contract-conforming ReaderAt behaviour: SeqRange succeeds
    and the results satisfy the io.Reader contract over bases s..e
    ([conforms]: each Read returns exactly the next min(size, remaining)
    bases; io.EOF when fewer than size were left, nil when more were left,
    either when exactly size were left).  When the ReaderAt never reports
    io.EOF together with the last bytes (bytes.Reader, os.File) the results
    are exactly the ideal reader's. *)
Theorem fai_read_range :
  forall f rs1 r rs2 s e sizes ch c,
    wf f = true -> lines_fit (render f) = true -> f_recs f = rs1 ++ r :: rs2 -> 0 <= s <= e -> e <= zlen (bases r) ->
    exists idx q,
      newindex (render f) = Ok idx /\ file_seqrange idx (s_name r) s e = Ok q /\
      conforms (slice (bases r) s e) (slice (bases r) s e) sizes (seq_script (render f) ch c q sizes) = true /\
      ((forall n, ch n = false) ->
       seq_script (render f) ch c q sizes = ideal_script (slice (bases r) s e) (slice (bases r) s e) sizes).
Proof.
  intros f rs1 r rs2 s e sizes ch c Hwf Hfit Hsplit Hse He.
  destruct (read_record f rs1 r rs2 s e sizes ch c Hwf Hsplit Hse He) as (en & Hlook & Hlen & H).
  exists (index_of f), (mkSeq en s s e). split; [apply newindex_render; assumption|]. split; [|exact H].
  unfold file_seqrange. rewrite Hlook, Hlen.
  destruct (Z.ltb_spec s 0); [lia|]. destruct (Z.ltb_spec e 0); [lia|]. destruct (Z.ltb_spec e s); [lia|].
  destruct (Z.ltb_spec (zlen (bases r)) s); [lia|]. destruct (Z.ltb_spec (zlen (bases r)) e); [lia|].
  reflexivity.
Qed.
Print Assumptions fai_read_range.

(** The same for File.Seq (the complete sequence). *)
Theorem fai_read_whole :
  forall f rs1 r rs2 sizes ch c,
    wf f = true -> lines_fit (render f) = true -> f_recs f = rs1 ++ r :: rs2 ->
    exists idx q,
      newindex (render f) = Ok idx /\ file_seq idx (s_name r) = Ok q /\
      conforms (bases r) (bases r) sizes (seq_script (render f) ch c q sizes) = true /\
      ((forall n, ch n = false) -> seq_script (render f) ch c q sizes = ideal_script (bases r) (bases r) sizes).
Proof.
  intros f rs1 r rs2 sizes ch c Hwf Hfit Hsplit. pose proof (Base.WrList.zlen_nonneg (bases r)) as H0.
  destruct (read_record f rs1 r rs2 0 (zlen (bases r)) sizes ch c Hwf Hsplit) as (en & Hlook & Hlen & H); try lia.
  exists (index_of f), (mkSeq en 0 0 (r_len en)). split; [apply newindex_render; assumption|].
  unfold file_seq. rewrite Hlook, Hlen. rewrite slice_full in H. split; [reflexivity|exact H].
Qed.
Print Assumptions fai_read_whole.

(** Reading to the end with any non-empty buffers over any conforming
    ReaderAt: the bytes delivered up to and including the first call that
    reports io.EOF are exactly bases s..e, and io.EOF is reported. *)
Theorem fai_read_to_eof :
  forall f rs1 r rs2 s e sizes ch c,
    wf f = true -> lines_fit (render f) = true -> f_recs f = rs1 ++ r :: rs2 -> 0 <= s <= e -> e <= zlen (bases r) ->
    Forall (fun k => 1 <= k) sizes -> e - s < fold_right Z.add 0 sizes ->
    exists idx q,
      newindex (render f) = Ok idx /\ file_seqrange idx (s_name r) s e = Ok q /\
      drain (seq_script (render f) ch c q sizes) = Some (slice (bases r) s e).
Proof.
  intros f rs1 r rs2 s e sizes ch c Hwf Hfit Hsplit Hse He Hpos Hsum.
  destruct (fai_read_range f rs1 r rs2 s e sizes ch c Hwf Hfit Hsplit Hse He) as (idx & q & H1 & H2 & H3 & _).
  exists idx, q. split; [assumption|]. split; [assumption|].
  eapply conforms_drain; [exact H3|assumption|]. rewrite zlen_slice by lia. assumption.
Qed.
Print Assumptions fai_read_to_eof.

(** A record without sequence (length zero, whatever its layout fields):
    every script of reads behaves as the ideal reader over the empty string;
    in particular no division by the zero line width, and no ReadAt at all. *)
Theorem fai_read_zero_length :
  forall file ch c e sizes, r_len e = 0 ->
    seq_script file ch c (mkSeq e 0 0 0) sizes = ideal_script [] [] sizes.
Proof. intros file ch c e sizes _. apply read_zero_length. Qed.
Print Assumptions fai_read_zero_length.

(** Beyond the Scanner's limit NewIndex answers with an error — the
    Scanner's "token too long", or an error exit of the scan loop on an
    earlier line — for EVERY input, never with an index (no wrong data). *)
Theorem fai_long_line_is_error :
  forall file, lines_fit file = false -> exists e, newindex file = Err e.
Proof.
  unfold lines_fit. intros file H. apply scan_tokens_long in H.
  unfold newindex, newindex_gen. destruct (scan_tokens (lines file)) as [toks b]. cbn [snd] in H. subst b.
  destruct (ni_fold_total fai_NewIndex_blank_advances toks nstate0) as [[s' ->]|[e ->]]; cbn [obind]; eauto.
Qed.
Print Assumptions fai_long_line_is_error.

(** WriteTo then ReadFrom gives the index back — the same records, listed by
    ascending Start — for every index with unique names that contain no TAB
    and no LF (any other byte, double quotes included: ReadFrom splits lines
    at TABs without quoting rules), numbers in int64 and a geometry that
    passes the validation of ReadFrom ([geometry_ok]: nothing negative,
    BasesPerLine 0 only for Length 0, BytesPerLine >= BasesPerLine, offset of
    the last base below 2^63); all of that is [good_rec]. *)
Theorem fai_tsv_roundtrip :
  forall idx, NoDup (map r_name idx) -> Forall good_rec idx ->
    readfrom (writeto idx) = Ok (sort_by_start idx) /\ Permutation (sort_by_start idx) idx.
Proof. exact tsv_roundtrip. Qed.
Print Assumptions fai_tsv_roundtrip.

(** The index of EVERY well-formed file (quotes in names, records without
    sequence included) survives WriteTo / ReadFrom unchanged: its entries are
    sorted, uniquely named and pass the geometry validation of ReadFrom
    (twice the file size stays below 2^63, which keeps the validation's
    overflow test away). *)
Theorem fai_tsv_roundtrip_index :
  forall f, wf f = true -> 2 * zlen (render f) + 2 < 2 ^ 63 ->
    readfrom (writeto (index_of f)) = Ok (index_of f).
Proof. exact tsv_roundtrip_index. Qed.
Print Assumptions fai_tsv_roundtrip_index.

(** Every record of an index that ReadFrom accepts has passed the geometry
    validation, whatever the text was. *)
Theorem fai_readfrom_validates :
  forall tsv idx, readfrom tsv = Ok idx -> Forall (fun r => geometry_ok r = true) idx.
Proof. intros tsv idx H. eapply rf_fold_geom; [exact H|constructor]. Qed.
Print Assumptions fai_readfrom_validates.

(** The offset has to advance over blank lines: the variant of NewIndex that
    skips them without counting (the code before the repair) gets a
    well-formed file wrong; the variant that counts gets it right. *)
Theorem fai_blank_offset_needed :
  wf blank_witness = true /\
  newindex_gen false (render blank_witness) <> Ok (index_of blank_witness) /\
  newindex_gen true (render blank_witness) = Ok (index_of blank_witness).
Proof. split; [reflexivity|]. split; [intros H; vm_compute in H; discriminate|reflexivity]. Qed.
Print Assumptions fai_blank_offset_needed.

(** Non-vacuity: a CRLF file with a description, a blank line, a record
    without sequence, a name with a double quote and no final newline is
    well-formed and fits; its index, a read across a line end, the TSV round trip. *)
Example fai_example :
  let f := mkF [true] [mkS [97] [32; 100] [[65; 67; 71]; [84; 65; 67]] [71] true [true];
                       mkS [101] [] [] [] true [];
                       mkS [34; 98] [] [] [78; 78] true []] false in
  wf f = true /\ lines_fit (render f) = true
  /\ newindex (render f) = Ok [mkRec [97] 7 8 3 5; mkRec [101] 0 27 0 0; mkRec [34; 98] 2 32 2 2]
  /\ readfrom (writeto (index_of f)) = Ok (index_of f)
  /\ match file_seqrange (index_of f) [97] 2 7 with
     | Ok q => seq_script (render f) lazy_eof O q [2; 0; 10; 1] = [Ok ([71; 84], 0); Ok ([], 0); Ok ([65; 67; 71], 1); Ok ([], 1)]
     | _ => False
     end
  /\ match file_seq (index_of f) [34; 98] with
     | Ok q => seq_script (render f) lazy_eof O q [2; 1] = [Ok ([78; 78], 0); Ok ([], 1)]
               /\ seq_script (render f) eager_eof O q [2; 1] = [Ok ([78; 78], 1); Ok ([], 1)]
     | _ => False
     end.
Proof. vm_compute. repeat split; reflexivity. Qed.
