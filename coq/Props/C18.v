(** C18 — bam.Merger returns a loss-free, ordered merge re-linked to the merged
    header.  Statements, each derived in a few lines from Proofs/MergeRun.v,
    Merger.v, MergerTop.v, MergerOrders.v, MergerFinal.v, MergerLinks.v and
    Proofs/HeaderWorld.v, HeaderMerge.v, HeaderHist.v.

    Vocabulary (Model/Merger.v): an [input] is the list of records a
    bam.Reader delivers followed by io.EOF or by an error ([i_fail]);
    [run_merge pq links lessf ins] is NewMerger followed by Read until the end
    and returns the records read (each with the index of the input it was
    read from), the end code (0 io.EOF, 1 error, 2 panic, 3 other) and the
    final state; [lessf = None] is concatenation mode; [links] is the
    renumbering of references returned by sam.MergeHeaders; [goheap] is the
    transcription of container/heap, [listpq] a reference priority queue.
    [ins_ok links 0 ins]: every reference id occurring in a record of input i
    has an entry in links[i] (true of what MergeHeaders returns).
    [tagged links 0 ins]: all records of all inputs, re-linked, each tagged
    with the index of its input. *)
From Coq Require Import ZArith List Bool Permutation Sorted.
From Hts Require Import Base.Prim Model.Header Model.HeaderRun Proofs.HeaderWorld Proofs.HeaderMerge Proofs.HeaderHist.
From Hts Require Import Model.Merger Proofs.MergeRun Proofs.Merger Proofs.MergerTop
     Proofs.MergerOrders Proofs.MergerFinal Proofs.MergerLinks.
Import ListNotations.
Open Scope Z_scope.

(** No Panic and no endless Read for any inputs, links and less function, in
    every mode; the merge ends with io.EOF exactly when every input ended
    cleanly and with the error otherwise, and that end is final: every further
    Read returns it again. *)
Theorem merge_errors_reported :
  forall links lessf ins,
    ins_ok links 0 ins ->
    exists outs e mf,
      run_merge goheap links lessf ins = Ok (outs, e, mf) /\
      e = (if all_clean ins then 0 else 1) /\
      mread goheap links lessf mf = Ok (if all_clean ins then GotEOF else GotErr, mf).
Proof.
  intros links lessf ins Hok.
  destruct (goheap_run links lessf ins Hok) as (outs & e & mf & Hrun & [He _] & Hfin).
  exists outs, e, mf. split; [exact Hrun |].
  rewrite (sticky goheap links lessf e mf Hfin), (all_clean_end ins e He).
  now destruct (all_clean ins).
Qed.
Print Assumptions merge_errors_reported.

(** Nothing is invented and nothing is lost: the records returned are a
    sub-bag of the (re-linked) input records, and the whole bag when all inputs
    ended cleanly. *)
Theorem merge_permutation :
  forall links lessf ins,
    ins_ok links 0 ins ->
    exists outs e mf rest,
      run_merge goheap links lessf ins = Ok (outs, e, mf) /\
      Permutation (tagged links 0 ins) (outs ++ rest) /\
      (all_clean ins = true -> rest = []).
Proof.
  intros links lessf ins Hok.
  destruct (goheap_run links lessf ins Hok) as (outs & e & mf & Hrun & (He & (rest & HP & Hr) & _) & _).
  exists outs, e, mf, rest. repeat split; auto.
  intros Hc. apply Hr. now rewrite (all_clean_end ins e He), Hc.
Qed.
Print Assumptions merge_permutation.

(** The records that came from input j appear in the order of input j without
    gaps: they are a prefix of input j (all of it when all inputs ended
    cleanly). *)
Theorem merge_stable_per_input :
  forall links lessf ins,
    ins_ok links 0 ins ->
    exists outs e mf,
      run_merge goheap links lessf ins = Ok (outs, e, mf) /\
      forall j inp, nth_error ins j = Some inp ->
        exists k, proj (Z.of_nat j) outs = firstn k (map (relink links (Z.of_nat j)) (i_recs inp)) /\
                  (all_clean ins = true -> proj (Z.of_nat j) outs = map (relink links (Z.of_nat j)) (i_recs inp)).
Proof.
  intros links lessf ins Hok.
  destruct (goheap_run links lessf ins Hok) as (outs & e & mf & Hrun & (He & _ & Hst) & _).
  exists outs, e, mf. split; [exact Hrun |]. intros j inp Hn.
  destruct (Hst j inp Hn) as [k [Hk Hall]]. exists k. split; [exact Hk |].
  intros Hc. apply Hall. now rewrite (all_clean_end ins e He), Hc.
Qed.
Print Assumptions merge_stable_per_input.

(** Re-linking, with sam.MergeHeaders as modelled and proved for C07
    (Model/Header.v, Props/C07.v merge_links).  [w] is a world of headers and
    reference objects satisfying the header invariant; [s0 :: srcs] are the
    source headers; MergeHeaders succeeds with merged header number
    [length (w_h w)] in world [w'] and link table [hl]; the records of input j
    refer to references of source header j (bam.Reader rejects anything else).
    Then NewMerger + Read with that link table returns, and every returned
    record is a record of the input it is attributed to with name, position and
    identity unchanged, whose reference and mate reference have become
    ([ref_belongs]) the id of a reference that the merged header owns and lists
    at that id and that has the name and length the source header gave it (a
    nil reference stays nil). *)
Theorem merge_relinked :
  forall w s0 srcs w' hl lessf ins,
    WInv w -> (s0 < length (w_h w))%nat -> (forall s, In s srcs -> (s < length (w_h w))%nat) ->
    Header.merge_headers w s0 srcs = Ok (w', 0, hl) ->
    inputs_fit w (s0 :: srcs) ins ->
    exists outs e mf,
      run_merge goheap (Some (links_of w' hl)) lessf ins = Ok (outs, e, mf) /\
      forall i r, In (i, r) outs ->
        exists j s hs inp r0,
          i = Z.of_nat j /\ nth_error (s0 :: srcs) j = Some s /\ nth_error (w_h w) s = Some hs /\
          nth_error ins j = Some inp /\ In r0 (i_recs inp) /\
          r_uid r = r_uid r0 /\ r_name r = r_name r0 /\ r_pos r = r_pos r0 /\ r_key r = r_key r0 /\
          ref_belongs w w' (length (w_h w)) hs (r_ref r0) (r_ref r) /\
          ref_belongs w w' (length (w_h w)) hs (r_mref r0) (r_mref r).
Proof.
  intros w s0 srcs w' hl lessf ins I L0 V Hm Hfit.
  destruct (merge_headers_spec w s0 srcs I L0 V) as (w2 & e & links & Hm' & _ & _ & _ & HG).
  rewrite Hm in Hm'. inversion Hm'; subst w2 e links.
  exact (relinked_records w w' (length (w_h w)) (s0 :: srcs) hl (HG eq_refl) lessf ins Hfit).
Qed.
Print Assumptions merge_relinked.

(** One input: MergeHeaders returns the source header itself and nil links;
    the records are returned as read — they already refer to the merged
    header. *)
Theorem merge_relinked_single_input :
  forall lessf inp,
    exists outs e mf,
      run_merge goheap None lessf [inp] = Ok (outs, e, mf) /\
      forall i r, In (i, r) outs -> i = 0 /\ In r (i_recs inp).
Proof.
  intros lessf inp.
  assert (Hok : ins_ok None 0 [inp]).
  { split; [| exact I]. apply Forall_forall. intros r _. now exists r. }
  destruct (goheap_run None lessf [inp] Hok) as (outs & e & mf & Hrun & Hres & _).
  exists outs, e, mf. split; [exact Hrun |]. intros i r Hin.
  destruct (result_relinked _ _ _ _ Hok Hres i r Hin) as ([| [| j]] & inp' & r0 & -> & Hinp & Hr0 & Hre);
    try discriminate.
  inversion Hinp; inversion Hre; subst. auto.
Qed.
Print Assumptions merge_relinked_single_input.

(** The same fact for an arbitrary link table: every returned record is a
    record of the input it is attributed to, passed through reassignReference
    exactly once. *)
Theorem merge_relinked_any_links :
  forall links lessf ins,
    ins_ok links 0 ins ->
    exists outs e mf,
      run_merge goheap links lessf ins = Ok (outs, e, mf) /\
      forall i r, In (i, r) outs ->
        exists j inp r0, i = Z.of_nat j /\ nth_error ins j = Some inp /\ In r0 (i_recs inp) /\
                         reassign links i r0 = Ok r.
Proof.
  intros links lessf ins Hok.
  destruct (goheap_run links lessf ins Hok) as (outs & e & mf & Hrun & Hres & _).
  exists outs, e, mf. split; [exact Hrun | exact (result_relinked _ _ _ _ Hok Hres)].
Qed.
Print Assumptions merge_relinked_any_links.

(** reassignReference replaces the reference and the mate reference by
    the entry of the input's link table and leaves every other field alone. *)
Theorem reassign_reference_fields :
  forall links i r r',
    reassign links i r = Ok r' ->
    r_uid r' = r_uid r /\ r_name r' = r_name r /\ r_pos r' = r_pos r /\ r_key r' = r_key r /\
    match links with
    | None => r_ref r' = r_ref r /\ r_mref r' = r_mref r
    | Some ls =>
      (if r_ref r <? 0 then r_ref r' = r_ref r else link_of ls i (r_ref r) = Ok (r_ref r')) /\
      (if r_mref r <? 0 then r_mref r' = r_mref r else link_of ls i (r_mref r) = Ok (r_mref r'))
    end.
Proof.
  intros [ls |] i r r' H.
  - apply reassign_some in H. destruct H as (a & b & Ha & Hb & ->). unfold relink1 in Ha, Hb. simpl.
    repeat split; [destruct (r_ref r <? 0) | destruct (r_mref r <? 0)]; congruence.
  - inversion H; subst. repeat split; reflexivity.
Qed.
Print Assumptions reassign_reference_fields.

(** NewMerger as a whole ([new_merger_full]: checks, header merge,
    m.h.SortOrder = so, choice of less).  When it succeeds, all inputs declare
    the merged header's sort order, the mode is the one that order selects, a
    single input keeps its header (references, group order) and gets no link
    table, several inputs get GroupOrder unspecified and a link table. *)
Theorem newmerger_header :
  forall pq code ins h links lessf m,
    new_merger_full pq code ins = Ok (h, links, lessf, m) ->
    exists first rest,
      ins = first :: rest /\
      so_agree (i_so first) ins = true /\
      mh_so h = i_so first /\
      lessf = pick_less (i_so first) code /\
      new_merger pq links lessf ins = Ok m /\
      match rest with
      | [] => links = None /\ mh_refs h = i_refs first /\ mh_go h = i_go first
      | _ => mh_go h = 0 /\ exists ls, links = Some ls
      end.
Proof.
  intros pq code [| first rest] h links lessf m H; [discriminate |]. unfold new_merger_full in H.
  destruct (so_agree (i_so first) (first :: rest)) eqn:Eso; cbn [negb] in H; [| discriminate].
  destruct (merge_headers (first :: rest)) as [[h0 l0] |] eqn:Em; [| discriminate].
  destruct (new_merger pq l0 _ (first :: rest)) as [m0 | | |] eqn:En; cbn [obind] in H; try discriminate.
  inversion H; subst h links lessf m. exists first, rest. repeat split; auto.
  exact (merge_headers_shape _ _ _ _ Em).
Qed.
Print Assumptions newmerger_header.

(** The four declared orders: unsorted (1) = concatenation; queryname (2) and
    coordinate (3) = the two sam.Record methods; unknown (0, and any other
    value) = the caller's less, concatenation when that is nil. *)
Theorem merge_modes :
  forall so code,
    (so = 1 -> pick_less so code = None) /\
    (so = 2 -> pick_less so code = Some less_by_name) /\
    (so = 3 -> pick_less so code = Some less_by_coordinate) /\
    (so <> 1 -> so <> 2 -> so <> 3 -> pick_less so code = custom_less code).
Proof.
  intros so code. unfold pick_less. repeat split; intros; subst; try reflexivity.
  now rewrite !(proj2 (Z.eqb_neq so _)).
Qed.
Print Assumptions merge_modes.

(** The whole statement for the merger NewMerger builds: loss-free, stable,
    errors reported ([merge_result]); concatenation when the declared order
    selects no less; sorted in the declared order ([declared_le]: name /
    merged-header coordinate / the custom order) when every input is. *)
Theorem merge_by_declared_order :
  forall code ins h links lessf m,
    new_merger_full goheap code ins = Ok (h, links, lessf, m) ->
    ins_ok links 0 ins ->
    exists outs e mf,
      drain goheap links lessf (S (total_recs ins)) m = (outs, e, mf) /\
      merge_result links ins outs e /\
      so_agree (mh_so h) ins = true /\
      lessf = pick_less (mh_so h) code /\
      (lessf = None -> exists rest, tagged links 0 ins = outs ++ rest) /\
      (lessf <> None -> ins_sorted links (declared_le (mh_so h) code) 0 ins ->
       StronglySorted (declared_le (mh_so h) code) (map snd outs)).
Proof.
  intros code ins h links lessf m H Hok.
  destruct (newmerger_header _ _ _ _ _ _ _ H) as (first & rest & _ & Hso & Hh & Hl & Hn & _). rewrite Hh.
  destruct (declared_merge (i_so first) code links lessf ins m Hn Hl Hok) as (outs & e & mf & H1 & H2 & H3).
  exists outs, e, mf. auto.
Qed.
Print Assumptions merge_by_declared_order.

(** Unsorted (or unknown order without less) means concatenation: the output is
    the inputs one after the other, cut after the first failing input. *)
Theorem merge_cat_is_concatenation :
  forall links ins,
    ins_ok links 0 ins ->
    exists outs e mf rest,
      run_merge goheap links None ins = Ok (outs, e, mf) /\
      tagged links 0 ins = outs ++ rest /\ (all_clean ins = true -> rest = []).
Proof.
  intros links ins Hok.
  destruct (cat_merge links goheap ins Hok) as (outs & e & mf & rest & Hrun & Hfl & Hr & (He & _) & _).
  exists outs, e, mf, rest. repeat split; auto.
  intros Hc. apply Hr. now rewrite (all_clean_end ins e He), Hc.
Qed.
Print Assumptions merge_cat_is_concatenation.

(** Ordered output.  For every transitive relation [le] and every less function
    that is compatible with it (it answers true only if a <= b and false only
    if b <= a — LessByCoordinate answers true for two records without
    reference in both directions, so less need not be a strict order): if
    every input is sorted by [le] after re-linking, the output is sorted by
    [le] — also when the merge is cut short by an error.  [goheap] is the
    transcription of container/heap; that it keeps the heap order for such
    comparisons is proved (Proofs/MergerHeap.v), not assumed. *)
Theorem merge_sorted :
  forall links (le : rec -> rec -> Prop) less ins,
    (forall a b c, le a b -> le b c -> le a c) -> less_compat le less ->
    ins_ok links 0 ins -> ins_sorted links le 0 ins ->
    exists outs e mf,
      run_merge goheap links (Some less) ins = Ok (outs, e, mf) /\
      StronglySorted le (map snd outs) /\ merge_result links ins outs e.
Proof.
  intros links le less ins Htr HC Hok Hs.
  destruct (sorted_merge links le Htr less goheap _ ins (goheap_min_spec le less Htr HC) Hok)
    as (outs & e & mf & H1 & H2 & _ & H4).
  exists outs, e, mf. auto.
Qed.
Print Assumptions merge_sorted.

(** The same for any priority queue that meets the container/heap contract
    with respect to bySortOrderAndID.Less (bag laws, no failure when the
    comparison does not panic, an invariant under which Pop returns an element
    that is [le]-below all that remain): the merger's own logic does not
    depend on how the queue is implemented. *)
Theorem merge_sorted_any_queue :
  forall links (le : rec -> rec -> Prop) less pq wf ins,
    (forall a b c, le a b -> le b c -> le a c) ->
    pq_spec (rless less) (pq_init_of pq (rless less)) (pq_push_of pq (rless less))
            (pq_pop_of pq (rless less)) wf (fun x q' => Forall (leR le x) q') ->
    ins_ok links 0 ins -> ins_sorted links le 0 ins ->
    exists outs e mf,
      run_merge pq links (Some less) ins = Ok (outs, e, mf) /\
      StronglySorted le (map snd outs) /\ merge_result links ins outs e.
Proof.
  intros links le less pq wf ins Htr PQ Hok Hs.
  destruct (sorted_merge links le Htr less pq wf ins PQ Hok) as (outs & e & mf & H1 & H2 & _ & H4).
  exists outs, e, mf. auto.
Qed.
Print Assumptions merge_sorted_any_queue.

(** The declared orders: for the less function NewMerger selects — query name
    (Name, bytewise), coordinate (reference order of the merged header, then
    position, records without reference last) and the custom functions — the
    output is sorted in that order. *)
Theorem merge_sorted_declared_orders :
  forall links so code less ins,
    pick_less so code = Some less ->
    ins_ok links 0 ins ->
    ins_sorted links (if so =? 2 then le_name else if so =? 3 then le_coord else le_custom code) 0 ins ->
    exists outs e mf,
      run_merge goheap links (Some less) ins = Ok (outs, e, mf) /\
      StronglySorted (if so =? 2 then le_name else if so =? 3 then le_coord else le_custom code) (map snd outs) /\
      merge_result links ins outs e.
Proof.
  intros links so code less ins Hp Hok Hs.
  apply merge_sorted; auto; [exact (declared_le_trans so code) | exact (pick_less_compat so code less Hp)].
Qed.
Print Assumptions merge_sorted_declared_orders.

(** The contract is met by a second, specification-level queue as well. *)
Theorem merge_sorted_reference_queue :
  forall links (le : rec -> rec -> Prop) less ins,
    (forall a b c, le a b -> le b c -> le a c) -> less_compat le less ->
    ins_ok links 0 ins -> ins_sorted links le 0 ins ->
    exists outs e mf,
      run_merge listpq links (Some less) ins = Ok (outs, e, mf) /\
      StronglySorted le (map snd outs) /\ merge_result links ins outs e.
Proof.
  intros links le less ins Htr HC Hok Hs.
  apply (merge_sorted_any_queue links le less listpq _ ins Htr (listpq_spec le less Htr HC) Hok Hs).
Qed.
Print Assumptions merge_sorted_reference_queue.

(** sam.LessByCoordinate orders by the header's reference order, then position,
    records without reference last; sam.LessByName by name. *)
Theorem less_by_coordinate_is_header_order : less_compat le_coord less_by_coordinate.
Proof. exact less_by_coordinate_compat. Qed.
Print Assumptions less_by_coordinate_is_header_order.

Theorem less_by_name_is_name_order : less_compat le_name less_by_name.
Proof. exact less_by_name_compat. Qed.
Print Assumptions less_by_name_is_name_order.

(** Non-vacuity: two coordinate-sorted inputs whose headers list chrB, chrA and
    chrA, chrB (merged ids 0, 1); links as MergeHeaders returns. *)
Example merge_example :
  let r u ref pos mref := mkRec u [97] ref pos mref 0 in
  let ins := [mkInput [([66], 9); ([65], 9)] 3 [r 1 0 5 1; r 2 1 3 (-1)] false 0;
              mkInput [([65], 9); ([66], 9)] 3 [r 101 1 1 0; r 102 0 2 0; r 103 (-1) 0 (-1)] false 0] in
  let links := Some [[0; 1]; [1; 0]] in
  ins_ok links 0 ins /\ ins_sorted links le_coord 0 ins /\
  match run_merge goheap links (Some less_by_coordinate) ins with
  | Ok (outs, e, _) => map (fun o => (r_uid (snd o), r_ref (snd o), r_mref (snd o))) outs
                       = [(101, 0, 1); (1, 0, 1); (102, 1, 1); (2, 1, -1); (103, -1, -1)] /\ e = 0
  | _ => False
  end.
Proof.
  cbv zeta. split; [| split].
  - simpl. repeat split; repeat constructor; eexists; reflexivity.
  - simpl. repeat split; repeat constructor.
  - vm_compute. split; reflexivity.
Qed.

(** Non-vacuity of merge_relinked: the same two headers built in the header
    model of C07 (references B, A and A, B); MergeHeaders succeeds and the ids
    behind the links it returns are the table used above. *)
Example merge_relinked_example :
  let none := fun _ : str => @None str in
  match c07_exec none none world0 env0
          [ONewRef [66] 9 [] [] [] []; ONewRef [65] 9 [] [] [] []; ONewRef [65] 9 [] [] [] []; ONewRef [66] 9 [] [] [] [];
           ONewHdr None [0; 1]; ONewHdr None [2; 3]] with
  | Ok (w, _) =>
    match Header.merge_headers w 0%nat [1%nat] with
    | Ok (w', c, hl) => c = 0 /\ links_of w' hl = [[0; 1]; [1; 0]] /\ length (w_h w) = 2%nat
    | _ => False
    end
  | _ => False
  end.
Proof. vm_compute. repeat split; reflexivity. Qed.

Example merge_example_failing_input :
  let r u := mkRec u [97] (-1) 0 (-1) 0 in
  match run_merge goheap None (Some less_by_name) [mkInput [] 2 [r 1; r 2] true 0] with
  | Ok (outs, e, _) => map (fun o => r_uid (snd o)) outs = [1; 2] /\ e = 1
  | _ => False
  end.
Proof. vm_compute. split; reflexivity. Qed.
