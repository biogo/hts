(** C02 — virtual offsets address the flat stream: Seek / Read / ReadByte /
    LastChunk of bgzf.Reader without a cache (rd = 1, then rd > 1) obey the
    flat model.
    Statements and their derivations; the lemmas are in Proofs/ReaderFlat.v,
    Proofs/ReaderStore.v and Proofs/AsyncRefine.v.
    [r_run] is the model of bgzf/reader.go + bgzf/cache.go with blocks as store
    objects (Model/Reader.v), [flat_run] the specification (Model/Flat.v):
    a flat byte string with a cursor, a sticky end flag and the Blocked flag.
    A history is valid when every Seek goes to a block start plus an in-block
    offset up to the block's length and every Read has a non-negative size;
    [no_cache_op]: the history does not call SetCache (C03 covers those). *)
From Coq Require Import ZArith List Bool.
From Hts Require Import Base.Prim Model.Flat Model.Reader Model.ReaderAsync Proofs.ReaderFlat Proofs.ReaderStore
  Proofs.AsyncRefine.
Import ListNotations.
Open Scope Z_scope.

(** For every well-formed file (any number of members of 0..65536 data bytes,
    empty members anywhere, with or without EOF marker) and every valid
    history: NewReader succeeds, every call returns, the sequence of
    (bytes, error class) equals the flat reader's - so a read is short or
    empty only at the end of the data, or of a block in Blocked mode, and
    reports io.EOF there -, LastChunk().Begin translates to the cursor before
    the last successful read / seek, and, when every member's end is
    addressable (at most 65535 data bytes per member), LastChunk().End
    translates to the cursor after it.
    Partial: the End clause is not claimed for files with a 65536-byte member
    (see reader_refines_flat_refuted). *)
Theorem reader_refines_flat_partial :
  forall (F : file) (ch : list nat) (ops : list rop),
    wf_file F = true -> F <> [] -> Forall (valid_op F) ops -> forallb no_cache_op ops = true ->
    snd (r_init F) = eNil /\
    exists l, r_run F ch (fst (r_init F)) ops = Ok l /\
      rets l = map fst (flat_run F f_init ops) /\
      begins F l = map (fun y => fst (snd y)) (flat_run F f_init ops) /\
      (addressable F = true -> ends F l = map (fun y => snd (snd y)) (flat_run F f_init ops)).
Proof. exact r_refines_flat. Qed.
Print Assumptions reader_refines_flat_partial.

(** The same for the reader on block values (no store). *)
Theorem value_reader_refines_flat_partial :
  forall (F : file) (ops : list rop),
    wf_file F = true -> F <> [] -> Forall (valid_op F) ops ->
    snd (v_init F) = eNil /\
    exists l, v_run F (fst (v_init F)) ops = Ok l /\
      rets l = map fst (flat_run F f_init ops) /\
      begins F l = map (fun y => fst (snd y)) (flat_run F f_init ops) /\
      (addressable F = true -> ends F l = map (fun y => snd (snd y)) (flat_run F f_init ops)).
Proof. exact v_refines_flat. Qed.
Print Assumptions value_reader_refines_flat_partial.

(** The End clause fails for a member of 65536 bytes (legal in BGZF): after
    reading the whole member LastChunk().End translates to the start of the
    member (0), the flat cursor is 65536.  Recorded finding
    C02-end-of-65536-block-wraps; the witness is replayed on the code. *)
Theorem reader_refines_flat_refuted :
  exists F ops, wf_file F = true /\ F <> [] /\ Forall (valid_op F) ops /\ forallb no_cache_op ops = true /\
    run_ends F ops = Some [0] /\ map (fun y => snd (snd y)) (flat_run F f_init ops) = [65536].
Proof.
  (* only the length of the data is used, the 65536 bytes are never computed *)
  pose proof big_member_len as HL.
  assert (W : wf_file [big_member] = true) by (unfold wf_file; cbn [wf_from]; rewrite HL; reflexivity).
  exists [big_member], [ORead 65536]. split; [exact W|]. split; [discriminate|].
  split; [repeat constructor; discriminate|]. split; [reflexivity|].
  exact (whole_member_ends big_member 65536 W HL eq_refl).
Qed.
Print Assumptions reader_refines_flat_refuted.

(** Every call of every valid history returns (the fuel of the loop that
    skips exhausted blocks and of the copy loop suffices: no Stuck, no Panic). *)
Theorem reader_calls_return :
  forall (F : file) (ch : list nat) (ops : list rop),
    wf_file F = true -> F <> [] -> Forall (valid_op F) ops -> forallb no_cache_op ops = true ->
    exists l, r_run F ch (fst (r_init F)) ops = Ok l /\ length l = length ops.
Proof.
  intros F ch ops W Hne Hv Hn. destruct (r_refines_flat F ch ops W Hne Hv Hn) as (_ & l & Hl & H1 & _).
  exists l. split; [exact Hl|exact (rets_length _ _ _ _ H1)].
Qed.
Print Assumptions reader_calls_return.

(** After any valid history, a Read that returned something (anything but
    "no bytes, io.EOF"), followed by Seek(LastChunk().Begin) and the same Read,
    returns the same bytes, the same error class and the same chunk
    positions.  Partial: stated for files whose members are addressable. *)
Theorem seek_begin_replays_partial :
  forall (F : file) (ch : list nat) (ops : list rop) (n : Z),
    wf_file F = true -> F <> [] -> addressable F = true ->
    Forall (valid_op F) ops -> forallb no_cache_op ops = true -> 0 <= n ->
    exists l o1 o2 o3,
      r_run F ch (fst (r_init F)) (ops ++ [ORead n; OReseek; ORead n]) = Ok (l ++ [o1; o2; o3]) /\
      (fst (obs_tr F o1) <> ([], eEOF) -> obs_tr F o3 = obs_tr F o1).
Proof. exact r_seek_begin_replays. Qed.
Print Assumptions seek_begin_replays_partial.

(** Non-vacuity: a three-member file with an empty member, and a history
    that crosses blocks, hits the end, seeks back and reads in Blocked mode. *)
Example c02_example :
  let F := [mkMember 0 30 [1; 2; 3]; mkMember 30 28 []; mkMember 58 31 [4; 5]] in
  let ops := [ORead 4; OByte; ORead 1; OSeek 0 1; OBlocked true; ORead 9; ORead 9] in
  wf_file F = true /\ Forall (valid_op F) ops /\
  match r_run F [] (fst (r_init F)) ops with
  | Ok l => map (obs_tr F) l = flat_run F f_init ops /\
            rets l = [([1; 2; 3; 4], 0); ([5], 0); ([], 1); ([], 0); ([], 0); ([2; 3], 1); ([4; 5], 1)]
  | _ => False
  end.
Proof.
  split; [reflexivity|]. split; [repeat constructor; vm_compute; try reflexivity; discriminate|].
  vm_compute. split; reflexivity.
Qed.

(** rd > 1, no cache: the reader with the read-ahead goroutine
    (Model/ReaderAsync.v: channels waiting / working / control, rd
    decompressors, the consumer's nextBlock loop and the redirect of Seek) under
    EVERY schedule - the schedule says how many read-ahead iterations run before
    each call and which branch a select with two ready channels takes; while a
    call blocks on a channel the read-ahead thread runs, so the consumer is
    always eventually scheduled.  For every well-formed file, rd >= 2, schedule
    and valid history without SetCache: NewReader succeeds, every call returns
    (no panic "unexpected block", no nil block, no deadlock) and the
    observations are those of the flat stream, exactly as for rd = 1.
    Proved through the invariant [arel] (Proofs/AsyncRefine.v, [chinv] and
    [chan_ok]): the bases of the entries in working followed by what the
    read-ahead thread will still dispatch read "at most rd - 1 stale entries,
    then the NextBase chain from the block the consumer expects"; control full
    implies that the read-ahead thread polls it before its next dispatch; the rd
    decompressors are conserved.
    Partial: only as reader_refines_flat_partial is - the End clause is not
    claimed for files with a 65536-byte member.  Granularity of the model: one
    read-ahead iteration (take from waiting, poll / park on control, fetch, send
    to working) is atomic. *)
Theorem reader_async_refines_flat_partial :
  forall (F : file) (rd : nat) (ch sched : list nat) (ops : list rop),
    wf_file F = true -> F <> [] -> (2 <= rd)%nat -> Forall (valid_op F) ops -> forallb no_cache_op ops = true ->
    snd (a_init F rd sched) = eNil /\
    exists l, a_run F ch (fst (a_init F rd sched)) ops = Ok l /\
      rets l = map fst (flat_run F f_init ops) /\
      begins F l = map (fun y => fst (snd y)) (flat_run F f_init ops) /\
      (addressable F = true -> ends F l = map (fun y => snd (snd y)) (flat_run F f_init ops)).
Proof. exact async_refines_flat_proof. Qed.
Print Assumptions reader_async_refines_flat_partial.

(** rd > 1, no cache: under every schedule every call of every valid history
    returns - outcome 0 of (0 returned, 1 panic, 2 deadlock, 3 error). *)
Theorem reader_async_calls_return :
  forall (F : file) (rd : nat) (sched : list nat) (ops : list rop),
    wf_file F = true -> F <> [] -> (2 <= rd)%nat -> Forall (valid_op F) ops -> forallb no_cache_op ops = true ->
    a_outcome F rd sched ops = 0.
Proof.
  intros F rd sched ops W Hne Hrd Hv Hn. unfold a_outcome.
  destruct (async_refines_flat_proof F rd [] sched ops W Hne Hrd Hv Hn) as (_ & l & H & _). rewrite H. reflexivity.
Qed.
Print Assumptions reader_async_calls_return.
