(** C09 — I/O faults never hang and are never swallowed by the BGZF reader or
    writer.  Statements with their derivations from the lemmas of
    Proofs/FaultWriter.v, Proofs/FaultReader.v, Proofs/FaultReaderFlat.v.

    [writer_variant] is computed from the channel skeleton of bgzf/writer.go
    that gen/ regenerates from /repo on every run (coq/Generated.v,
    the bgzf_wskel_ definitions); [wcfg wc k] is the writer with max(wc+1,2) compressors whose
    k-th and later underlying writes fail (k < 0: none), running that variant.
    [run c sched s] runs an arbitrary schedule (a list of thread names). *)
From Coq Require Import ZArith List Bool.
From Hts Require Import Model.FaultWriter Model.FaultReader Proofs.FaultWriter Proofs.FaultReader Proofs.FaultReaderFlat.
Import ListNotations.
Open Scope Z_scope.

(** Token conservation over the regenerated skeleton: the emitter has no
    break and handles every queued compressor (one receive on its flush
    channel, one call of writeOK per receive on queue); every path of writeOK
    (body followed by its defers) has exactly one qwg.Done and exactly one send
    on waiting, Done first; every path of writeBlock sends once on flush; in
    Write, Flush and Close every send on queue is matched by one qwg.Add, one
    go/call of writeBlock and one receive on waiting.  The variant of the
    model selected by this skeleton is the repaired one. *)
Theorem writer_skeleton_token_conservation :
  skeleton_conserves writer_skel = true /\
  writer_variant = fixed_variant /\
  (forall ps, fn_paths (sk_writeOK writer_skel) = Some ps -> forall p, In p ps ->
     count_ev (EDone qwgS) p = 1 /\ count_ev (ESend waitingS) p = 1 /\ before (EDone qwgS) (ESend waitingS) p = true) /\
  (exists ps, fn_paths (sk_writeOK writer_skel) = Some ps /\ ps <> []).
Proof.
  exact (conj writer_skeleton_conserves (conj writer_variant_fixed
    (conj (writeOK_conserves_paths _ (skeleton_writeOK _ writer_skeleton_conserves)) writeOK_has_paths))).
Qed.
Print Assumptions writer_skeleton_token_conservation.

(** Every call returns: for every number of compressors, fault index, script
    of calls and schedule, in the state reached either the script has been
    completed or some thread can move (no reachable Stuck); and once Close has
    passed its wait for the emitter (in particular after it has returned), the
    emitter has terminated and no compressor goroutine is left. *)
Theorem writer_calls_return :
  forall wc k sc sched,
    let c := wcfg wc k in
    let s := run c sched (init c sc) in
    (api_done s = false -> exists t s', step c s t = Some s') /\
    (closed s = true -> pc s <> ACWg -> quiet s = true).
Proof.
  intros wc k sc sched c s. pose proof (reach_good wc k sc sched) as G.
  split; [apply (no_stuck c (wcfg_fixed wc k) (ncomp_ge2 wc)), G | exact (closed_quiet c s G)].
Qed.
Print Assumptions writer_calls_return.

(** Faults are reported: in every reachable state (a) no underlying write has
    been issued after a failed one; (b) the step in which Close returns yields
    a non-nil class if any underlying write failed (including the EOF marker)
    or an error was latched; (c) the step in which Wait returns yields non-nil
    if any underlying write has failed; (d) once the error is latched, Write,
    Flush and Wait return it; (e) a failed write is latched, or the emitter
    is between the failed write and setErr (where qwg is still held). *)
Theorem writer_reports_fault :
  forall wc k sc sched,
    let c := wcfg wc k in
    let s := run c sched (init c sc) in
    wafter s = 0 /\
    (forall s', pc s = ACMagic -> step_api c s = Some s' ->
       exists cl, results s' = results s ++ [(cl, 0)] /\ (0 < wfailed s' \/ latched s = true -> cl <> 0)) /\
    (forall s', pc s = ATRet -> step_api c s = Some s' ->
       exists cl, results s' = results s ++ [(cl, 0)] /\ (0 < wfailed s -> cl <> 0)) /\
    (forall s' o rest, pc s = AIdle -> script s = o :: rest -> latched s = true ->
       match o with OWrite _ | OFlush | OWait => True | _ => False end ->
       step_api c s = Some s' -> exists cl n, results s' = results s ++ [(cl, n)] /\ cl <> 0) /\
    (0 < wfailed s -> latched s = true \/ exists c0 nx, em s = EFail1 c0 nx).
Proof.
  intros wc k sc sched c s. pose proof (reach_good wc k sc sched) as G.
  split; [apply G|]. split; [|split; [|split]].
  - intros s' P H. exact (close_reports c s s' G P H).
  - intros s' P H. exact (wait_reports c s s' G P H).
  - intros s' o rest P S L O H. exact (latched_calls_fail c s s' o rest G P S L O H).
  - apply G.
Qed.
Print Assumptions writer_reports_fault.

(** The emitter before the repair ([orig_variant]: it leaves its loop on the
    first failure): Write(3*BlockSize), Close with two
    compressors and the first underlying write failing reaches a state in
    which Close is blocked and no thread whatsoever can move. *)
Theorem writer_calls_return_refuted_before_repair :
  exists wc k sc sched,
    let c := {| ncomp := ncomp_of_wc wc; wk := k; vr := orig_variant |} in
    let s := run c sched (init c sc) in
    api_done s = false /\ forall t, step c s t = None.
Proof.
  exists 1, 0, [OWrite 195840; OClose], orig_sched.
  cbv zeta. fold orig_cfg. rewrite orig_stuck_state_eq. exact orig_stuck.
Qed.
Print Assumptions writer_calls_return_refuted_before_repair.

(** Synchronous reader (rd = 1, no cache) over a source that fails at byte
    offset X (persistently or [trans] times) and whose [seekk]-th Seek fails:
    after any sequence of Read/Seek/Close the block the reader serves bytes
    from is the member of the file that starts at the block's base — base,
    size and data belong together — and the count reader is in register with
    the source.  This is the invariant [reader_faults_sound] below is built on;
    "partial" only in that it is block-level.  The async reader and the caches
    are not modelled. *)
Theorem reader_faults_sound_partial :
  forall f x trans seekk ops,
    let '(s0, e0) := ropen rfixed f x trans seekk in
    let s := exec rfixed s0 ops in
    file s = f /\ croff s = r_pos (src s) /\
    (cvalid s = true -> member_at f (cbase s) = Some (chsize s, cdata s)).
Proof.
  intros f x trans seekk ops. destruct (ropen rfixed f x trans seekk) as [s0 e0] eqn:O.
  destruct (exec_ok f ops s0 (proj1 (ropen_ok _ _ _ _ _ _ O))) as [F [R B]]. rewrite F in B. auto.
Qed.
Print Assumptions reader_faults_sound_partial.

(** Synchronous reader at flat byte positions, for every file, every fault plan
    (fault offset, persistent or transient, failing Seek index) and every
    history of Read / Seek / Close after a successful NewReader.  [flat_ok]
    tracks the position the caller is entitled to assume: 0 after NewReader,
    the sought position after a Seek that returned nil, advanced by the bytes
    of every Read that returned nil, unknown after an error until the next
    successful Seek.  Then: the bytes of every Read are exactly the file's data
    at that position ([is_seg]); a Read that reports io.EOF (class 3) has
    reached exactly the end of the data; while the position is unknown, Read
    returns no bytes and a non-nil error.  ([seeks_in_range]: Seek offsets lie
    inside the block sought, as the virtual offsets of an index do.) *)
Theorem reader_faults_sound :
  forall f x trans seekk ops,
    wf_file f -> seeks_in_range f ops ->
    let '(s0, e0) := ropen rfixed f x trans seekk in
    e0 = 0 -> flat_ok f (Some 0) ops (run_ops rfixed s0 ops).
Proof.
  intros f x trans seekk ops W SR. destruct (ropen rfixed f x trans seekk) as [s0 e0] eqn:O. intros ->.
  destruct (ropen_tracks _ _ _ _ _ W O) as [S T]. apply run_ops_flat; assumption.
Qed.
Print Assumptions reader_faults_sound.

(** Retry after a failed Seek: in any reachable state, if a Seek fails (in the
    underlying seeker or while fetching) and a later Seek to the same member
    returns nil, the reader stands on exactly that member: base, data and
    offset are the requested ones.  (The count reader's offset, [croff], is in
    register with the true source position [r_pos] in every reachable state —
    second conjunct of the theorem above — because countReader.seek records
    the offset only after a successful underlying Seek.) *)
Theorem reader_seek_retry_sound :
  forall f x trans seekk ops m w w',
    let '(s0, _) := ropen rfixed f x trans seekk in
    let s := exec rfixed s0 ops in
    forall s1 e1 s2, do_seek rfixed s m w = (s1, e1) -> e1 <> 0 ->
      do_seek rfixed s1 m w' = (s2, 0) ->
      cvalid s2 = true /\ cbase s2 = base_of f m /\ coff s2 = w' /\
      member_at f (base_of f m) = Some (chsize s2, cdata s2).
Proof.
  intros f x trans seekk ops m w w'. destruct (ropen rfixed f x trans seekk) as [s0 e0] eqn:O.
  intros s s1 e1 s2 H1 _ H2. pose proof (exec_ok f ops s0 (proj1 (ropen_ok _ _ _ _ _ _ O))) as S.
  destruct (seek_lands _ _ _ _ _ (seek_ok _ _ _ _ _ _ S H1) H2) as [V [Cb [Co [_ M]]]]. auto.
Qed.
Print Assumptions reader_seek_retry_sound.

(** countReader.seek recording the offset before the underlying Seek is known
    to have succeeded (variant rv_late = false): Seek(member 2) fails, the
    retry returns nil without seeking and Read serves member 1's bytes. *)
Theorem reader_seek_retry_refuted_for_early_offset :
  exists f ops,
    let v := {| rv_inval := true; rv_late := false |} in
    let '(s0, _) := ropen v f (-1) 0 0 in
    run_ops v s0 ops = [(1, []); (0, []); (0, [3; 4])] /\
    run_ops rfixed s0 ops = [(1, []); (0, []); (0, [5; 6])].
Proof.
  exists [(74, [1; 2]); (85, [3; 4]); (60, [5; 6]); (28, [])], [RSeek 2 0; RSeek 2 0; RRead 2].
  vm_compute. split; reflexivity.
Qed.
Print Assumptions reader_seek_retry_refuted_for_early_offset.

(** The reader before the repair (a failed fetch leaves the block's data in
    place, [rv_inval = false]): after a failed fetch of
    member 1 the current block is based at member 1 but holds member 0's data,
    and Seek(member 1); Read returns those bytes with a nil error. *)
Theorem reader_faults_sound_refuted_before_repair :
  exists f x ops,
    let '(s0, _) := ropen {| rv_inval := false; rv_late := true |} f x 0 (-1) in
    let s := exec {| rv_inval := false; rv_late := true |} s0 ops in
    cvalid s = true /\ member_at f (cbase s) <> Some (chsize s, cdata s) /\
    exists m, run_ops {| rv_inval := false; rv_late := true |} s0 (ops ++ [RSeek m 0; RRead 2])
              = run_ops {| rv_inval := false; rv_late := true |} s0 ops ++ [(0, []); (0, [1; 2])]
              /\ base_of f (Z.to_nat m) = 74.
Proof.
  exists [(74, [1; 2]); (85, [3; 4]); (28, [])], 80, [RRead 2; RRead 1].
  destruct (ropen _ _ _ _ _) as [s0 e0] eqn:E. vm_compute in E. injection E as <- _.
  (* the witness for [m] comes before any evaluation: under the binder [Z.to_nat m] is stuck and the normal form is huge *)
  split; [|split; [|exists 1; split]]; vm_compute; congruence.
Qed.
Print Assumptions reader_faults_sound_refuted_before_repair.

(** The code in /repo is the repaired one: the block is invalidated on a failed
    fetch and countReader.seek records its offset after the underlying Seek
    (both read off the source by gen/ on every run). *)
Theorem reader_source_variant : reader_variant = rfixed.
Proof. reflexivity. Qed.
Print Assumptions reader_source_variant.

(** Non-vacuity: a faulty run of the model that ends with every call returned,
    the failure reported by Write and by Close, and all threads terminated. *)
Example writer_run_example :
  let c := wcfg 1 0 in
  let '(s, _) := drive c PLazy 200 (init c [OWrite 195840; OClose]) in
  results s = [(1, 130560); (1, 0)] /\ api_done s = true /\ quiet s = true /\ wfailed s = 1.
Proof. vm_compute. repeat split; reflexivity. Qed.

Example reader_run_example :
  let '(s0, e0) := ropen rfixed [(74, [1; 2]); (85, [3; 4]); (28, [])] 80 0 (-1) in
  run_ops rfixed s0 [RRead 2; RRead 1; RSeek 1 0; RRead 2] = [(0, [1; 2]); (1, []); (1, []); (1, [])].
Proof. vm_compute. reflexivity. Qed.
