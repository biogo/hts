(** C04 — index queries are complete: every added record that overlaps a
    query lies in a chunk returned by Chunks (BAI, tabix, CSI).
    Statements with their derivations; [bai_query_validation] is proved here
    from the definition of [ix_chunks].  The invariants and the general
    theorems are [complete_in] (Proofs/Index.v), [tabix_complete_in]
    (TabixIdx.v) and [csi_complete_in] (CsiLift.v); the other lemmas used
    stand in Proofs/IndexSort.v, IndexHist.v, IndexIOFull.v, IndexFinal.v,
    TabixLift.v, TabixIO.v, CsiIdx.v, CsiIO.v.
    Models: Model/Index.v, Model/Tabix.v, Model/Csi.v (validated against the
    implementation on every run); specification vocabulary: Model/IndexSpec.v,
    Model/TabixSpec.v.

    The bin-containment facts are C16's theorems (Proofs/Bins.v) transported
    to these models; [ix_strategy_covers s] (every chunk of a list sorted by
    begin lies inside one chunk of [s l]) is proved for the four provided
    strategies in [strategies_cover]. *)
From Coq Require Import ZArith List Lia.
From Hts Require Import Base.Prim Generated Model.Index Model.Tabix Model.Csi Model.IndexSpec Model.TabixSpec
  Model.IndexIO Proofs.Index Proofs.TabixIdx Proofs.CsiIdx Proofs.TabixLift Proofs.CsiLift
  Proofs.IndexSort Proofs.IndexIOFull Proofs.IndexFinal Proofs.TabixIO
  Proofs.CsiIO Proofs.IndexHist.
Open Scope Z_scope.

(** "Adding records in sorted order never fails or panics."  The hypotheses
    are exactly [ix_wf]: coordinate sorted per reference id, every position in
    the indexable range (start <= 2^29 - 2; the exclusive end may be 2^29 - 1),
    monotone chunk layout; placed-unmapped records are ordinary records of
    length one, unplaced records (Pos = -1, End = 0) may appear anywhere.  No
    hypothesis about the bin number passed to Add. *)
Theorem bai_add_never_fails :
  forall rs, ix_wf rs -> exists ix, ix_fold_add ix_empty rs = Ok ix.
Proof. intros rs W. destruct (bai_built rs W) as (ix & F & _). exists ix. exact F. Qed.
Print Assumptions bai_add_never_fails.

(** The same for CSI with any geometry, aux and version (limit 2^(minShift+3*depth) - 2). *)
Theorem csi_add_never_fails :
  forall ms dp aux ver rs, ix_wf_from (cs_limit ms dp) (-1) 0 0 rs ->
    exists ix, cs_fold_add (mkCsi aux ver [] None ms dp false 0) rs = Ok ix.
Proof. intros ms dp aux ver rs W. destruct (csi_built ms dp aux ver rs W) as (ix & _ & _ & _ & F & _). exists ix. exact F. Qed.
Print Assumptions csi_add_never_fails.

(** The hypotheses are satisfiable at the boundary: a mapped record ending on
    the last indexable base (2^29 - 2, exclusive end 2^29 - 1), a
    placed-unmapped record ON the last indexable position, an unplaced record
    in between and one at the end; Add accepts them all (the model computes
    the result; the unrepaired range test refused the first two). *)
Example bai_add_at_the_limit :
  let rs := [mkRec 0 536870000 536870911 4680 100 200 true true;
             mkRec (-1) (-1) 0 4680 200 250 false false;
             mkRec 0 536870910 536870911 37448 250 300 true false;
             mkRec (-1) (-1) 0 4680 300 400 false false] in
  ix_wf rs /\
  match ix_fold_add ix_empty rs with
  | Ok ix => ix_numrefs ix = 1 /\ iunm ix = Some 2 /\ zlen (rintv (nth 0 (irefs ix) ix_empty_ref)) = 32768
  | _ => False
  end.
Proof.
  split.
  - unfold ix_wf, ix_bai_limit. change (2 ^ internal_indexWordBits - 2) with 536870910.
    simpl. repeat split; try lia; intros; lia.
  - vm_compute. repeat split; reflexivity.
Qed.

(** BAI: for every coordinate-sorted, in-range record list with a monotone
    chunk layout (unplaced records anywhere), adding all records to the empty
    index succeeds — no error, no panic — and for every query inside the
    indexable range: every added record overlapping the query is covered by a
    chunk of the answer; an error or an empty answer implies that no added
    record overlaps the query. *)
Theorem bai_complete :
  forall rs, ix_wf rs -> ix_bins_ok rs ->
  exists ix, ix_fold_add ix_empty rs = Ok ix /\
    forall rid beg end_, 0 <= beg < end_ -> end_ <= 2 ^ 29 ->
      (forall r, In r rs -> ix_overlaps r rid beg end_ ->
         exists cs, fst (ix_chunks ix rid beg end_) = Ok cs /\ ix_covers cs r) /\
      (fst (ix_chunks ix rid beg end_) = Ok [] \/ (exists e, fst (ix_chunks ix rid beg end_) = Err e) ->
         forall r, In r rs -> ~ ix_overlaps r rid beg end_).
Proof.
  intros rs W B. destruct (bai_built rs W) as (ix & F & Q). exists ix. split; [exact F|].
  intros rid beg end_ Hq Hq2.
  assert (Main : forall r, In r rs -> ix_overlaps r rid beg end_ ->
             exists cs, fst (ix_chunks ix rid beg end_) = Ok cs /\ ix_covers cs r)
    by (intros; apply (complete_in rs ix W B Q); assumption).
  split; [exact Main|].
  intros H r Hr Ho. destruct (Main r Hr Ho) as (cs & E & (c0 & Hc0 & _)).
  destruct H as [H|(e & H)]; rewrite H in E; [|discriminate]. inversion E; subst. destruct Hc0.
Qed.
Print Assumptions bai_complete.

(** The same in every state reachable from the built index by sorting
    (Chunks, WriteIndex), by earlier queries, and by MergeChunks with any
    covering strategy, any number of times, in any order ([reach]). *)
Theorem bai_complete_merged :
  forall rs ix, ix_wf rs -> ix_bins_ok rs -> reach rs ix ->
  forall rid beg end_ r, 0 <= beg < end_ -> end_ <= 2 ^ 29 ->
    In r rs -> ix_overlaps r rid beg end_ ->
    exists cs, fst (ix_chunks ix rid beg end_) = Ok cs /\ ix_covers cs r.
Proof. exact (fun rs ix W B Hre => complete_in rs ix W B (reach_QInv rs ix W Hre)). Qed.
Print Assumptions bai_complete_merged.

(** Identity, Adjacent, Squash and every Compressor are covering strategies
    (so [reach] includes MergeChunks with each of them, and the public Chunks,
    which applies Adjacent to the raw answer, keeps the coverage). *)
Theorem strategies_cover :
  ix_strategy_covers (fun l => l) /\ ix_strategy_covers ix_adjacent /\ ix_strategy_covers ix_squash /\
  forall near, ix_strategy_covers (ix_compressor near).
Proof. exact (conj identity_covers (conj adjacent_covers (conj squash_covers compressor_covers))). Qed.
Print Assumptions strategies_cover.

(** The public Chunks applies the index's MergeStrategy (nil = Adjacent) to the
    raw answer at query time.  For EVERY covering strategy — in particular the
    four provided ones, [strategies_cover] — and every reachable state, the
    public answer still contains ONE chunk covering each overlapping record
    (chunks of bins of different levels may be nested here, e.g. after
    MergeChunks(Squash) a high-level bin's chunk encloses a leaf bin's chunk). *)
Theorem bai_complete_public :
  forall s, ix_strategy_covers s ->
  forall rs ix, ix_wf rs -> ix_bins_ok rs -> reach rs ix ->
  forall rid beg end_ r, 0 <= beg < end_ -> end_ <= 2 ^ 29 ->
    In r rs -> ix_overlaps r rid beg end_ ->
    exists cs, fst (ix_chunks ix rid beg end_) = Ok cs /\ ix_covers (s cs) r.
Proof.
  intros s Hs rs ix W B Hre rid beg end_ r Hq Hq2 Hr Ho.
  destruct (complete_in rs ix W B (reach_QInv rs ix W Hre) rid beg end_ r Hq Hq2 Hr Ho) as (cs & E & (c & Hc & H1 & H2)).
  exists cs. split; [exact E|].
  destruct (Hs cs c (key_sorted_begin cs (ix_chunks_sorted _ _ _ _ _ E)) Hc) as (c' & Hc' & A & A').
  exists c'. split; [exact Hc'|lia].
Qed.
Print Assumptions bai_complete_public.

(** Interleaved histories ([hist rs ix]: starting from the empty index, any
    sequence of successful Add, sort (= WriteIndex) and Chunks calls, [rs] being
    the records added so far in order).  In EVERY state of such a history:
    the next record of a well-formed list is accepted (no error, no panic),
    every query covers every overlapping record added so far, and so does the
    index after a covering MergeChunks.  The IsSorted flag is part of the
    state: Add clears it exactly where the code does (new bin, new tiles) and
    Chunks bisects the bin list as coded. *)
Theorem bai_complete_history :
  forall rs ix, hist rs ix ->
    (forall r, ix_wf (rs ++ [r]) -> exists ix', ix_add ix r = Ok ix') /\
    (ix_wf rs -> ix_bins_ok rs ->
     forall s, ix_strategy_covers s ->
     forall rid beg end_ r, 0 <= beg < end_ -> end_ <= 2 ^ 29 ->
       In r rs -> ix_overlaps r rid beg end_ ->
       (exists cs, fst (ix_chunks ix rid beg end_) = Ok cs /\ ix_covers cs r) /\
       (exists cs, fst (ix_chunks (ix_merge s ix) rid beg end_) = Ok cs /\ ix_covers cs r)).
Proof.
  intros rs ix H. split; [intros r W; exact (hist_accepts rs ix r H W)|].
  intros W B s Hs rid beg end_ r Hq Hq2 Hr Ho. pose proof (hist_QInv rs ix H W) as Q.
  split; [apply (complete_in rs ix W B Q)|apply (complete_in rs _ W B (QInv_merge s ix rs Hs Q))]; assumption.
Qed.
Print Assumptions bai_complete_history.

(** The query validation of Chunks: a negative begin or an end
    before the begin is ErrInvalid and leaves the index untouched; an end
    beyond 2^29 is cut back. *)
Theorem bai_query_validation :
  forall ix rid beg end_, 0 <= rid < zlen (irefs ix) ->
    ((beg < 0 \/ end_ < beg) -> ix_chunks ix rid beg end_ = (Err 2, ix)) /\
    (0 <= beg <= 2 ^ 29 -> 2 ^ 29 <= end_ -> ix_chunks ix rid beg end_ = ix_chunks ix rid beg (2 ^ 29)).
Proof.
  intros ix rid beg end_ Hr. unfold ix_chunks.
  destruct (rid <? 0) eqn:E1; [lia|]. destruct (rid >=? zlen (irefs ix)) eqn:E2; [lia|]. cbn [orb]. split.
  - intros H. destruct (Z.ltb_spec beg 0); destruct (Z.ltb_spec end_ beg); cbn [orb]; try reflexivity. lia.
  - intros H1 H2. destruct (Z.ltb_spec beg 0); [lia|]. destruct (Z.ltb_spec end_ beg); [lia|].
    destruct (Z.ltb_spec (2 ^ 29) beg); [lia|]. cbn [orb].
    unfold ix_clip_end. change (2 ^ internal_indexWordBits) with (2 ^ 29).
    rewrite !Z.gtb_ltb. destruct (Z.ltb_spec (2 ^ 29) end_); destruct (Z.ltb_spec (2 ^ 29) (2 ^ 29)); try reflexivity; try lia.
    assert (end_ = 2 ^ 29) by lia. subst. reflexivity.
Qed.
Print Assumptions bai_query_validation.

(** After WriteIndex and ReadIndex (byte level): the bytes written for the
    built index are read back as [bai_reread ix], which still covers every
    overlapping record.  [idx_ranges]: offsets and counters fit their fields. *)
Theorem bai_complete_after_write_read :
  forall rs ix, ix_wf rs -> ix_bins_ok rs -> ix_fold_add ix_empty rs = Ok ix -> idx_ranges ix ->
    bai_read (fst (bai_write ix)) = Ok (Some (bai_reread ix)) /\
    forall rid beg end_ r, 0 <= beg < end_ -> end_ <= 2 ^ 29 ->
      In r rs -> ix_overlaps r rid beg end_ ->
      exists cs, fst (ix_chunks (bai_reread ix) rid beg end_) = Ok cs /\ ix_covers cs r.
Proof.
  intros rs ix W B F R. destruct (bai_reread_ok ix (built_fits rs ix F R)) as (A & _ & C & _).
  split; [exact A|]. intros rid beg end_ r Hq Hq2 Hr Ho. rewrite C.
  apply (complete_in rs ix W B (reach_QInv rs ix W (reach_built rs ix F))); assumption.
Qed.
Print Assumptions bai_complete_after_write_read.

(** tabix: names get dense ids in order of first appearance ([tb_assign]); if
    the record list seen that way is well formed, adding every (name, record)
    pair succeeds, and in the built index and every state of its core
    reachable by sort / queries / covering MergeChunks, every query by name
    covers each overlapping record. *)
Theorem tabix_complete :
  forall hdr nrs, ix_wf (tb_assign [] nrs) ->
  exists t, tb_fold_add (tb_new hdr) nrs = Ok t /\ reach (tb_assign [] nrs) (t_idx t) /\
    forall ix', reach (tb_assign [] nrs) ix' ->
    forall beg end_, 0 <= beg < end_ -> end_ <= 2 ^ 29 ->
    forall nm r', In (nm, r') (combine (map fst nrs) (tb_assign [] nrs)) ->
      ix_overlaps r' (q_rid r') beg end_ ->
      exists cs, fst (tb_chunks (tb_with t ix') nm beg end_) = Ok cs /\ ix_covers cs r'.
Proof.
  intros hdr nrs W. destruct (tabix_built hdr nrs W) as (t & Ft & F & _ & HI & Hn).
  exists t. split; [exact Ft|]. split; [exact (reach_built _ _ F)|].
  intros ix' Hre. exact (tabix_complete_in (tb_with t ix') nrs W (reach_QInv _ _ W Hre) HI Hn).
Qed.
Print Assumptions tabix_complete.

(** tabix after WriteTo and ReadFrom (byte level; [tbx_fits]: header values,
    names without NUL bytes and pairwise different, one name per reference,
    numbers fit their fields): the bytes are read back as [tbx_reread t], which
    writes to the same bytes, answers every query by name like [t], and covers
    every overlapping record. *)
Theorem tabix_complete_after_write_read :
  forall hdr nrs, ix_wf (tb_assign [] nrs) ->
  exists t, tb_fold_add (tb_new hdr) nrs = Ok t /\
    (tbx_fits t ->
     tbx_read (fst (tbx_write t)) = Ok (Some (tbx_reread t)) /\
     fst (tbx_write (tbx_reread t)) = fst (tbx_write t) /\
     (forall nm beg end_, fst (tb_chunks (tbx_reread t) nm beg end_) = fst (tb_chunks t nm beg end_)) /\
     forall beg end_, 0 <= beg < end_ -> end_ <= 2 ^ 29 ->
     forall nm r', In (nm, r') (combine (map fst nrs) (tb_assign [] nrs)) ->
       ix_overlaps r' (q_rid r') beg end_ ->
       exists cs, fst (tb_chunks (tbx_reread t) nm beg end_) = Ok cs /\ ix_covers cs r').
Proof.
  intros hdr nrs W. destruct (tabix_built hdr nrs W) as (t & Ft & _ & Q & HI & Hn).
  exists t. split; [exact Ft|]. intros Hfit.
  split; [apply tbx_read_write; exact Hfit|]. split; [apply tbx_write_read_write|].
  split; [intros; apply tbx_reread_chunks; exact HI|].
  intros beg end_ Hq Hq2 nm r' Hin Ho. rewrite tbx_reread_chunks by exact HI.
  exact (tabix_complete_in t nrs W Q HI Hn beg end_ Hq Hq2 nm r' Hin Ho).
Qed.
Print Assumptions tabix_complete_after_write_read.

(** CSI, for EVERY geometry whose bin numbers fit 32 bits (depth <= 10,
    minShift + 3*depth <= 62), any auxiliary data and version: adding a
    well-formed list (coordinates up to the scheme's limit) succeeds; the chunk
    list Chunks hands to its merge step covers every overlapping record; an
    empty answer implies no overlap. *)
Theorem csi_complete :
  forall ms dp, 0 <= ms -> 0 <= dp <= 10 -> ms + 3 * dp <= 62 ->
  forall aux ver rs, ix_wf_from (cs_limit ms dp) (-1) 0 0 rs ->
  exists ix, cs_fold_add (mkCsi aux ver [] None ms dp false 0) rs = Ok ix /\
    forall rid beg end_, 0 <= beg < end_ -> end_ <= cs_limit ms dp + 2 ->
      (forall r, In r rs -> ix_overlaps r rid beg end_ ->
         ix_covers (fst (cs_chunks ix rid beg end_)) r) /\
      (fst (cs_chunks ix rid beg end_) = [] -> forall r, In r rs -> ~ ix_overlaps r rid beg end_).
Proof.
  intros ms dp H1 H2 H3 aux ver rs W. destruct (csi_built ms dp aux ver rs W) as (ix & a & b & c & F & I).
  exists ix. split; [exact F|]. intros rid beg end_ Hq Hq2.
  assert (Main : forall r, In r rs -> ix_overlaps r rid beg end_ -> ix_covers (fst (cs_chunks ix rid beg end_)) r)
    by (intros; apply (csi_complete_in ms dp rs ix H1 H2 H3 W (CInv_CQInv _ _ _ _ _ _ _ I)); assumption).
  split; [exact Main|].
  intros E r Hr Ho. destruct (Main r Hr Ho) as (c0 & Hc0 & _). rewrite E in Hc0. destruct Hc0.
Qed.
Print Assumptions csi_complete.

(** CSI in every state reachable by sort, earlier queries and covering
    MergeChunks ([creach]). *)
Theorem csi_complete_merged :
  forall ms dp, 0 <= ms -> 0 <= dp <= 10 -> ms + 3 * dp <= 62 ->
  forall aux ver rs ix, ix_wf_from (cs_limit ms dp) (-1) 0 0 rs -> creach ms dp aux ver rs ix ->
  forall rid beg end_ r, 0 <= beg < end_ -> end_ <= cs_limit ms dp + 2 ->
    In r rs -> ix_overlaps r rid beg end_ ->
    ix_covers (fst (cs_chunks ix rid beg end_)) r.
Proof.
  exact (fun ms dp H1 H2 H3 aux ver rs ix W Hre =>
           csi_complete_in ms dp rs ix H1 H2 H3 W (creach_CQInv ms dp aux ver rs ix W Hre)).
Qed.
Print Assumptions csi_complete_merged.

(** CSI after WriteTo and ReadFrom (byte level, versions 1 and 2, any aux
    bytes; [csi_ranges]: version 1 or 2, a geometry the reader accepts —
    depth <= 9 —, numbers fit their fields): the bytes are read back as
    [cs_reread ix] (the sorted index; version 1 does not store the per-bin
    record counts, they come back as 0), which covers every overlapping record. *)
Theorem csi_complete_after_write_read :
  forall ms dp, 0 <= ms -> 0 <= dp <= 10 -> ms + 3 * dp <= 62 ->
  forall aux ver rs ix, ix_wf_from (cs_limit ms dp) (-1) 0 0 rs ->
    cs_fold_add (mkCsi aux ver [] None ms dp false 0) rs = Ok ix -> csi_ranges ix ->
    csi_read (fst (csi_write ix)) = Ok (Some (cs_reread ix)) /\
    forall rid beg end_ r, 0 <= beg < end_ -> end_ <= cs_limit ms dp + 2 ->
      In r rs -> ix_overlaps r rid beg end_ ->
      ix_covers (fst (cs_chunks (cs_reread ix) rid beg end_)) r.
Proof.
  intros ms dp H1 H2 H3 aux ver rs ix W F R.
  destruct (cs_reread_ok ix (csi_built_fits ms dp aux ver rs ix F R)) as (A & _ & C & _).
  split; [exact A|]. intros rid beg end_ r Hq Hq2 Hr Ho. rewrite C.
  apply (csi_complete_in ms dp rs ix H1 H2 H3 W (creach_CQInv ms dp aux ver rs ix W (creach_built ms dp aux ver rs ix F)));
    assumption.
Qed.
Print Assumptions csi_complete_after_write_read.

(** [Index.sort] also sorts the linear-index tile offsets, which moves the
    zero (empty) tiles to the front and shifts the offsets to later tiles: the
    tiles no longer mean what the format says, but pruning only gets weaker.
    For every tile list: the length is kept; if the first n tiles are at most v
    they still are after sorting (this is what completeness needs); and when no
    tile is negative the result is literally "all zero tiles, then the non-zero
    ones in ascending order". *)
Theorem sort_moves_zero_tiles_to_front_harmlessly :
  forall l : list Z,
    length (ix_sort_intv l) = length l /\
    (forall v n, (n <= length l)%nat -> prefix_le v n l -> prefix_le v n (ix_sort_intv l)) /\
    (forallb (fun x => 0 <=? x) l = true ->
     ix_sort_intv l = filter (fun x => x =? 0) l ++ ix_isort (fun x => x) (filter (fun x => negb (x =? 0)) l)).
Proof.
  intros l. split; [rewrite ix_sort_intv_eq; apply ix_isort_length|]. split.
  - intros v n Hn Hp. rewrite ix_sort_intv_eq. apply ix_isort_prefix; assumption.
  - intros H. unfold ix_sort_intv. rewrite H. reflexivity.
Qed.
Print Assumptions sort_moves_zero_tiles_to_front_harmlessly.

Example sort_tiles_example : ix_sort_intv [100; 0; 0; 300; 0; 400] = [0; 0; 0; 100; 300; 400].
Proof. reflexivity. Qed.

(** The bin under which the CSI index model files a record ([cs_reg2bin]) is
    the loop of csi.reg2bin as gen/ translates it from csi/csi.go on every
    run, for every interval, geometry and every fuel above the depth: a change
    to that loop in the source changes [csigen_reg2bin] and this theorem (and
    with it the completeness theorems about [cs_reg2bin]) has to be re-proved. *)
Theorem csi_index_bin_is_translated_loop :
  forall beg e ms depth k,
    0 <= depth < 2 ^ 32 -> - 2 ^ 63 < e <= 2 ^ 63 ->
    csigen_reg2bin (S (Z.to_nat depth) + k) beg e ms depth = Ok (cs_reg2bin beg e ms depth).
Proof. exact csigen_reg2bin_is_cs. Qed.
Print Assumptions csi_index_bin_is_translated_loop.

(** Non-vacuity for CSI (default geometry): the record that the unrepaired
    reg2bin filed under an unreachable bin. *)
Example csi_one :
  let rs := [mkRec 0 0 16389 0 100 200 true true] in
  ix_wf_from (cs_limit 14 5) (-1) 0 0 rs /\
  exists ix, cs_fold_add (cs_new 14 5 2 []) rs = Ok ix /\ fst (cs_chunks ix 0 10 20) = [(100, 200)].
Proof.
  split.
  - assert (E : cs_limit 14 5 = 536870910) by (vm_compute; reflexivity). rewrite E.
    simpl. repeat split; try lia; intros; lia.
  - eexists. split; [vm_compute; reflexivity|]. vm_compute. reflexivity.
Qed.

(** Non-vacuity: the sorted pair that made the unrepaired Add panic, and the
    query that missed a record, on the model. *)
Example bai_pair :
  let rs := [mkRec 0 0 16389 585 100 200 true true; mkRec 0 16390 16394 4682 200 300 true true] in
  ix_wf rs /\ ix_bins_ok rs /\
  exists ix, ix_fold_add ix_empty rs = Ok ix /\ fst (ix_chunks ix 0 16385 16387) = Ok [(100, 200); (200, 300)].
Proof.
  split; [|split].
  - unfold ix_wf, ix_bai_limit. change (2 ^ internal_indexWordBits - 2) with 536870910.
    simpl. repeat split; try lia; intros; lia.
  - repeat constructor.
  - eexists. split; [vm_compute; reflexivity|]. vm_compute. reflexivity.
Qed.
