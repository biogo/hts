(** C14 — block caches honour the Cache contract, sequentially and
    concurrently. Statements with short derivations from Proofs/Cache.v,
    Proofs/CacheTop.v, Proofs/Atomic.v; the facts about the lock skeletons
    (Model/LockSkel.v runs them) and the two witness runs are computed here.

    [lf_reach fifo n w cl] / [rnd_reach n w cl]: the state [w] (block store and
    cache) and the client's ownership record [cl] are reachable from an empty
    cache of capacity [n] by ANY history of operations the client protocol
    allows (Model/Cache.v: [reach], [allowedb], [cl_update]); for Random every
    operation carries arbitrary map-iteration orders. [lf_wstep fifo false] is
    the model of LRU ([fifo = false]) and FIFO ([fifo = true]) whose drop
    helper does not take the lock again; that this is what the source does is
    the first theorem, proved over the lock skeletons regenerated from
    bgzf/cache/cache.go. *)
From Coq Require Import ZArith List Bool Lia.
From Hts Require Import Base.Prim Generated Model.Cache Model.LockSkel Model.Atomic
  Proofs.Cache Proofs.CacheTop Proofs.Atomic.
Import ListNotations.
Open Scope Z_scope.

(** No exported method of LRU, FIFO, Random or StatsRecorder acquires the
    mutex it already holds, on any path, including through calls of other
    methods of the same receiver; the drop helpers, called under the write
    lock, do not lock (so the model's Drop/Resize/Free are not [OStuck]). *)
Theorem no_self_deadlock :
  forallb sk_no_reacquire c14_api_locks = true
  /\ lru_relock = false /\ fifo_relock = false /\ random_relock = false.
Proof. vm_compute. repeat split; reflexivity. Qed.
Print Assumptions no_self_deadlock.

(** Every exported method is one critical section on every path: the mutex is
    taken once before the first access to the receiver's state, every access
    lies inside (writes under the write lock), and it is released on every
    return. This is the premise of [linearizable]. *)
Theorem one_critical_section : forallb sk_one_section c14_api_locks = true.
Proof. vm_compute. reflexivity. Qed.
Print Assumptions one_critical_section.

(** Every access to the shared state - the table, the list links and nodes
    (also through local aliases of type *node, e.g. n := c.table[k]; n.b, and
    inside the inlined helpers remove / insertAfter), cap, the statistics
    counters, the reference to the wrapped cache - on every path of every
    exported method lies between the lock and the unlock event: writes under
    the write lock, reads under the write or the read lock. This is the fact
    about the source that lets [linearizable] treat a method body as a
    sequence of micro-steps taken while the mutex is held. *)
Theorem accesses_inside_critical_section :
  forallb sk_accesses_inside c14_api_locks = true.
Proof. vm_compute. reflexivity. Qed.
Print Assumptions accesses_inside_critical_section.

(** The model's classification of operations is the source's: Len, Cap and
    Peek of the three caches (nine methods) only read and do so under the
    read lock; every other cache method works under the write lock. *)
Theorem read_lock_methods_read_only :
  forallb sk_is_reader c14_reader_locks = true /\ forallb sk_is_writer c14_writer_locks = true
  /\ length c14_reader_locks = 9%nat
  /\ (length c14_reader_locks + length c14_writer_locks = length c14_cache_api_locks)%nat.
Proof. vm_compute. repeat split; reflexivity. Qed.
Print Assumptions read_lock_methods_read_only.

(** The two mutexes guard disjoint state (cache methods: table, list, nodes,
    cap; StatsRecorder methods: its counters and the wrapped cache), and no
    function other than these methods reaches that state: the lock-free
    helpers are called only from methods, where the skeletons inline them, and
    no method starts a goroutine or builds a closure. *)
Theorem lock_domains_and_entry_points :
  forallb (sk_fields_in [FTable; FList; FNode; FCap]) c14_cache_api_locks = true
  /\ forallb (sk_fields_in [FStats; FInner]) c14_stats_api_locks = true
  /\ c14_unlocked_entry_points = 0.
Proof. vm_compute. repeat split; reflexivity. Qed.
Print Assumptions lock_domains_and_entry_points.

(** Never more than cap blocks, keys distinct - LRU and FIFO. *)
Theorem cache_cap_inv :
  forall fifo n s c cl, 1 <= n -> lf_reach fifo n (s, c) cl ->
    tlen (tab c) <= cap c /\ NoDup (map fst (tab c)) /\ 1 <= cap c.
Proof.
  intros fifo n s c cl Hn R. destruct (lf_reach_inv _ _ _ _ Hn R) as (B & (Ht & _ & ND) & C1 & C2 & _).
  simpl in *. rewrite Ht, tlen_tab_of, keys_tab_of. auto.
Qed.
Print Assumptions cache_cap_inv.

(** The same for Random, whatever the map iteration orders. *)
Theorem cache_cap_inv_random :
  forall n s c cl, 1 <= n -> rnd_reach n (s, c) cl ->
    tlen (rtab c) <= rcap c /\ NoDup (map fst (rtab c)) /\ 1 <= rcap c.
Proof.
  intros n s c cl Hn R. destruct (rnd_reach_inv _ _ _ Hn R) as (B & (Ht & ND) & C1 & C2 & _).
  simpl in *. rewrite Ht, tlen_tab_of, keys_tab_of. auto.
Qed.
Print Assumptions cache_cap_inv_random.

(** A full cache does not retain an unused block and is left unchanged. *)
Theorem put_refuses_unused_when_full :
  (forall fifo s c b, tlen (tab c) = cap c -> bused (s b) = false ->
     exists ev, lf_wstep fifo false (s, c) (Put b) = ((s, c), OPut ev false))
  /\ (forall s c b ch1 ch2, tlen (rtab c) = rcap c -> bused (s b) = false ->
     rnd_wstep (s, c) (Put b, ch1, ch2) = ((s, c), OPut (Some b) false)).
Proof.
  split; intros; unfold lf_wstep, rnd_wstep, wstep; simpl.
  - destruct (tget _ (tab c)); [destruct (fifo && _); eauto|]. rewrite H, Z.eqb_refl, H0. simpl. eauto.
  - destruct (tget _ (rtab c)); auto. rewrite H, Z.eqb_refl, H0. reflexivity.
Qed.
Print Assumptions put_refuses_unused_when_full.

(** On every reachable state the LRU/FIFO code takes exactly the step of the
    contract machine [spec_step] (blocks held in insertion order; evict the
    most recently inserted unused block if one is held, the oldest block
    otherwise; LRU's Get removes, FIFO's Get removes only unused blocks), with
    the same answer. *)
Theorem lru_fifo_refine_contract :
  forall fifo n s c cl o s' c' x,
    1 <= n -> lf_reach fifo n (s, c) cl -> allowedb cl o = true ->
    lf_wstep fifo false (s, c) o = ((s', c'), x) ->
    spec_wstep fifo (s, lf_abs c) o = ((s', lf_abs c'), x).
Proof.
  intros fifo n s c cl o s' c' x Hn R AL ST.
  generalize (lf_wstep_sim fifo s c cl o (lf_reach_inv _ _ _ _ Hn R) AL). rewrite ST. intros [_ H]. exact H.
Qed.
Print Assumptions lru_fifo_refine_contract.

(** Eviction policy of LRU: a Put that evicts does so only when full and for
    a used block; the victim [v] is held; if every held block is used it is
    the one inserted first, otherwise it is unused and every block inserted
    after it is used; afterwards exactly [v] is gone and [b] is newest. *)
Theorem lru_policy :
  forall n s c cl b v s' c',
    1 <= n -> lf_reach false n (s, c) cl -> allowedb cl (Put b) = true ->
    lf_wstep false false (s, c) (Put b) = ((s', c'), OPut (Some v) true) ->
    tlen (tab c) = cap c /\ bused (s b) = true /\ In v (blocks (tab c))
    /\ ((forall u, In u (blocks (tab c)) -> bused (s u) = true) -> hd_error (blocks (tab c)) = Some v)
    /\ ((exists u, In u (blocks (tab c)) /\ bused (s u) = false) ->
          bused (s v) = false /\
          exists l1 l2, blocks (tab c) = l1 ++ v :: l2 /\ forall u, In u l2 -> bused (s u) = true)
    /\ blocks (tab c') = remove Nat.eq_dec v (blocks (tab c)) ++ [b].
Proof.
  intros n s c cl b v s' c' Hn R AL ST.
  destruct (lf_policy false s c cl b v s' c' (lf_reach_inv _ _ _ _ Hn R) AL ST) as (V & F & U & B').
  destruct (svictim_spec s _ v V) as (I & A1 & A2). repeat split; auto; apply A2; auto.
Qed.
Print Assumptions lru_policy.

(** The same statement for FIFO (first in, first out among used blocks; its
    Get does not reorder). *)
Theorem fifo_policy :
  forall n s c cl b v s' c',
    1 <= n -> lf_reach true n (s, c) cl -> allowedb cl (Put b) = true ->
    lf_wstep true false (s, c) (Put b) = ((s', c'), OPut (Some v) true) ->
    tlen (tab c) = cap c /\ bused (s b) = true /\ In v (blocks (tab c))
    /\ ((forall u, In u (blocks (tab c)) -> bused (s u) = true) -> hd_error (blocks (tab c)) = Some v)
    /\ ((exists u, In u (blocks (tab c)) /\ bused (s u) = false) ->
          bused (s v) = false /\
          exists l1 l2, blocks (tab c) = l1 ++ v :: l2 /\ forall u, In u l2 -> bused (s u) = true)
    /\ blocks (tab c') = remove Nat.eq_dec v (blocks (tab c)) ++ [b].
Proof.
  intros n s c cl b v s' c' Hn R AL ST.
  destruct (lf_policy true s c cl b v s' c' (lf_reach_inv _ _ _ _ Hn R) AL ST) as (V & F & U & B').
  destruct (svictim_spec s _ v V) as (I & A1 & A2). repeat split; auto; apply A2; auto.
Qed.
Print Assumptions fifo_policy.

(** Random: whatever the iteration orders, an evicting Put happens only when
    full and for a used block, the victim is held, it is unused whenever an
    unused block is held, and afterwards exactly the victim is gone. *)
Theorem random_policy :
  forall n s c cl b ch1 ch2 v s' c',
    1 <= n -> rnd_reach n (s, c) cl -> allowedb cl (Put b) = true ->
    rnd_wstep (s, c) (Put b, ch1, ch2) = ((s', c'), OPut (Some v) true) ->
    In v (blocks (rtab c)) /\ tlen (rtab c) = rcap c /\ bused (s b) = true
    /\ ((exists u, In u (blocks (rtab c)) /\ bused (s u) = false) -> bused (s v) = false)
    /\ (forall y, In y (blocks (rtab c')) <-> (In y (blocks (rtab c)) /\ y <> v) \/ y = b).
Proof. intros n s c cl b ch1 ch2 v s' c' Hn R. apply rnd_policy, (rnd_reach_inv _ _ _ Hn R). Qed.
Print Assumptions random_policy.

(** Peek answers exactly when Get would return a block, with that block's
    NextBase; Len is the number of bases for which Peek answers; Cap is the
    capacity, and Resize sets it. *)
Theorem peek_len_cap_consistent :
  forall fifo n s c cl k, 1 <= n -> lf_reach fifo n (s, c) cl ->
    snd (lf_wstep fifo false (s, c) (Peek k)) =
      match snd (lf_wstep fifo false (s, c) (Get k)) with
      | OGet (Some b) => OPeek (Some (bnext s b))
      | _ => OPeek None
      end
    /\ snd (lf_wstep fifo false (s, c) Len) = ONum (zlen (map fst (tab c)))
    /\ NoDup (map fst (tab c))
    /\ (In k (map fst (tab c)) <-> snd (lf_wstep fifo false (s, c) (Peek k)) <> OPeek None)
    /\ snd (lf_wstep fifo false (s, c) Cap) = ONum (cap c)
    /\ (forall m, cap (snd (fst (lf_wstep fifo false (s, c) (Resize m)))) = m).
Proof.
  intros fifo n s c cl k Hn R. destruct (lf_reach_inv _ _ _ _ Hn R) as (B & OK & _). simpl in OK.
  rewrite lf_peek_out, lf_get_out. destruct (table_answers s B (tab c) k (proj1 OK)) as (_ & _ & A3 & A4).
  repeat split; try apply A4; auto.
  - apply (f_equal ONum (tlen_keys _)).
  - rewrite (proj1 OK), keys_tab_of. apply OK.
  - intros m. destruct (lf_resize_step fifo s c B m OK) as (c' & E & H & _).
    unfold lf_wstep, wstep. cbv beta iota. rewrite E. exact H.
Qed.
Print Assumptions peek_len_cap_consistent.

(** Under the client protocol (LRU: a block returned by Get, reported evicted
    or not retained may be overwritten; FIFO: only one that Put hands back),
    for every history, Get k / Peek k never expose a block whose base is not k. *)
Theorem get_peek_base :
  forall fifo n s c cl k, 1 <= n -> lf_reach fifo n (s, c) cl ->
    (forall b, snd (lf_wstep fifo false (s, c) (Get k)) = OGet (Some b) -> bbase (s b) = k)
    /\ (forall nx, snd (lf_wstep fifo false (s, c) (Peek k)) = OPeek (Some nx) ->
          exists b, bbase (s b) = k /\ nx = k + bsize b).
Proof.
  intros fifo n s c cl k Hn R. destruct (lf_reach_inv _ _ _ _ Hn R) as (B & OK & _).
  rewrite lf_peek_out, lf_get_out. destruct (table_answers s B (tab c) k (proj1 OK)) as (A1 & A2 & _). auto.
Qed.
Print Assumptions get_peek_base.

(** Random: the same, together with the Peek/Len/Cap consistency. *)
Theorem get_peek_base_random :
  forall n s c cl k ch1 ch2, 1 <= n -> rnd_reach n (s, c) cl ->
    (forall b, snd (rnd_wstep (s, c) (Get k, ch1, ch2)) = OGet (Some b) -> bbase (s b) = k)
    /\ (forall nx, snd (rnd_wstep (s, c) (Peek k, ch1, ch2)) = OPeek (Some nx) ->
          exists b, bbase (s b) = k /\ nx = k + bsize b)
    /\ snd (rnd_wstep (s, c) (Peek k, ch1, ch2)) =
         match snd (rnd_wstep (s, c) (Get k, ch1, ch2)) with
         | OGet (Some b) => OPeek (Some (bnext s b)) | _ => OPeek None end
    /\ snd (rnd_wstep (s, c) (Len, ch1, ch2)) = ONum (zlen (map fst (rtab c)))
    /\ (In k (map fst (rtab c)) <-> snd (rnd_wstep (s, c) (Peek k, ch1, ch2)) <> OPeek None)
    /\ snd (rnd_wstep (s, c) (Cap, ch1, ch2)) = ONum (rcap c).
Proof.
  intros n s c cl k ch1 ch2 Hn R. destruct (rnd_reach_inv _ _ _ Hn R) as (B & OK & _).
  rewrite rnd_peek_out, rnd_get_out. destruct (table_answers s B (rtab c) k (proj1 OK)) as (A1 & A2 & A3 & A4).
  repeat split; try apply A4; auto. apply (f_equal ONum (tlen_keys _)).
Qed.
Print Assumptions get_peek_base_random.

(** FIFO under the documented bgzf.Cache protocol ("the returned Block must be
    removed from the Cache", so the client may overwrite what Get returned):
    a protocol-conforming history after which Peek 0 answers with a block
    whose base is 1 (NextBase 101 = 1 + bsize 0). FIFO.Get keeps used blocks
    indexed; the repository's tests fix that behaviour. *)
Theorem fifo_get_peek_base_strong_refuted :
  exists h, prun lf op id_op (lf_wstep true false) true (store0, lf_empty 2) client0 h
            = Some [OUnit; OPut None true; OGet (Some 0%nat); OUnit; OPeek (Some (1 + bsize 0%nat))].
Proof. exists fifo_strong_history. vm_compute. reflexivity. Qed.
Print Assumptions fifo_get_peek_base_strong_refuted.

(** Resize (n >= 1), Drop and Free return (no [OStuck], no [OPanic]) from
    every reachable state and leave the stated capacity and number of blocks;
    Free(m) answers m <= cap and then m slots are free. *)
Theorem resize_drop_free_return :
  forall fifo n s c cl m, 1 <= n -> lf_reach fifo n (s, c) cl ->
    (1 <= m ->
       exists c', lf_wstep fifo false (s, c) (Resize m) = ((s, c'), OUnit)
         /\ cap c' = m /\ tlen (tab c') = Z.min (tlen (tab c)) m)
    /\ (exists c', lf_wstep fifo false (s, c) (Drop m) = ((s, c'), OUnit)
         /\ cap c' = cap c /\ tlen (tab c') = Z.max 0 (tlen (tab c) - Z.max 0 m))
    /\ (exists c', lf_wstep fifo false (s, c) (Free m) = ((s, c'), OBool (m <=? cap c))
         /\ cap c' = cap c /\ (m <= cap c -> m <= cap c' - tlen (tab c'))
         /\ tlen (tab c') <= tlen (tab c)).
Proof.
  intros fifo n s c cl m Hn R. destruct (lf_reach_inv _ _ _ _ Hn R) as (B & OK & _). simpl in OK.
  unfold lf_wstep, wstep. cbv beta iota. split; [|split].
  - intros Hm. destruct (lf_resize_step fifo s c B m OK) as (c' & -> & H1 & H2).
    exists c'. rewrite H2, Z.max_r by lia. auto.
  - destruct (lf_drop_step fifo s c B m OK) as (c' & -> & H1 & _ & H2). exists c'. auto.
  - destruct (lf_free_step fifo s c B m OK) as (c' & -> & _ & _ & H1 & H2). exists c'.
    rewrite H1, H2. pose proof (Base.WrList.zlen_nonneg (tab c) : 0 <= tlen (tab c)). repeat split; auto; lia.
Qed.
Print Assumptions resize_drop_free_return.

Theorem resize_drop_free_return_random :
  forall n s c cl m ch1 ch2, 1 <= n -> rnd_reach n (s, c) cl ->
    (1 <= m ->
       exists c', rnd_wstep (s, c) (Resize m, ch1, ch2) = ((s, c'), OUnit)
         /\ rcap c' = m /\ tlen (rtab c') = Z.min (tlen (rtab c)) m)
    /\ (exists c', rnd_wstep (s, c) (Drop m, ch1, ch2) = ((s, c'), OUnit)
         /\ rcap c' = rcap c /\ tlen (rtab c') = Z.max 0 (tlen (rtab c) - Z.max 0 m))
    /\ (exists c', rnd_wstep (s, c) (Free m, ch1, ch2) = ((s, c'), OBool (m <=? rcap c))
         /\ rcap c' = rcap c /\ (m <= rcap c -> m <= rcap c' - tlen (rtab c'))
         /\ tlen (rtab c') <= tlen (rtab c)).
Proof.
  intros n s c cl m ch1 ch2 Hn R. destruct (rnd_reach_inv _ _ _ Hn R) as (B & OK & _). simpl in OK.
  unfold rnd_wstep, wstep. cbn [fst]. split; [|split].
  - intros Hm. destruct (rnd_resize_step s c B m ch1 ch2 OK) as (c' & -> & H1 & H2).
    exists c'. rewrite H2, Z.max_r by lia. auto.
  - destruct (rnd_drop_step s c B m ch1 ch2 OK) as (c' & -> & H1 & H2). exists c'. auto.
  - destruct (rnd_free_step s c B m ch1 ch2 OK) as (c' & -> & _ & H1 & H2). exists c'.
    rewrite H1, H2. pose proof (Base.WrList.zlen_nonneg (rtab c) : 0 <= tlen (rtab c)). repeat split; auto; lia.
Qed.
Print Assumptions resize_drop_free_return_random.

(** Free(m, c), sequentially (no other call between its five calls Cap, Len,
    Drop, Cap, Len): from every reachable state it returns, answers m <= cap,
    leaves the capacity, evicts by the policy exactly the blocks needed (none
    when m slots are free), and then m slots are free if m <= cap, the cache
    is empty otherwise. *)
Theorem free_sequential :
  forall fifo n s c cl m, 1 <= n -> lf_reach fifo n (s, c) cl ->
    exists c', lf_wstep fifo false (s, c) (Free m) = ((s, c'), OBool (m <=? cap c))
      /\ cap c' = cap c
      /\ blocks (tab c') = sdrop s (Z.to_nat (m - (cap c - tlen (tab c)))) (blocks (tab c))
      /\ tlen (tab c') = Z.max 0 (Z.min (tlen (tab c)) (cap c - m))
      /\ (m <= cap c -> m <= cap c' - tlen (tab c'))
      /\ (cap c < m -> tlen (tab c') = 0).
Proof.
  intros fifo n s c cl m Hn R. destruct (lf_reach_inv _ _ _ _ Hn R) as (B & OK & _). simpl in OK.
  destruct (lf_free_step fifo s c B m OK) as (c' & E & _ & OK' & H1 & H2).
  exists c'. unfold lf_wstep, wstep. cbv beta iota.
  rewrite E, H1, H2, (lf_ok_blocks _ _ _ OK), (lf_ok_blocks _ _ _ OK').
  pose proof (Base.WrList.zlen_nonneg (tab c) : 0 <= tlen (tab c)). repeat split; auto; lia.
Qed.
Print Assumptions free_sequential.

Theorem free_sequential_random :
  forall n s c cl m ch1 ch2, 1 <= n -> rnd_reach n (s, c) cl ->
    exists c', rnd_wstep (s, c) (Free m, ch1, ch2) = ((s, c'), OBool (m <=? rcap c))
      /\ rcap c' = rcap c
      /\ rtab c' = (if m <=? rcap c - tlen (rtab c) then rtab c
                    else rnd_drop s ch1 ch2 (m - (rcap c - tlen (rtab c))) (rtab c))
      /\ tlen (rtab c') = Z.max 0 (Z.min (tlen (rtab c)) (rcap c - m))
      /\ (m <= rcap c -> m <= rcap c' - tlen (rtab c'))
      /\ (rcap c < m -> tlen (rtab c') = 0).
Proof.
  intros n s c cl m ch1 ch2 Hn R. destruct (rnd_reach_inv _ _ _ Hn R) as (B & OK & _). simpl in OK.
  destruct (rnd_free_step s c B m ch1 ch2 OK) as (c' & E & EC & H1 & H2).
  exists c'. unfold rnd_wstep, wstep. cbn [fst]. rewrite E, H1, H2.
  do 2 (split; [reflexivity|]). split; [rewrite EC; destruct (m <=? rcap c - tlen (rtab c)); reflexivity|].
  pose proof (Base.WrList.zlen_nonneg (rtab c) : 0 <= tlen (rtab c)). repeat split; lia.
Qed.
Print Assumptions free_sequential_random.

(** Concurrently Free is not atomic (its five calls are linearizable one by
    one, another goroutine can run between them): an execution of the
    interleaving semantics - capacity 1, one block held, goroutine 0 runs the
    calls of Free(1), goroutine 1 puts a block after the Drop - in which the
    last Len reads 1, so Free answers [1 <=? 1 - 1] = false, which no
    sequential Free(1) on a cache of capacity 1 answers. *)
Theorem free_not_atomic :
  let c := exec _ _ _ _ (fun _ => tt) (atomic_body (lf_wstep false false)) op_is_read
             (init _ _ _ _ free_race_w0
                (fun t => match t with O => [Cap; Len; Drop 1; Cap; Len] | 1%nat => [Put 1%nat] | _ => [] end))
             free_race_sched in
  map (res_of _ _) (lin _ _ _ _ c) = [ONum 1; ONum 1; OUnit; OPut None true; ONum 1; ONum 1]
  /\ snd (lf_wstep false false free_race_w0 (Free 1)) = OBool true.
Proof. vm_compute. split; reflexivity. Qed.
Print Assumptions free_not_atomic.

(** StatsRecorder around any cache: answers and states are those of the
    wrapped cache, the counters are the numbers of Get, missed Get, Put,
    retained Put and evicting Put calls made through it. *)
Theorem stats_recorder_counts :
  forall (W O : Type) (pi : O -> op) (step : W -> O -> W * out) os w st,
    let '((w', st'), xs) := st_run W O pi step (w, st) (map SInner os) in
    let '(w2, pairs) := in_run W O pi step w os in
    w' = w2 /\ xs = map snd pairs /\ st' = tally st pairs.
Proof. intros. rewrite st_run_inner. destruct (in_run W O pi step w os). auto. Qed.
Print Assumptions stats_recorder_counts.

(** Linearizability, generic: operations of shape lock; body; unlock on one
    RW mutex, any number of threads, ANY schedule, the body of an operation
    being an ARBITRARY micro-step program over the shared state and a local
    state ([bstep]; other threads move between its micro-steps), bodies under
    the read lock not storing. There is a state [sg] that the sequential
    execution of the finished operations - the same bodies run one after the
    other in the order [lin] of their last micro-steps - reaches with exactly
    the observed results; the shared state is [sg] whenever no writer is
    inside its body; [lin] is the sequence of ELin events of the history, in
    which every operation's ELin lies between its invocation and its
    response (so the order respects real time). *)
Theorem linearizable :
  forall (St Op Rs Lc : Type) (l0 : Op -> Lc) (bstep : Op -> St -> Lc -> St * (Lc + Rs))
         (is_read : Op -> bool),
    (forall o s l, is_read o = true -> fst (bstep o s l) = s) ->
    forall s0 p sched,
      let c := exec St Op Rs Lc l0 bstep is_read (init St Op Rs Lc s0 p) sched in
      (exists sg, seq_rel St Op Rs Lc l0 bstep s0 (lin _ _ _ _ c) sg
                  /\ (no_writer_mid _ _ _ _ is_read c -> sg = sh _ _ _ _ c))
      /\ lin_of _ _ (hist _ _ _ _ c) = lin _ _ _ _ c
      /\ bracketed _ _ (hist _ _ _ _ c).
Proof. exact linearizable_gen. Qed.
Print Assumptions linearizable.

(** LRU and FIFO: however the method bodies are cut into micro-steps, as
    long as a body run alone computes the model's step (what the
    correspondence check validates on every run) and the Len/Cap/Peek bodies
    do not store (the source fact [read_lock_methods_read_only]; the model
    agrees: [lf_wstep] leaves the state alone on these operations), every
    concurrent execution has the answers of the sequential model in
    linearization order. *)
Theorem linearizable_lru_fifo :
  forall fifo (Lc : Type) (l0 : op -> Lc) (bstep : op -> store * lf -> Lc -> (store * lf) * (Lc + out)),
    (forall o s l, op_is_read o = true -> fst (bstep o s l) = s) ->
    (forall o s s' r, runs _ _ _ _ l0 bstep o s s' r -> lf_wstep fifo false s o = (s', r)) ->
    (forall w o, op_is_read o = true -> fst (lf_wstep fifo false w o) = w)
    /\ forall w0 p sched,
      let c := exec _ _ _ _ l0 bstep op_is_read (init _ _ _ _ w0 p) sched in
      (exists sg, seq_run _ _ _ (lf_wstep fifo false) w0 (map (op_of _ _) (lin _ _ _ _ c)) = (sg, map (res_of _ _) (lin _ _ _ _ c))
                  /\ (no_writer_mid _ _ _ _ op_is_read c -> sg = sh _ _ _ _ c))
      /\ lin_of _ _ (hist _ _ _ _ c) = lin _ _ _ _ c
      /\ bracketed _ _ (hist _ _ _ _ c).
Proof.
  exact (fun fifo Lc l0 bstep RP IMP =>
    conj (lf_read_pure fifo)
         (fun w0 p sched => linearizable_step _ _ _ _ l0 bstep op_is_read RP w0 (lf_wstep fifo false) p sched IMP)).
Qed.
Print Assumptions linearizable_lru_fifo.

Theorem linearizable_random :
  forall (Lc : Type) (l0 : rop -> Lc) (bstep : rop -> store * rnd -> Lc -> (store * rnd) * (Lc + out)),
    (forall o s l, op_is_read (rop_op o) = true -> fst (bstep o s l) = s) ->
    (forall o s s' r, runs _ _ _ _ l0 bstep o s s' r -> rnd_wstep s o = (s', r)) ->
    (forall w o, op_is_read (rop_op o) = true -> fst (rnd_wstep w o) = w)
    /\ forall w0 p sched,
      let c := exec _ _ _ _ l0 bstep (fun o => op_is_read (rop_op o)) (init _ _ _ _ w0 p) sched in
      (exists sg, seq_run _ _ _ rnd_wstep w0 (map (op_of _ _) (lin _ _ _ _ c)) = (sg, map (res_of _ _) (lin _ _ _ _ c))
                  /\ (no_writer_mid _ _ _ _ (fun o => op_is_read (rop_op o)) c -> sg = sh _ _ _ _ c))
      /\ lin_of _ _ (hist _ _ _ _ c) = lin _ _ _ _ c
      /\ bracketed _ _ (hist _ _ _ _ c).
Proof.
  exact (fun Lc l0 bstep RP IMP =>
    conj rnd_read_pure
         (fun w0 p sched => linearizable_step _ _ _ _ l0 bstep (fun o => op_is_read (rop_op o)) RP w0 rnd_wstep p sched IMP)).
Qed.
Print Assumptions linearizable_random.

(** Non-vacuity: a reachable LRU state with an eviction, and a two-thread run. *)
Example lru_history :
  prun lf op id_op (lf_wstep false false) true (store0, lf_empty 1) client0
    [Rebase 0%nat 0 true; Put 0%nat; Rebase 1%nat 1 true; Put 1%nat; Get 0; Peek 1; Drop 1; Len]
  = Some [OUnit; OPut None true; OUnit; OPut (Some 0%nat) true; OGet None; OPeek (Some 111); OUnit; ONum 0].
Proof. vm_compute. reflexivity. Qed.

Example two_threads :
  let c := exec _ _ _ _ (fun _ => tt) (atomic_body (lf_wstep false false)) op_is_read
             (init _ _ _ _ (sset store0 0%nat (mkblk 0 true), lf_empty 1)
                   (fun t => match t with O => [Put 0%nat] | 1%nat => [Len; Get 0] | _ => [] end))
             [1; 0; 1; 0; 1; 1; 0; 1; 1; 1; 0; 0; 0; 1; 1; 1; 1]%nat in
  map (res_of _ _) (lin _ _ _ _ c) = [ONum 0; OPut None true; OGet (Some 0%nat)].
Proof. vm_compute. reflexivity. Qed.
