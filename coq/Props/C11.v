(** C11 — decoders are total: any bytes give a value or an error, never a panic
    or a hang; values returned without error can be passed to the library's own
    accessors, formatters, writers and index builders without a panic.

    Statements with their derivations.  The models are in Model/Dec*.v
    (panic-aware: every Go index / slice expression, make with a
    data-dependent length, nil dereference and explicit panic is a checked
    operation; loops carry fuel and running out of fuel is [Stuck]), the proofs
    in Proofs/Dec*.v; [bai_read_total], [tabix_read_total], [fai_line_total] and
    [fai_newindex_total] (from [ni_fold_total] of Proofs/FaiIndex.v) are derived
    here from the lemmas about their parts.
    [safe o] means: o is neither [Panic _] nor [Stuck].
    The [c11_...] definitions, [itf8_Decode], [ltf8_Decode], [csi_nextBinShift],
    the [internal_level...] constants and [fai_NewIndex_blank_advances] are
    regenerated from the Go source on every run. *)
From Coq Require Import ZArith List Bool.
From Hts Require Proofs.FaiIndex.
From Hts Require Import Proofs.DecLemmas.
From Hts Require Import Base.Prim Base.DecBase Generated
  Model.DecText Model.DecBam Model.DecIndex Model.DecCram Model.DecBgzf Model.DecSam Model.Fai Model.DecQuery
  Proofs.DecText Proofs.DecBam Proofs.DecIndex Proofs.DecCram Proofs.DecBgzf Proofs.DecSam.
Open Scope Z_scope.

(** CigarOpType.Consumes and String (translated from the Go source) return for
    every operation type byte; in particular for the types 10..15 a BAM record
    can carry. *)
Theorem cigar_optype_lookups_total :
  forall ct, 0 <= ct -> safe (c11_Consumes ct) /\ safe (c11_OpString ct).
Proof. intros ct H. split; [exact (Consumes_safe ct H)|exact (OpString_safe ct)]. Qed.
Print Assumptions cigar_optype_lookups_total.

(** Record.End, Cigar.IsValid and Cigar.Lengths return for every list of 32 bit
    CIGAR words, every position and every flag. *)
Theorem cigar_accessors_total :
  forall unmapped pos c len,
    safe (record_end unmapped pos c) /\ safe (cigar_is_valid c len) /\ safe (lengths_loop 0 0 c).
Proof. intros. split; [apply record_end_safe|split; [apply cigar_is_valid_safe|apply lengths_loop_safe]]. Qed.
Print Assumptions cigar_accessors_total.

(** ParseCigar (with atoi and NewCigarOp's explicit panic) returns a value or an
    error on every byte string and its loops terminate. *)
Theorem parse_cigar_total : forall b, safe (parse_cigar b).
Proof. exact parse_cigar_safe. Qed.
Print Assumptions parse_cigar_total.

Theorem parse_cigar_value_safe :
  forall b c unmapped pos len, parse_cigar b = Ok c ->
    safe (record_end unmapped pos c) /\ safe (cigar_is_valid c len) /\ safe (lengths_loop 0 0 c).
Proof. intros b c unmapped pos len _. apply cigar_accessors_total. Qed.
Print Assumptions parse_cigar_value_safe.

(** Header.UnmarshalText with the five line parsers: for every text and every
    answer of the library / header-state dependent checks. *)
Theorem header_text_total : forall lib text, safe (unmarshal_header_text lib text).
Proof. exact unmarshal_header_text_safe. Qed.
Print Assumptions header_text_total.

(** sam.Reader.Read line trimming: ReadBytes returns at least the delimiter
    unless it reports EOF. An empty line is handed on and rejected by
    UnmarshalSAM's field count. *)
Theorem sam_read_line_total :
  forall b eof, (eof = false -> 1 <= zlen b) -> safe (sam_read_line b eof).
Proof. exact sam_read_line_safe. Qed.
Print Assumptions sam_read_line_total.

Theorem sam_empty_line_rejected : forall l, zlen l = 0 -> sam_field_count l = Err 1.
Proof. intros [|x l] H; [reflexivity|discriminate H]. Qed.
Print Assumptions sam_empty_line_rejected.

(** ParseAux: for every text and every answer of strconv. *)
Theorem parse_aux_total : forall lib text, safe (parse_aux lib text).
Proof. intros lib text. exact (post_safe (parse_aux_ok lib text)). Qed.
Print Assumptions parse_aux_total.

(** Every Aux that ParseAux returns is accepted by Tag, Type, Kind, Value and
    String, hence by MarshalSAM and by buildAux (bam.Writer.Write). *)
Theorem parse_aux_value_safe :
  forall lib text a, all_bytes text = true -> zlen text < 2 ^ 31 -> parse_aux lib text = Ok a -> aux_wf a.
Proof. intros lib text a _ Hsz E. exact (post_ok (parse_aux_ok lib text) E Hsz). Qed.
Print Assumptions parse_aux_value_safe.

(** Record.UnmarshalSAM as a whole: field split and count, flags / positions /
    mapping quality (strconv), reference look-ups, ParseCigar, NewSeq/contract,
    Cigar.IsValid, QUAL handling, the aux loop with ParseAux. *)
Theorem unmarshal_sam_total :
  forall lib b, all_bytes b = true -> zlen b < 2 ^ 31 -> safe (unmarshal_sam lib b).
Proof. intros lib b Hb _. exact (post_safe (unmarshal_sam_ok lib b Hb)). Qed.
Print Assumptions unmarshal_sam_total.

(** ... and the record it returns is accepted by End/Bin/Len, IsValid, Lengths,
    Seq.Expand (String, MarshalSAM), every Aux accessor and buildAux. *)
Theorem unmarshal_sam_value_safe :
  forall lib b r, all_bytes b = true -> zlen b < 2 ^ 31 -> unmarshal_sam lib b = Ok r -> safe (srec_accessors r).
Proof. intros lib b r Hb Hs E. exact (srec_accessors_safe r (post_ok (unmarshal_sam_ok lib b Hb) E Hs)). Qed.
Print Assumptions unmarshal_sam_value_safe.

(** parseAux: on every aux block (of less than 2 GiB) it returns, and every
    field it hands out is accepted by Tag, Type, Kind, Value and String. *)
Theorem bam_parse_aux_total :
  forall aux, all_bytes aux = true -> zlen aux < 2 ^ 31 ->
    safe (bam_parse_aux aux) /\ forall aa, bam_parse_aux aux = Ok aa -> Forall aux_wf aa.
Proof. intros aux Hb Hs. apply post_split, (post_weaken (bam_parse_aux_ok aux Hb)). auto. Qed.
Print Assumptions bam_parse_aux_total.

(** Reader.Read after newBuffer: every record block, every Omit setting, every
    number of header references. *)
Theorem bam_record_total :
  forall data omit nrefs, all_bytes data = true -> zlen data < 2 ^ 31 -> safe (bam_record data omit nrefs).
Proof. intros data omit nrefs Hb _. exact (post_safe (bam_record_ok data omit nrefs Hb)). Qed.
Print Assumptions bam_record_total.

(** A record that Read returns can be given to End / Bin / Len, IsValid,
    Lengths, Seq.Expand (String, MarshalSAM), every Aux accessor and buildAux
    (bam.Writer.Write). *)
Theorem bam_record_value_safe :
  forall data omit nrefs r, all_bytes data = true -> zlen data < 2 ^ 31 ->
    bam_record data omit nrefs = Ok r -> safe (record_accessors r).
Proof.
  intros data omit nrefs r Hb Hs E. exact (record_accessors_safe r (post_ok (bam_record_ok data omit nrefs Hb) E Hs)).
Qed.
Print Assumptions bam_record_value_safe.

(** The BAM reader top level: NewReader (magic, header text, reference records)
    and Read called until its first error, over every byte string the BGZF layer
    can deliver (a source that fails at offset k is observed as the string cut at
    k): no panic, termination, and every record returned on the way is safe. *)
Theorem bam_reader_total :
  forall lib refs_ok omit s, all_bytes s = true ->
    safe (bam_reader lib refs_ok omit s) /\
    forall rs, bam_reader lib refs_ok omit s = Ok rs -> Forall (fun r => safe (record_accessors r)) rs.
Proof.
  intros lib refs_ok omit s Hb. apply post_split, (post_weaken (bam_reader_ok lib refs_ok omit s Hb)).
  intros rs. apply Forall_impl, record_accessors_safe.
Qed.
Print Assumptions bam_reader_total.

(** Header.DecodeBinary (lText, nRef, lName feeding make; name[n-1]). *)
Theorem binary_header_total : forall lib refs_ok s, safe (decode_binary_header lib refs_ok s).
Proof. exact decode_binary_header_safe. Qed.
Print Assumptions binary_header_total.

Theorem bai_read_total : forall s, safe (bam_read_index s).
Proof.
  intros s. apply post_take; [exact I|]. intros m s1 _ _ _.
  destruct (negb (zeqb m baiMagic)); [exact I|].
  apply (post_bind2 (rd_i32_ok s1)). intros n s2 _. apply read_index_safe.
Qed.
Print Assumptions bai_read_total.

Theorem tabix_read_total : forall s, safe (tabix_read_from s).
Proof.
  intros s. apply post_take; [exact I|]. intros m s1 _ _ _.
  destruct (negb (zeqb m tbiMagic)); [exact I|].
  apply (post_bind2 (rd_i32_ok s1)). intros n s2 _.
  apply (post_bind2 (read_tabix_header_safe s2)). intros nn s3 _.
  destruct (negb (nn =? n)); [exact I|apply read_index_safe].
Qed.
Print Assumptions tabix_read_total.

Theorem csi_read_total : forall s, safe (csi_read_from s).
Proof. exact csi_read_from_safe. Qed.
Print Assumptions csi_read_total.

(** Value safety of the index readers on the query side: csi.Index.Chunks answers
    every interval (empty, reversed, negative, beyond the geometry) on every
    geometry csi.ReadFrom accepts, and internal.Index.Chunks (BAI, tabix) every
    interval for every length of the linear index: rejected / nil, or the tile
    index is inside Intervals and the uint32 bin enumeration terminates.
    (sort.Search, the merge strategies and the writers are exercised by the
    fuzz run only.) *)
Theorem csi_chunks_query_total :
  forall minShift depth beg end_, 0 <= minShift -> 0 <= depth <= 9 -> minShift + 3 * depth <= 63 ->
    safe (csi_chunks_query minShift depth beg end_).
Proof. exact csi_chunks_query_safe. Qed.
Print Assumptions csi_chunks_query_total.

Theorem bai_chunks_query_total : forall nintv beg end_, 0 <= nintv -> safe (bai_chunks_query nintv beg end_).
Proof. intros nintv beg end_ _. apply bai_chunks_query_safe. Qed.
Print Assumptions bai_chunks_query_total.

(** fai.ReadFrom's conversion of a five field record: the *csv.ParseError panic
    of mustAtoi is the only panic and it is recovered. *)
Theorem fai_record_total : forall conv fields, zlen fields = 5 -> safe (fai_record conv fields).
Proof. intros conv fields H5. exact (post_safe (fai_record_ok conv fields H5)). Qed.
Print Assumptions fai_record_total.

(** ... and a text line of any shape (ReadFrom splits the line at tabs and checks the field count itself). *)
Theorem fai_line_total : forall conv text, safe (fai_line conv text).
Proof.
  intros conv text. unfold fai_line. destruct (Z.eqb_spec (zlen (DecText.split_on 9 text)) 5) as [H5|]; [|exact I].
  exact (post_safe (fai_record_ok conv _ H5)).
Qed.
Print Assumptions fai_line_total.

(** Record.Position on every in-range position of an accepted record. *)
Theorem fai_position_value_safe :
  forall conv fields r p, zlen fields = 5 -> fai_record conv fields = Ok r -> 0 <= p < f_len r -> safe (fai_position r p).
Proof.
  intros conv fields r p H5 E. exact (fai_position_safe r p (post_ok (fai_record_ok conv fields H5) E)).
Qed.
Print Assumptions fai_position_value_safe.

(** fai.NewIndex ([newindex] of Model/Fai.v, which the C19 theorems are about):
    an index or one of its errors (bufio.Scanner's token limit included) on
    every byte string. *)
Theorem fai_newindex_total : forall file, safe (newindex file).
Proof.
  intros file. unfold newindex, newindex_gen. destruct (scan_tokens (lines file)) as [toks toolong].
  destruct (FaiIndex.ni_fold_total fai_NewIndex_blank_advances toks nstate0) as [[st ->]|[e ->]]; [destruct toolong|]; exact I.
Qed.
Print Assumptions fai_newindex_total.

(** errorReader.itf8slice (count from the input feeds make). *)
Theorem cram_itf8slice_total : forall r, all_bytes (e_s r) = true -> safe (er_itf8slice r).
Proof. intros r Hb. exact (post_safe (er_itf8slice_ok r Hb)). Qed.
Print Assumptions cram_itf8slice_total.

(** Block.readFrom, for both answers of the CRC comparison. *)
Theorem cram_block_read_total : forall crc_ok s, all_bytes s = true -> safe (block_read crc_ok s).
Proof. exact block_read_safe. Qed.
Print Assumptions cram_block_read_total.

(** Container.readFrom (ITF-8 and LTF-8 header fields, landmarks array, CRC). *)
Theorem cram_container_read_total : forall crc_ok s, all_bytes s = true -> safe (container_read crc_ok s).
Proof. exact container_read_safe. Qed.
Print Assumptions cram_container_read_total.

(** Slice.readFrom (block id array from an ITF-8 count). *)
Theorem cram_slice_read_total : forall data, all_bytes data = true -> safe (slice_read data).
Proof. exact slice_read_safe. Qed.
Print Assumptions cram_slice_read_total.

(** Block.Value for every block (file header, slice header, data blocks of every
    method), every answer of the decompressors and of the header library calls. *)
Theorem cram_block_value_safe :
  forall unz lib b,
    all_bytes (k_data b) = true -> (forall m d x, unz m d = Some x -> all_bytes x = true) ->
    safe (block_value unz lib b).
Proof. exact block_value_safe. Qed.
Print Assumptions cram_block_value_safe.

(** expectedMemberSize (translated from bgzf/reader.go) returns for every Extra
    field, whatever position bytes.Index reports for the BC subfield prefix:
    h.Extra[i+4] and h.Extra[i+5] are covered by the guard in front of them. *)
Theorem bgzf_member_size_total :
  forall (bytes_index : list Z -> list Z -> Z) extra, safe (c11_expectedMemberSize bytes_index extra).
Proof. intros idx extra. exact (post_safe (expectedMemberSize_ok idx extra)). Qed.
Print Assumptions bgzf_member_size_total.

(** decompressor.readMember: the gzip member header walk (FEXTRA/XLEN, FNAME,
    FCOMMENT, FHCRC), expectedMemberSize, need = blockSize - skipped and
    r.data[:need] of the 64 KiB buffer, on every byte string. *)
Theorem bgzf_read_member_total : forall hcrc_ok s, all_bytes s = true -> safe (bgzf_read_member hcrc_ok s).
Proof. exact bgzf_read_member_safe. Qed.
Print Assumptions bgzf_read_member_total.

(** Reader.Seek after a failed fetch: for every history of Seek calls, every
    state of the current block (base, has data), every answer of the cache, of
    the fetch/inflate and of the in-block seek, block.seek is never applied to a
    block without data. The guard is the expression translated from the source. *)
Theorem bgzf_seek_after_failed_fetch_total : forall h st, safe (seek_history st h).
Proof. exact seek_history_safe. Qed.
Print Assumptions bgzf_seek_after_failed_fetch_total.

(** A valid record block decodes to a value (hypotheses of the BAM theorems are
    satisfiable and the Ok branch is inhabited): refID 0, pos 100, name "r",
    one CIGAR op 2M, l_seq 2, aux NM:C:3. *)
Example bam_record_valid :
  let data := [0;0;0;0; 100;0;0;0; 2; 30; 0;0; 1;0; 0;0; 2;0;0;0; 255;255;255;255; 255;255;255;255; 0;0;0;0;
               114;0; 32;0;0;0; 18; 40;41; 78;77;67;3] in
  all_bytes data = true /\
  match bam_record data 0 1 with
  | Ok r => r_pos r = 100 /\ r_cigar r = [32] /\ r_lseq r = 2 /\ r_aux r = [[78;77;67;3]] /\ is_ok (record_accessors r) = true
  | _ => False
  end.
Proof. vm_compute. repeat split; reflexivity. Qed.

(** The states the checked operations guard against are reachable in the model
    when a guard is missing — the defects that were repaired in the library:
    an M5 value of 34 hex digits overruns the 16 byte digest buffer; a one byte
    Aux (early NUL in a Z field) breaks every accessor; txt[1] of "XY:B:c";
    names[len(names)-1] of an empty tabix name block; csi reg2bins on the
    unvalidated empty interval (0,0) never leaves its level 0 loop. *)
Example guards_are_needed :
  (exists v, is_panic (hex_decode 16 0 v (S (length v))) = true)
  /\ is_panic (aux_value [88]) = true
  /\ inb [99] 1 = false
  /\ inb (@nil Z) (zlen (@nil Z) - 1) = false
  /\ reg2bins 0 0 14 5 = Stuck.
Proof.
  split; [exact hex_decode_unguarded_panics|]. split; [exact (proj1 short_aux_panics)|].
  split; [exact parse_aux_B_short_would_panic|]. split; [exact tabix_empty_names_would_panic|exact reg2bins_empty_query_stuck].
Qed.
