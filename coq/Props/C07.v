(** C07 — header serialisation round trips and identity invariants under
    edits.  Statements; the proofs are in Proofs/Header*.v.  The model
    (Model/Header.v) follows sam/header.go, parse_header.go, reference.go,
    read_group.go, program.go of the checked tree and is run against the
    implementation on every check run (Model/HeaderRun.v, [c07_step] is the
    very function the histories below are made of). *)
From Coq Require Import ZArith List Bool.
From Hts Require Import Base.Prim Model.Header Model.HeaderRun Proofs.HeaderWorld Proofs.HeaderHist Proofs.HeaderMerge Proofs.HeaderText Proofs.HeaderNum Proofs.HeaderRT Proofs.HeaderBin Proofs.HeaderWF.
Import ListNotations.
Open Scope Z_scope.

(** HInv after EVERY history of the operations of the harness protocol
    (New*/Clone of items, NewHeader from references or text, @HD field and
    comment edits, Add/Remove/SetName for the three kinds of items,
    Header.Clone, MergeHeaders, UnmarshalText of further lines, binary
    decode), error results included, for any time and URI parsers: every
    operation returns (no panic, no blocking) and the run ends in a state
    where HInv holds for every header.  Every prefix of a history is a
    history, so HInv holds in every reachable state. *)
Theorem header_inv_preserved :
  forall (parse_time parse_uri : str -> option str) (ops : list c07op),
    exists w e, c07_exec parse_time parse_uri world0 env0 ops = Ok (w, e) /\ WInv w.
Proof.
  intros pt pu ops. destruct (c07_exec_total pt pu ops world0 env0 WInv_world0 EnvOK_0) as (w & e & R & I & _). eauto.
Qed.
Print Assumptions header_inv_preserved.

(** One step from any state that satisfies HInv (not only reachable ones):
    the step returns, with or without an error value, and HInv holds again. *)
Theorem header_inv_step :
  forall (parse_time parse_uri : str -> option str) w e op, WInv w -> EnvOK w e ->
    exists w' e' c l, c07_step parse_time parse_uri w e op = Ok (w', e', c, l) /\ WInv w' /\ EnvOK w' e'.
Proof. exact c07_step_total. Qed.
Print Assumptions header_inv_step.

(** MergeHeaders of two or more headers of a world that satisfies HInv
    returns; HInv holds afterwards; and when it succeeds, the links it returns
    pair every reference of every source (in order) with a reference that the
    merged header owns and lists at its id, with the same name and length. *)
Theorem merge_links :
  forall w s0 srcs, WInv w -> (s0 < length (w_h w))%nat -> (forall s, In s srcs -> (s < length (w_h w))%nat) ->
  exists w' e links, merge_headers w s0 srcs = Ok (w', e, links) /\ WInv w' /\ Ext w w' /\
    (length (w_h w) < length (w_h w'))%nat /\
    (e = 0 -> Forall2 (links_good w w' (length (w_h w))) (s0 :: srcs) links).
Proof. exact merge_headers_spec. Qed.
Print Assumptions merge_links.

(** Text round trip.  For any date and URI parsers, any world satisfying HInv
    and any header [hd] of it whose values are printable ([WFH]: no TAB, LF or
    CR in values (comments may contain TABs), reference lengths and insert
    sizes in range, checksums of 16 bytes, dates and URIs canonical — i.e.
    [parse d = Some d], which is the law fmt (parse (fmt x)) = fmt x for the
    opaque libraries —, non-standard tags distinct and not standard ones, an
    @HD field only together with a version): NewHeader(MarshalText(hd), nil)
    succeeds, HInv holds, and the new header exposes the same values
    ([view]: version, SO, GO, other @HD tags, comments, and for references,
    read groups and programs the lists of names with all fields, in order);
    hence it marshals to the same text and the same binary. *)
Theorem header_text_roundtrip :
  forall (parse_time parse_uri : str -> option str) w h hd text,
    WInv w -> nth_error (w_h w) h = Some hd -> WFH parse_time parse_uri w hd ->
    marshal_text w hd = Ok text ->
    exists w' hd', new_header parse_time parse_uri w (Some text) [] = Ok (w', 0) /\ WInv w' /\
      nth_error (w_h w') (length (w_h w)) = Some hd' /\ view w' hd' = view w hd /\
      marshal_text w' hd' = Ok text /\ encode_binary w' hd' = encode_binary w hd.
Proof. exact text_roundtrip. Qed.
Print Assumptions header_text_roundtrip.

(** Binary round trip.  Under the same conditions, and when the sizes fit the
    int32 fields of the BAM header block, DecodeBinary into a fresh header of
    the bytes EncodeBinary wrote succeeds, HInv holds, the new header exposes
    the same values — including the non-standard @SQ tags, which the binary
    reference records do not carry and which the replacement path of
    AddReference inherits — and it encodes to the same text and the same
    bytes. *)
Theorem header_binary_roundtrip :
  forall (parse_time parse_uri : str -> option str) w h hd text rs b,
    WInv w -> nth_error (w_h w) h = Some hd -> WFH parse_time parse_uri w hd ->
    marshal_text w hd = Ok text -> objs (w_r w) (t_items (h_R hd)) = Some rs -> fits_int32 text rs ->
    encode_binary w hd = Ok b ->
    exists w' hd', decode_binary parse_time parse_uri w b = Ok (w', 0) /\ WInv w' /\
      nth_error (w_h w') (length (w_h w)) = Some hd' /\ view w' hd' = view w hd /\
      marshal_text w' hd' = Ok text /\ encode_binary w' hd' = Ok b.
Proof. exact binary_roundtrip. Qed.
Print Assumptions header_binary_roundtrip.

(** WFH for every header built through the API.  The opaque parsers satisfy
    the laws: a canonical value is a fixed point of parsing and contains no
    TAB, LF or CR.  [clean_op]: the values given to an operation contain no TAB,
    LF or CR (comments: no LF/CR), checksums have 16 bytes, dates and URIs are
    canonical, a text given to NewHeader/UnmarshalText has CR only as the last
    byte of a line, and the version is not set to the empty string (an @HD
    field only together with a version).  Lengths and insert sizes are checked
    by the constructors themselves.  Binary decoding as a step of a history is
    excluded ([clean_op (ODecode _) = False]).  Then from the empty world the
    history runs to the end, HInv holds and every header satisfies WFH. *)
Theorem wfh_preserved :
  forall (parse_time parse_uri : str -> option str),
    (forall v d, parse_time v = Some d -> parse_time d = Some d /\ clean d) ->
    (forall v u, parse_uri v = Some u -> parse_uri u = Some u /\ clean u) ->
    forall ops, Forall (clean_op parse_time parse_uri) ops ->
    exists w e, c07_exec parse_time parse_uri world0 env0 ops = Ok (w, e) /\ WInv w /\
      forall h hd, nth_error (w_h w) h = Some hd -> WFH parse_time parse_uri w hd.
Proof.
  intros pt pu Lt Lu ops F. destruct (c07_exec_total pt pu ops world0 env0 WInv_world0 EnvOK_0) as (w & e & R & I & _).
  exists w, e. split; [exact R|]. split; [exact I|]. intros h hd. apply (AllWF_WFH pt pu); [exact I|].
  exact (c07_exec_wf pt pu Lt Lu ops world0 env0 w e (AllWF_world0 pt pu) F R).
Qed.
Print Assumptions wfh_preserved.

(** Hence the round trips for every header of every world reached by a clean
    history, with no hypothesis on the header (the binary one keeps the
    condition that the sizes fit the int32 fields of the format). *)
Theorem header_text_roundtrip_api :
  forall (parse_time parse_uri : str -> option str),
    (forall v d, parse_time v = Some d -> parse_time d = Some d /\ clean d) ->
    (forall v u, parse_uri v = Some u -> parse_uri u = Some u /\ clean u) ->
    forall ops, Forall (clean_op parse_time parse_uri) ops ->
    exists w e, c07_exec parse_time parse_uri world0 env0 ops = Ok (w, e) /\
      forall h hd text, nth_error (w_h w) h = Some hd -> marshal_text w hd = Ok text ->
        exists w' hd', new_header parse_time parse_uri w (Some text) [] = Ok (w', 0) /\ WInv w' /\
          nth_error (w_h w') (length (w_h w)) = Some hd' /\ view w' hd' = view w hd /\
          marshal_text w' hd' = Ok text /\ encode_binary w' hd' = encode_binary w hd.
Proof.
  intros pt pu Lt Lu ops F. destruct (wfh_preserved pt pu Lt Lu ops F) as (w & e & R & I & W). exists w, e. split; [exact R|].
  intros h hd text Hh. apply (text_roundtrip pt pu w h hd text I Hh (W h hd Hh)).
Qed.
Print Assumptions header_text_roundtrip_api.

Theorem header_binary_roundtrip_api :
  forall (parse_time parse_uri : str -> option str),
    (forall v d, parse_time v = Some d -> parse_time d = Some d /\ clean d) ->
    (forall v u, parse_uri v = Some u -> parse_uri u = Some u /\ clean u) ->
    forall ops, Forall (clean_op parse_time parse_uri) ops ->
    exists w e, c07_exec parse_time parse_uri world0 env0 ops = Ok (w, e) /\
      forall h hd text rs b, nth_error (w_h w) h = Some hd -> marshal_text w hd = Ok text ->
        objs (w_r w) (t_items (h_R hd)) = Some rs -> fits_int32 text rs -> encode_binary w hd = Ok b ->
        exists w' hd', decode_binary parse_time parse_uri w b = Ok (w', 0) /\ WInv w' /\
          nth_error (w_h w') (length (w_h w)) = Some hd' /\ view w' hd' = view w hd /\
          marshal_text w' hd' = Ok text /\ encode_binary w' hd' = Ok b.
Proof.
  intros pt pu Lt Lu ops F. destruct (wfh_preserved pt pu Lt Lu ops F) as (w & e & R & I & W). exists w, e. split; [exact R|].
  intros h hd text rs b Hh. apply (binary_roundtrip pt pu w h hd text rs b I Hh (W h hd Hh)).
Qed.
Print Assumptions header_binary_roundtrip_api.

(** The codecs inside the text: decimal and hexadecimal. *)
Theorem header_number_codecs :
  (forall n, - 2 ^ 63 <= n <= 2 ^ 63 - 1 -> atoi (dec n) = Some n) /\
  (forall s, bytes s -> (length s <= 16)%nat -> hex_decode 0 (hex_of s) [] = Ok s).
Proof. split; [exact atoi_dec|]. intros s B L. exact (hex_decode_hex_of s 0 [] B L). Qed.
Print Assumptions header_number_codecs.

(** What WInv says: in every header, for references, read groups and
    programs alike, the i-th listed item is owned by the header and has id i,
    listed items have pairwise distinct names, the name table maps exactly
    the names of the listed items to their indices; and every item that has
    an owner is listed by that owner at its id. *)
Theorem hinv_meaning :
  forall w, WInv w ->
  (forall h hd, nth_error (w_h w) h = Some hd ->
     HInvK h (w_r w) (h_R hd) /\ HInvK h (w_g w) (h_G hd) /\ HInvK h (w_p w) (h_P hd)) /\
  (forall r o h, nth_error (w_r w) r = Some o -> o_owner o = Some h ->
     exists hd, nth_error (w_h w) h = Some hd /\ nth_error (t_items (h_R hd)) (Z.to_nat (o_id o)) = Some r) /\
  (forall r o h, nth_error (w_g w) r = Some o -> o_owner o = Some h ->
     exists hd, nth_error (w_h w) h = Some hd /\ nth_error (t_items (h_G hd)) (Z.to_nat (o_id o)) = Some r) /\
  (forall r o h, nth_error (w_p w) r = Some o -> o_owner o = Some h ->
     exists hd, nth_error (w_h w) h = Some hd /\ nth_error (t_items (h_P hd)) (Z.to_nat (o_id o)) = Some r).
Proof.
  intros w I. split; [|split; [|split]].
  - intros h hd Hh. split; [|split]; apply TInv_HInvK.
    + exact (lens_TInv kR invR w h hd I Hh).
    + exact (lens_TInv kG invG w h hd I Hh).
    + exact (lens_TInv kP invP w h hd I Hh).
  - exact (fun r o h => lens_owned kR invR w r o h I).
  - exact (fun r o h => lens_owned kG invG w r o h I).
  - exact (fun r o h => lens_owned kP invP w r o h I).
Qed.
Print Assumptions hinv_meaning.

(** Non-vacuity: a remove-then-add history with a replacement (refs A,B,C;
    remove A; add a new C with a conflicting checksum) runs to the end, the new C
    replaces the old one at index 1 with id 1, the old one is released. *)
Example hinv_example :
  let none := fun _ : str => @None str in
  match c07_exec none none world0 env0
          [ONewRef [65] 10 [] [] [] []; ONewRef [66] 10 [] [] [] []; ONewRef [67] 10 [9;9;9;9;9;9;9;9;9;9;9;9;9;9;9;9] [] [] [];
           ONewHdr None []; OAddRef 0 0; OAddRef 0 1; OAddRef 0 2; ORmRef 0 0;
           ONewRef [67] 10 [1;2;3;4;5;6;7;8;9;10;11;12;13;14;15;16] [] [] []; OAddRef 0 3] with
  | Ok (w, e) => match nth_error (w_h w) 0 with
                 | Some hd => t_items (h_R hd) = [1%nat; 3%nat] /\ map (fun o => o_id o) (w_r w) = [-1; 0; -1; 1]
                 | None => False
                 end
  | _ => False
  end.
Proof. vm_compute. split; reflexivity. Qed.

(** Non-vacuity of merge_links: three headers whose common reference C carries
    conflicting checksums: every link is owned and listed (first
    component 1), id 0, named C, length 10. *)
Example merge_example :
  let none := fun _ : str => @None str in
  let X := [1;1;1;1;1;1;1;1;1;1;1;1;1;1;1;1] in
  let Y := [2;2;2;2;2;2;2;2;2;2;2;2;2;2;2;2] in
  match c07_exec none none world0 env0
          [ONewRef [67] 10 X [] [] []; ONewRef [67] 10 Y [] [] []; ONewRef [67] 10 X [] [] [];
           ONewHdr None [0]; ONewHdr None [1]; ONewHdr None [2]] with
  | Ok (w, e) =>
    match c07_step none none w e (OMerge [0; 1; 2]) with
    | Ok (_, _, c, Some links) => c = 0 /\ links = [[(1, 0, [67], 10)]; [(1, 0, [67], 10)]; [(1, 0, [67], 10)]]
    | _ => False
    end
  | _ => False
  end.
Proof. vm_compute. split; reflexivity. Qed.

(** Non-vacuity of the round trips: a header with version, a reference carrying
    a checksum, AS and a non-standard tag, a read group and a comment with a
    TAB is read back from its own binary with the same text. *)
Example roundtrip_example :
  let id := fun s : str => Some s in
  let text := [64;72;68;9;86;78;58;49;46;53;9;83;79;58;117;110;107;110;111;119;110;10; 64;83;81;9;83;78;58;65;9;76;78;58;49;48;9;65;83;58;120;9;88;65;58;121;10;
               64;82;71;9;73;68;58;66;9;80;73;58;45;49;10; 64;67;79;9;97;9;98;10] in
  match new_header id id world0 (Some text) [] with
  | Ok (w, 0) =>
    match nth_error (w_h w) 0 with
    | Some hd => marshal_text w hd = Ok text /\
                 match encode_binary w hd with
                 | Ok b => match decode_binary id id w b with
                           | Ok (w', 0) => match nth_error (w_h w') 1 with
                                           | Some hd' => marshal_text w' hd' = Ok text /\ encode_binary w' hd' = Ok b
                                           | None => False end
                           | _ => False end
                 | _ => False end
    | None => False end
  | _ => False
  end.
Proof. vm_compute. repeat split; reflexivity. Qed.
