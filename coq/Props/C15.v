(** C15 — index serialisation round trip keeps answers and statistics.
    Statements with their derivations; the general theorems are [stats_read]
    (Proofs/IndexStats.v, for any index core), [bai_read_write]
    (IndexIOFull.v), [bai_reread_ok] (IndexFinal.v), [tbx_read_write]
    (TabixIO.v), [csi_read_write] and [cs_reread_ok] (CsiIO.v); IndexHist.v,
    TabixIdx.v and CsiStats.v carry them to histories, tabix and CSI.
    Models: Model/Index.v (Add and its counters), Model/IndexIO.v (byte-level
    writers and readers of BAI, CSI v1/v2 and tabix, validated against the
    implementation on every run). *)
From Coq Require Import ZArith List Bool.
From Hts Require Import Base.Prim Model.Index Model.Tabix Model.IndexSpec Model.IndexIO
  Model.Csi Model.TabixSpec Proofs.IndexStats Proofs.IndexIOFull Proofs.IndexFinal Proofs.TabixIdx Proofs.TabixIO
  Proofs.CsiStats Proofs.CsiIO Proofs.IndexHist.
Open Scope Z_scope.

(** Statistics are true: for EVERY record list that Add accepts (whatever its
    order), NumRefs is the number of references the placed records use, the
    unplaced count is the number of unplaced records (absent only when nothing
    was added), and ReferenceStats of each reference is: absent when the
    reference has no record, else the span from the chunk begin of its first
    record to the chunk end of its last one, with the numbers of its mapped and
    unmapped records. *)
Theorem stats_true :
  forall rs ix, ix_fold_add ix_empty rs = Ok ix ->
    ix_numrefs ix = ix_true_numrefs rs /\
    (rs <> [] -> iunm ix = Some (ix_true_unplaced rs)) /\
    (rs = [] -> iunm ix = None) /\
    forall rid, 0 <= rid -> ix_refstats ix rid = ix_true_stats rid rs.
Proof. exact (fun rs ix H => stats_read _ _ _ rs ix (bai_stats_inv rs ix H)). Qed.
Print Assumptions stats_true.

(** BAI, byte level, for EVERY index all of whose numbers fit their fields and
    that is in the order [Index.sort] establishes ([idx_fits (ix_sort ix)]):
    reading what WriteIndex wrote gives the sorted index with LastRecord =
    max int, and writing that gives the same bytes. *)
Theorem index_io_roundtrip :
  forall ix, idx_fits (ix_sort ix) ->
    bai_read (fst (bai_write ix)) = Ok (Some (mkIdx (irefs (ix_sort ix)) (iunm ix) true io_maxint)) /\
    fst (bai_write (mkIdx (irefs (ix_sort ix)) (iunm ix) true io_maxint)) = fst (bai_write ix).
Proof. exact (fun ix H => conj (bai_read_write ix H) (bai_write_read_write ix)). Qed.
Print Assumptions index_io_roundtrip.

(** For every BAI built by Add (any accepted record list) whose offsets and
    counters fit their fields ([idx_ranges]; the order is established by the
    writer itself): round trip as above, every query answers identically
    before and after, and NumRefs, the unplaced count and every
    ReferenceStats are unchanged. *)
Theorem chunks_preserved :
  forall rs ix, ix_fold_add ix_empty rs = Ok ix -> idx_ranges ix ->
    bai_read (fst (bai_write ix)) = Ok (Some (bai_reread ix)) /\
    fst (bai_write (bai_reread ix)) = fst (bai_write ix) /\
    (forall rid beg end_, fst (ix_chunks (bai_reread ix) rid beg end_) = fst (ix_chunks ix rid beg end_)) /\
    ix_numrefs (bai_reread ix) = ix_numrefs ix /\ iunm (bai_reread ix) = iunm ix /\
    (forall rid, ix_refstats (bai_reread ix) rid = ix_refstats ix rid).
Proof. exact (fun rs ix F R => bai_reread_ok ix (built_fits rs ix F R)). Qed.
Print Assumptions chunks_preserved.

(** Interleaved histories: in EVERY state reached from the empty index by
    successful Add, sort (WriteIndex) and Chunks calls in any order (records
    well formed, numbers fit their fields), WriteIndex followed by ReadIndex
    gives [bai_reread ix], writing that gives the same bytes, and every answer
    and statistic is unchanged. *)
Theorem index_io_roundtrip_history :
  forall rs ix, hist rs ix -> ix_wf rs -> idx_ranges ix ->
    bai_read (fst (bai_write ix)) = Ok (Some (bai_reread ix)) /\
    fst (bai_write (bai_reread ix)) = fst (bai_write ix) /\
    (forall rid beg end_, fst (ix_chunks (bai_reread ix) rid beg end_) = fst (ix_chunks ix rid beg end_)) /\
    ix_numrefs (bai_reread ix) = ix_numrefs ix /\ iunm (bai_reread ix) = iunm ix /\
    (forall rid, ix_refstats (bai_reread ix) rid = ix_refstats ix rid).
Proof. exact (fun rs ix H W R => bai_reread_ok ix (hist_fits rs ix H W R)). Qed.
Print Assumptions index_io_roundtrip_history.

(** tabix, byte level, for EVERY tabix index that fits ([tbx_fits]: header
    values in range, names without NUL bytes and pairwise different, one name
    per reference, numbers fit their fields, core in sorted order after sort):
    ReadFrom of what WriteTo wrote gives the same header and names, the name map
    0..n-1 and the sorted core; writing that gives the same bytes. *)
Theorem tabix_io_roundtrip :
  forall t, tbx_fits t ->
    tbx_read (fst (tbx_write t)) = Ok (Some (tbx_reread t)) /\
    fst (tbx_write (tbx_reread t)) = fst (tbx_write t).
Proof. exact (fun t H => conj (tbx_read_write t H) (tbx_write_read_write t)). Qed.
Print Assumptions tabix_io_roundtrip.

(** CSI, byte level, versions 1 and 2, any auxiliary bytes, for EVERY index
    with [csi_fits (cs_sort ix)] (version 1 or 2, a geometry the reader
    accepts, numbers fit their fields, sorted order after sort): ReadFrom of
    what WriteTo wrote is [cs_reread ix] — the sorted index, except that the
    per-bin record counts, which version 1 does not store, come back as 0 —
    and writing that gives the same bytes. *)
Theorem csi_io_roundtrip :
  forall ix, csi_fits (cs_sort ix) ->
    csi_read (fst (csi_write ix)) = Ok (Some (cs_reread ix)) /\
    fst (csi_write (cs_reread ix)) = fst (csi_write ix).
Proof. exact (fun ix H => conj (csi_read_write ix H) (csi_write_read_write ix)). Qed.
Print Assumptions csi_io_roundtrip.

(** CSI built by Add (any geometry, aux, version; any accepted record list)
    with [csi_ranges]: round trip, identical answers, identical NumRefs,
    unplaced count and ReferenceStats before and after. *)
Theorem csi_chunks_preserved :
  forall ms dp aux ver rs ix,
    cs_fold_add (mkCsi aux ver [] None ms dp false 0) rs = Ok ix -> csi_ranges ix ->
    csi_read (fst (csi_write ix)) = Ok (Some (cs_reread ix)) /\
    fst (csi_write (cs_reread ix)) = fst (csi_write ix) /\
    (forall rid beg end_, fst (cs_chunks (cs_reread ix) rid beg end_) = fst (cs_chunks ix rid beg end_)) /\
    cs_numrefs (cs_reread ix) = cs_numrefs ix /\ c_unm (cs_reread ix) = c_unm ix /\
    (forall rid, cs_refstats (cs_reread ix) rid = cs_refstats ix rid).
Proof. exact (fun ms dp aux ver rs ix F R => cs_reread_ok ix (csi_built_fits ms dp aux ver rs ix F R)). Qed.
Print Assumptions csi_chunks_preserved.

(** Statistics are true for CSI: for EVERY record list csi.Index.Add accepts
    (any geometry): NumRefs, unplaced count, per-reference span and counts. *)
Theorem csi_stats_true :
  forall ms dp aux ver rs ix,
    cs_fold_add (mkCsi aux ver [] None ms dp false 0) rs = Ok ix ->
    cs_numrefs ix = ix_true_numrefs rs /\
    (rs <> [] -> c_unm ix = Some (ix_true_unplaced rs)) /\
    (rs = [] -> c_unm ix = None) /\
    forall rid, 0 <= rid -> cs_refstats ix rid = ix_true_stats rid rs.
Proof. exact CsiStats.csi_stats_true. Qed.
Print Assumptions csi_stats_true.

(** Statistics are true for tabix (reference ids are the dense ids of the
    names, [tb_assign]) and are unchanged by WriteTo/ReadFrom. *)
Theorem tabix_stats_true :
  forall hdr nrs, ix_wf (tb_assign [] nrs) ->
  exists t, tb_fold_add (tb_new hdr) nrs = Ok t /\
    let rs := tb_assign [] nrs in
    (ix_numrefs (t_idx t) = ix_true_numrefs rs /\
     (nrs <> [] -> iunm (t_idx t) = Some (ix_true_unplaced rs)) /\
     (forall rid, 0 <= rid -> ix_refstats (t_idx t) rid = ix_true_stats rid rs)) /\
    (ix_numrefs (t_idx (tbx_reread t)) = ix_numrefs (t_idx t) /\
     iunm (t_idx (tbx_reread t)) = iunm (t_idx t) /\
     forall rid, ix_refstats (t_idx (tbx_reread t)) rid = ix_refstats (t_idx t) rid).
Proof.
  intros hdr nrs W. destruct (tabix_built hdr nrs W) as (t & Ft & F & _). exists t. split; [exact Ft|]. cbv zeta.
  destruct (CsiStats.tabix_stats_true hdr nrs t Ft _ F) as (_ & A & B & C).
  split; [auto|]. unfold tbx_reread. cbn [t_idx]. apply stats_of_sorted_copy; reflexivity.
Qed.
Print Assumptions tabix_stats_true.

(** The tabix index without references round-trips: it is written with
    n_ref = 0 and an empty name block, which ReadFrom accepts for an index
    without references, and read back as the empty index with the same header. *)
Theorem tabix_zero_refs_roundtrip :
  forall f z nc bc ec meta skip,
    0 <= f < 256 -> (z = 0 \/ z = 1) ->
    0 <= nc < 2 ^ 31 -> 0 <= bc < 2 ^ 31 -> 0 <= ec < 2 ^ 31 -> 0 <= meta < 2 ^ 31 -> 0 <= skip < 2 ^ 31 ->
    tbx_read (fst (tbx_write (tb_new [f; z; nc; bc; ec; meta; skip])))
    = Ok (Some (mkTbx [] [] [f; z; nc; bc; ec; meta; skip] (mkIdx [] None true io_maxint))).
Proof.
  intros f z nc bc ec meta skip Hf Hz Hnc Hbc Hec Hme Hsk.
  apply (tbx_read_write (tb_new [f; z; nc; bc; ec; meta; skip])).
  split; [exists f, z, nc, bc, ec, meta, skip; auto 10|]. repeat split; constructor.
Qed.
Print Assumptions tabix_zero_refs_roundtrip.

(** Non-vacuity: a two-record BAI is written, read back as the sorted index
    (LastRecord = max int) and written again to the same bytes; an empty BAI
    reads back as an empty index. *)
Example bai_roundtrip_example :
  let rs := [mkRec 0 0 16389 585 100 200 true true; mkRec 0 16390 16394 4682 200 300 true false;
             mkRec (-1) (-1) 0 4680 300 400 false false] in
  exists ix, ix_fold_add ix_empty rs = Ok ix /\
    let '(w, ix1) := bai_write ix in
    bai_read w = Ok (Some (mkIdx (irefs ix1) (iunm ix1) true io_maxint)) /\
    fst (bai_write (mkIdx (irefs ix1) (iunm ix1) true io_maxint)) = w /\
    bai_read (fst (bai_write ix_empty)) = Ok (Some (mkIdx [] None true io_maxint)).
Proof. eexists. split; [vm_compute; reflexivity|]. vm_compute. repeat split; reflexivity. Qed.
