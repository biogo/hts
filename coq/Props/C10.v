(** C10 — truncated or corrupted streams are never read as different valid
    data.  Statements with their derivations from the lemmas of
    Proofs/Corrupt.v, Proofs/CorruptMore.v, Proofs/CorruptFraming.v.

    [read_member], [read_stream], [gz_body] are the byte-level model of
    bgzf.Reader on arbitrary bytes (Model/Corrupt.v); [inflate], [crc32] and
    [deflate] are Section variables: the theorems hold for every DEFLATE codec
    satisfying the stated law and every checksum function with 32-bit values.
    [mk_member d] is the member bgzf.Writer emits for the data block [d];
    [stream ds] the concatenation of the members of [ds] (the EOF marker is
    the member of the empty block). *)
From Coq Require Import ZArith List Bool.
From Hts Require Import Base.Prim Generated Model.Corrupt Model.BamFrame Proofs.Corrupt Proofs.CorruptMore Proofs.CorruptFraming.
From Hts Require Model.HasEof Proofs.HasEof.
Import ListNotations.
Open Scope Z_scope.

(** Truncation: for every closed stream and every cut n (also beyond the end),
    reading the first n bytes with the repaired reader yields exactly the data
    of the j complete members before the cut, and if the reader reports a
    clean end then n is exactly the end of those j members (a member
    boundary).  Partial with respect to the property text: nothing is said
    here of HasEOF at such a boundary (it needs that the last complete member
    is not byte-identical to the EOF marker, true for every non-empty block)
    nor of the BAM record layer; [truncation_prefix] below has both. *)
Theorem truncation_prefix_partial :
  forall (inflate : list Z -> option (list Z * list Z)) (crc32 : list Z -> Z) (deflate : list Z -> list Z),
    (forall d r, inflate (deflate d ++ r) = Some (d, r)) ->
    forall ds (n fuel : nat), Forall (wf crc32 deflate) ds -> (length ds < fuel)%nat ->
    exists j, (j <= length ds)%nat /\
      fst (read_stream inflate crc32 true fuel (firstn n (stream crc32 deflate ds))) = concat (firstn j ds) /\
      (length (stream crc32 deflate (firstn j ds)) <= n)%nat /\
      (snd (read_stream inflate crc32 true fuel (firstn n (stream crc32 deflate ds))) = true ->
         (n <= length (stream crc32 deflate ds))%nat -> n = length (stream crc32 deflate (firstn j ds))).
Proof. exact truncation_gen. Qed.
Print Assumptions truncation_prefix_partial.

(** A member cut anywhere strictly inside (1 .. size-1 bytes) is an error,
    never a clean end, for the repaired reader. *)
Theorem truncated_member_fails :
  forall (inflate : list Z -> option (list Z * list Z)) (crc32 : list Z -> Z) (deflate : list Z -> list Z),
    (forall d r, inflate (deflate d ++ r) = Some (d, r)) ->
    forall d (n : nat), wf crc32 deflate d -> (0 < n)%nat -> Z.of_nat n < zlen (mk_member crc32 deflate d) ->
    read_member inflate crc32 true (firstn n (mk_member crc32 deflate d)) = RErr.
Proof. exact read_member_cut. Qed.
Print Assumptions truncated_member_fails.

(** The untouched stream reads back completely, and ends cleanly (both reader variants). *)
Theorem closed_stream_reads_back :
  forall (inflate : list Z -> option (list Z * list Z)) (crc32 : list Z -> Z) (deflate : list Z -> list Z),
    (forall d r, inflate (deflate d ++ r) = Some (d, r)) ->
    forall strict ds fuel, Forall (wf crc32 deflate) ds -> (length ds < fuel)%nat ->
    read_stream inflate crc32 strict fuel (stream crc32 deflate ds) = (concat ds, true).
Proof. exact read_stream_full. Qed.
Print Assumptions closed_stream_reads_back.

(** The reader before the repairs ([strict = false]: a member with an empty
    body is a clean io.EOF): a stream cut right after the 18-byte header of
    its first member is a clean end. *)
Theorem truncation_prefix_refuted_before_repair :
  exists bs, read_member inflate0 crc32_impl false bs = REof /\ bs <> [] /\
             read_member inflate0 crc32_impl true bs = RErr.
Proof.
  exists [31; 139; 8; 4; 0; 0; 0; 0; 0; 255; 6; 0; 66; 67; 2; 0; 40; 0].
  vm_compute. repeat split; try reflexivity. discriminate.
Qed.
Print Assumptions truncation_prefix_refuted_before_repair.

(** Framing (CRC-32 / ISIZE): with the payload intact, any eight bytes other
    than the true trailer are rejected.  Partial with respect to "any framing
    byte": BSIZE, ID1 ID2 CM and the FLG bits that are not looked at are the
    theorems [corruption_framing_bsize], [_magic] and [_flg_partial] below;
    substitutions in the other header bytes (XLEN, the BC subfield, the rest
    of FLG) are decided by enumeration on the implementation (all 256
    values), not by theorem. *)
Theorem corruption_framing_partial :
  forall (inflate : list Z -> option (list Z * list Z)) (crc32 : list Z -> Z) (deflate : list Z -> list Z),
    (forall d r, inflate (deflate d ++ r) = Some (d, r)) ->
    forall d f c0 c1 c2 c3 s0 s1 s2 s3, wf crc32 deflate d ->
    all_bytes [c0; c1; c2; c3; s0; s1; s2; s3] = true ->
    [c0; c1; c2; c3; s0; s1; s2; s3] <> trailer crc32 d ->
    gz_body inflate crc32 (S f) (deflate d ++ [c0; c1; c2; c3; s0; s1; s2; s3]) [] = None.
Proof. exact trailer_corruption. Qed.
Print Assumptions corruption_framing_partial.

(** Payload: whatever bytes stand in the place of the deflate stream, data is
    only accepted together with eight following bytes that are its CRC-32 and
    its length mod 2^32.  So a substitution inside the payload fails, or
    yields the original data, or yields data whose CRC-32 and length equal the
    stored ones — the last case cannot be excluded by proof. *)
Theorem corruption_payload_partial :
  forall (inflate : list Z -> option (list Z * list Z)) (crc32 : list Z -> Z),
    forall f bdy acc out,
    gz_body inflate crc32 (S f) bdy acc = Some out ->
    exists d1 c0 c1 c2 c3 s0 s1 s2 s3 rest2,
      inflate bdy = Some (d1, c0 :: c1 :: c2 :: c3 :: s0 :: s1 :: s2 :: s3 :: rest2) /\
      le32 [c0; c1; c2; c3] = crc32 d1 /\ le32 [s0; s1; s2; s3] = zlen d1 mod 4294967296.
Proof. exact gz_body_crc. Qed.
Print Assumptions corruption_payload_partial.

(** Truncation, full statement.  [ds] are the data blocks of a closed stream
    (all non-empty; the final member is the member of the empty block, i.e. the
    EOF marker), [rs] the BAM records whose length-prefixed encodings make up the
    data ([concat ds = flat rs]; blocks and records may be cut against each other
    in any way).  For every PROPER prefix of the stream: the BGZF layer yields
    exactly the data of the j complete members before the cut; if it ends
    cleanly the cut is exactly the end of those j members AND the prefix does
    not end with the EOF marker (HasEOF is not true); the BAM layer on top
    yields exactly the first k records, and if both layers end cleanly the data
    delivered ends exactly at the end of the k-th record (a record boundary) —
    a cut inside a record, inside a length prefix or right behind one is an
    error (bam/reader.go as it is in /repo: [bam_recs true]). *)
Theorem truncation_prefix :
  forall (inflate : list Z -> option (list Z * list Z)) (crc32 : list Z -> Z) (deflate : list Z -> list Z),
    (forall d r, inflate (deflate d ++ r) = Some (d, r)) ->
    forall ds rs (n fuel fuel2 : nat),
    Forall (wf crc32 deflate) ds -> Forall (fun d => d <> []) ds -> wf crc32 deflate [] ->
    (length ds + 1 < fuel)%nat -> Forall okrec rs -> concat ds = flat rs -> (length rs < fuel2)%nat ->
    (n < length (stream crc32 deflate (ds ++ [[]])))%nat ->
    let L := read_stream inflate crc32 true fuel (firstn n (stream crc32 deflate (ds ++ [[]]))) in
    let B := bam_recs true fuel2 (fst L) in
    exists j k, (j <= length ds)%nat /\
      fst L = concat (firstn j ds) /\ (length (stream crc32 deflate (firstn j ds)) <= n)%nat /\
      fst B = firstn k rs /\
      (snd L = true -> n = length (stream crc32 deflate (firstn j ds)) /\
                       has_eof (firstn n (stream crc32 deflate (ds ++ [[]]))) <> 1) /\
      (snd L && snd B = true -> length (fst L) = length (flat (firstn k rs))).
Proof. exact truncation_full. Qed.
Print Assumptions truncation_prefix.

(** The Go function bgzf.HasEOF (model of C08: Model/HasEof.v, size expressions
    read off the source) does not answer true on such a prefix, whatever kind
    of io.ReaderAt it is given and wherever its cursor stands. *)
Theorem truncation_haseof_go :
  forall bs k p, has_eof bs <> 1 -> 0 <= p <= zlen bs ->
    Model.HasEof.haseof_go {| Model.HasEof.he_data := bs; Model.HasEof.he_pos := p; Model.HasEof.he_methods := Some k |} <> Ok true.
Proof.
  intros bs k p H Hp.
  match goal with |- Model.HasEof.haseof_go ?r <> _ => destruct (Proofs.HasEof.haseof_iff_marker_gen r k eq_refl Hp) as [_ G] end.
  rewrite G. cbn [Model.HasEof.he_data]. rewrite (not_marker_ends bs H).
  destruct (zlen bgzf_magicBlock <=? zlen bs); discriminate.
Qed.
Print Assumptions truncation_haseof_go.

(** The record layer alone: every prefix of a record stream yields the records
    wholly before the cut, and a clean end only exactly at a record boundary. *)
Theorem bam_truncation :
  forall (inflate : list Z -> option (list Z * list Z)) (crc32 : list Z -> Z) (deflate : list Z -> list Z),
    (forall d r, inflate (deflate d ++ r) = Some (d, r)) ->   (* not used by the record layer; kept from the section *)
  forall rs (m fuel : nat), Forall okrec rs -> (length rs < fuel)%nat ->
    exists k, (k <= length rs)%nat /\
      fst (bam_recs true fuel (firstn m (flat rs))) = firstn k rs /\
      (length (flat (firstn k rs)) <= m)%nat /\
      (snd (bam_recs true fuel (firstn m (flat rs))) = true -> (m <= length (flat rs))%nat -> m = length (flat (firstn k rs))).
Proof. intros _ _ _ _. exact bam_truncation_gen. Qed.
Print Assumptions bam_truncation.

(** Framing, BSIZE: whatever the two size bytes of a member are replaced with,
    the stream from that member on is rejected at that member or read back
    EXACTLY.  The second case includes an announced size that spans this member
    and the following ones exactly: gzip's multistream mode joins the members
    inside the announced region, so the data is the original data.  Uses the
    second DEFLATE law: a proper prefix of a deflate stream does not decode. *)
Theorem corruption_framing_bsize :
  forall (inflate : list Z -> option (list Z * list Z)) (crc32 : list Z -> Z) (deflate : list Z -> list Z),
    (forall d r, inflate (deflate d ++ r) = Some (d, r)) ->
    (forall d (t : nat), (t < length (deflate d))%nat -> inflate (firstn t (deflate d)) = None) ->
    forall lo hi d ds fuel, wf crc32 deflate d -> Forall (wf crc32 deflate) ds -> (length ds < fuel)%nat ->
    let r := read_stream inflate crc32 true (S fuel) (header' lo hi ++ body crc32 deflate d ++ stream crc32 deflate ds) in
    r = ([], false) \/ r = (concat (d :: ds), true).
Proof. exact bsize_corruption_gen. Qed.
Print Assumptions corruption_framing_bsize.

(** Framing, ID1 ID2 CM: any other value is rejected. *)
Theorem corruption_framing_magic :
  forall (inflate : list Z -> option (list Z * list Z)) (crc32 : list Z -> Z) strict b0 b1 b2 tl,
    (b0 =? 31) && (b1 =? 139) && (b2 =? 8) = false ->
    read_member inflate crc32 strict (b0 :: b1 :: b2 :: tl) = RErr.
Proof.
  intros inflate crc32 strict b0 b1 b2 tl H. do 7 (destruct tl as [|? tl]; [reflexivity|]).
  unfold read_member, gz_header. rewrite H. reflexivity.
Qed.
Print Assumptions corruption_framing_magic.

(** Framing, FLG: with FEXTRA kept and FHCRC/FNAME/FCOMMENT clear the other
    bits are not looked at: the member is read exactly as the original.
    Partial with respect to "every FLG value": FEXTRA cleared, or one of
    FHCRC/FNAME/FCOMMENT set, and substitutions in XLEN, SI1, SI2, SLEN are
    decided by enumeration of all 256 values on the implementation only
    (with FNAME/FCOMMENT or a larger XLEN the payload is entered at another
    offset, so only [corruption_payload_partial] applies). *)
Theorem corruption_framing_flg_partial :
  forall (inflate : list Z -> option (list Z * list Z)) (crc32 : list Z -> Z) strict v tl,
    Z.testbit v 2 = true -> Z.testbit v 1 = false -> Z.testbit v 3 = false -> Z.testbit v 4 = false ->
    read_member inflate crc32 strict (31 :: 139 :: 8 :: v :: tl) = read_member inflate crc32 strict (31 :: 139 :: 8 :: 4 :: tl).
Proof.
  intros inflate crc32 strict v tl H2 H1 H3 H4. unfold read_member.
  rewrite (flg_ignored_bits crc32 v tl) by assumption. reflexivity.
Qed.
Print Assumptions corruption_framing_flg_partial.

(** Capacity: the reader's block buffer holds MaxBlockSize bytes and readToEOF
    checks for further data exactly when the buffer is full (the guard constant
    is read off bgzf/cache.go by gen/).  A member — or members joined by a
    corrupted BSIZE — that inflates to more is rejected; this is what
    [corruption_framing_bsize] relies on when the joined data is too large. *)
Theorem reader_capacity_guard :
  bgzf_readToEOF_guard = bgzf_MaxBlockSize /\
  forall (inflate : list Z -> option (list Z * list Z)) (crc32 : list Z -> Z) f bdy acc out,
    gz_body inflate crc32 f bdy acc = Some out -> zlen out <= bgzf_MaxBlockSize.
Proof. split; [reflexivity | exact gz_body_capacity]. Qed.
Print Assumptions reader_capacity_guard.

(** The code in /repo is the repaired one. *)
Theorem reader_source_strict : bgzf_reader_strict = true.
Proof. reflexivity. Qed.
Print Assumptions reader_source_strict.

(** Non-vacuity: the laws are satisfiable (stored deflate + CRC-32 in Coq) and a
    concrete two-member stream reads back; its cuts behave as stated. *)
Example stored_stream_example :
  let s := [31; 139; 8; 4; 0; 0; 0; 0; 0; 255; 6; 0; 66; 67; 2; 0; 37; 0; 0; 2; 0; 253; 255; 7; 9; 1; 0; 0; 255; 255; 156; 60; 68; 119; 2; 0; 0; 0;
            31; 139; 8; 4; 0; 0; 0; 0; 0; 255; 6; 0; 66; 67; 2; 0; 30; 0; 1; 0; 0; 255; 255; 0; 0; 0; 0; 0; 0; 0; 0;
            31; 139; 8; 4; 0; 0; 0; 0; 0; 255; 6; 0; 66; 67; 2; 0; 27; 0; 3; 0; 0; 0; 0; 0; 0; 0; 0; 0] in
  read_all inflate0 crc32_impl true s = ([7; 9], true) /\
  read_all inflate0 crc32_impl true (firstn 38 s) = ([7; 9], true) /\
  read_all inflate0 crc32_impl true (firstn 56 s) = ([7; 9], false) /\
  read_all inflate0 crc32_impl false (firstn 56 s) = ([7; 9], true) /\
  read_all inflate0 crc32_impl true (firstn 20 s) = ([], false) /\
  has_eof s = 1 /\ has_eof (firstn 38 s) = 0.
Proof. vm_compute. repeat split; reflexivity. Qed.
