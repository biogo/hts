(** C08 — BGZF output is spec-conformant, gzip-compatible, deterministic and
    EOF-marked.  Statements, each derived from the lemmas of Proofs/Bgzf.v,
    Writer.v, WriterConc.v, WriterThms.v, HasEof.v (see Props/C01.v for the
    vocabulary).
    [member_wf m p]: payload p has at most 65280 bytes, m at most 65536, bytes
    12..15 of m are B C 2 0, bytes 16/17 hold len m - 1, and an RFC 1952
    decoder reads m (followed by anything) as p. *)
From Coq Require Import ZArith List Bool.
From Hts Require Import Base.Prim Base.WrList Generated Model.Bgzf Model.Writer Model.WriterConc
  Model.HasEof Proofs.Bgzf Proofs.Writer Proofs.WriterConc Proofs.WriterThms Proofs.WrSkel Proofs.HasEof.
Import ListNotations.
Open Scope Z_scope.

(** Every script, every run length (also unfinished and unclosed runs), every
    level, every admissible header: the output is a concatenation of
    well-formed members, followed by the marker iff s_eof; a multi-member gzip
    walker expands it to the concatenation of the submitted blocks, which is a
    prefix of the data written, and all of it once the marker is there. *)
Theorem members_wellformed :
  forall deflate inflate crc32, codec_laws deflate inflate crc32 ->
  forall lvl h, hdr_ok h ->
  forall script fuel,
    let s := run_writer fuel script in
    exists ms,
      wr_out deflate crc32 lvl h s = concat ms ++ (if s_eof s then bgzf_magicBlock else [])
      /\ Forall2 (member_wf inflate crc32) ms (s_sub s)
      /\ gunzip_multi inflate crc32 (wr_out deflate crc32 lvl h s) = Some (concat (s_sub s))
      /\ prefix_of (concat (s_sub s)) (written script)
      /\ (s_eof s = true -> has_eof (wr_out deflate crc32 lvl h s) = true /\ s_closed s = true
                            /\ concat (s_sub s) = written script).
Proof.
  intros d i c laws lvl h ok script fuel s.
  assert (I : SInv (written script) s) by apply run_writer_inv.
  exists (map (member_of d c lvl h) (s_sub s)). rewrite (wr_out_stream d i c laws lvl h ok _ _ I).
  split; [reflexivity|]. split; [apply (members_wf d i c laws lvl h ok), I|].
  split; [apply (gunzip_multi_stream d i c laws lvl h ok), I|]. split; [apply (sub_prefix_written _ _ I)|].
  intros He. split; [rewrite He; apply has_eof_app_magic|exact (eof_complete _ _ I He)].
Qed.
Print Assumptions members_wellformed.

(** The stream ends with the 28-byte EOF marker iff the writer was closed
    without error (s_eof is set exactly where Close writes the marker and
    returns nil) - for every writer concurrency, schedule AND fault plan of
    the underlying writer, in every reachable state; [has_eof] is what HasEOF
    computes ([haseof_iff_marker] below, [ends_with_marker_has_eof] in
    Proofs/HasEof.v).  "Marker => closed" needs two more
    facts about the compressor, [codec_laws_eof]: every DEFLATE stream has at
    least two bytes, and the encoding of the empty payload does not end in
    03 00 (otherwise an empty data member with the default header would BE
    the marker); both are checked against compress/flate at all levels on
    every run (harness mode "laws"). *)
Theorem eof_iff_closed_ok :
  forall deflate inflate crc32, codec_laws deflate inflate crc32 -> codec_laws_eof deflate ->
  forall lvl h, hdr_ok h ->
  forall (fault : Z -> bool) wc script sched,
    let st := run_conc deflate crc32 bgzf_wr_patch_mode bgzf_wr_patch_guard bgzf_wr_overflow_check lvl h fault wc script sched in
    (has_eof (out_bytes st) = true <-> s_eof (x_api st) = true)
    /\ (s_eof (x_api st) = true -> s_closed (x_api st) = true /\ x_err st = None).
Proof.
  intros d i c laws eofl lvl h ok fault wc script sched st.
  pose proof (run_conc_FInv d i c laws lvl h ok fault wc script sched) as I. fold st in I.
  destruct (FInv_emitted _ _ _ _ _ _ I) as (done & _ & O & Sm & _).
  unfold out_bytes. rewrite O, concat_marker, (has_eof_stream d c lvl h done _ eofl Sm).
  split; [reflexivity|exact (FInv_eof _ _ _ _ _ _ I)].
Qed.
Print Assumptions eof_iff_closed_ok.

(** The same for the sequential writer, at every point of every run. *)
Theorem eof_iff_closed_ok_seq :
  forall deflate inflate crc32, codec_laws deflate inflate crc32 -> codec_laws_eof deflate ->
  forall lvl h, hdr_ok h ->
  forall script fuel,
    let s := run_writer fuel script in
    has_eof (wr_out deflate crc32 lvl h s) = true <-> s_eof s = true.
Proof.
  intros d i c laws eofl lvl h ok script fuel s.
  assert (I : SInv (written script) s) by apply run_writer_inv.
  rewrite (wr_out_stream d i c laws lvl h ok _ _ I), (has_eof_stream d c lvl h _ _ eofl (si_sub _ _ I)). reflexivity.
Qed.
Print Assumptions eof_iff_closed_ok_seq.

(** Close returned nil: the stream is all members followed by the marker and
    decodes to everything written. *)
Theorem closed_stream_complete :
  forall deflate inflate crc32, codec_laws deflate inflate crc32 ->
  forall lvl h, hdr_ok h ->
  forall wc script sched,
    let st := wr_conc deflate crc32 lvl h wc script sched in
    s_eof (x_api st) = true ->
    x_out st = map (member_of deflate crc32 lvl h) (s_sub (x_api st)) ++ [bgzf_magicBlock]
    /\ concat (s_sub (x_api st)) = written script
    /\ gunzip_multi inflate crc32 (out_bytes st) = Some (written script)
    /\ has_eof (out_bytes st) = true.
Proof. exact close_complete. Qed.
Print Assumptions closed_stream_complete.

(** The bytes do not depend on the writer concurrency nor on the schedule. *)
Theorem output_independent_of_wc :
  forall deflate inflate crc32, codec_laws deflate inflate crc32 ->
  forall lvl h, hdr_ok h ->
  forall wc1 wc2 script sched1 sched2,
    let st1 := wr_conc deflate crc32 lvl h wc1 script sched1 in
    let st2 := wr_conc deflate crc32 lvl h wc2 script sched2 in
    cdone st1 = true -> cdone st2 = true -> quiescent st1 -> quiescent st2 ->
    x_out st1 = x_out st2 /\ s_res (x_api st1) = s_res (x_api st2).
Proof.
  intros d i c laws lvl h ok wc1 wc2 script sched1 sched2 st1 st2 D1 D2 Q1 Q2.
  pose proof (wr_conc_CInv d i c laws lvl h ok wc1 script sched1) as I1. fold st1 in I1.
  pose proof (wr_conc_CInv d i c laws lvl h ok wc2 script sched2) as I2. fold st2 in I2.
  assert (E : x_api st1 = x_api st2).
  { destruct (ci_orbit _ _ _ _ _ _ I2) as [m H2]. unfold cdone in D2. rewrite H2 in *. exact (finished_api _ _ _ _ _ _ _ I1 D1 D2). }
  rewrite (quiescent_refines d i c laws lvl h ok _ _ I1 Q1), (quiescent_refines d i c laws lvl h ok _ _ I2 Q2), E.
  split; reflexivity.
Qed.
Print Assumptions output_independent_of_wc.

(** The 64 KiB boundary itself, for EVERY codec, level, gzip header (also
    headers larger than hdr_ok allows) and block: whatever writeBlock emits is
    at most MaxBlockSize = 65536 bytes long, has the BC subfield at 12 and
    BSIZE = length - 1 (so the 16-bit field never wraps).  The refusal test
    `size >= MaxBlockSize` is taken from the Go source on every run
    (bgzf_wr_overflow_check is false for any other comparison). *)
Theorem emitted_member_fits :
  forall deflate crc32 lvl h p m,
    write_block deflate crc32 bgzf_wr_patch_mode bgzf_wr_patch_guard bgzf_wr_overflow_check lvl h [] p = Ok m ->
    zlen m <= bgzf_MaxBlockSize /\ zlen m <= 65536
    /\ firstn 4 (skipn 12 m) = [66; 67; 2; 0]
    /\ getz m 16 + 256 * getz m 17 = zlen m - 1.
Proof. intros d c lvl h p m. rewrite gen_overflow_check. apply write_block_fits, gen_patch_at_12. Qed.
Print Assumptions emitted_member_fits.

(** ... and a member that would be longer is refused (ErrBlockOverflow = 5). *)
Theorem oversize_member_refused :
  forall deflate crc32 lvl h p,
    hdr_err h = false ->
    bgzf_MaxBlockSize < zlen (raw_member deflate crc32 lvl h p) ->
    write_block deflate crc32 bgzf_wr_patch_mode bgzf_wr_patch_guard bgzf_wr_overflow_check lvl h [] p = Err 5.
Proof. intros d c lvl h p. rewrite gen_overflow_check. apply write_block_overflow, gen_patch_at_12. Qed.
Print Assumptions oversize_member_refused.

(** HasEOF reports exactly whether the stream ends with the marker: for each
    of the three kinds of io.ReaderAt its type switch distinguishes (Size(),
    Stat(), Seek+Len), every content and EVERY cursor position, the result is
    [ends_with_marker] (an error when the stream is shorter than the marker);
    a reader with none of the methods gives ErrNoEnd (3).  [haseof_go]
    interprets the size expressions gen/ reads off bgzf.HasEOF. *)
Theorem haseof_iff_marker :
  forall r k,
    he_methods r = Some k ->
    0 <= he_pos r <= zlen (he_data r) ->
    bgzf_haseof_reads_at_size_minus_marker = true
    /\ haseof_go r = if zlen bgzf_magicBlock <=? zlen (he_data r)
                     then Ok (ends_with_marker (he_data r)) else Err 2.
Proof. exact haseof_iff_marker_gen. Qed.
Print Assumptions haseof_iff_marker.

Theorem haseof_without_extent :
  forall r, he_methods r = None -> haseof_go r = Err 3.
Proof. intros r H. unfold haseof_go, haseof_impl. rewrite H. reflexivity. Qed.
Print Assumptions haseof_without_extent.

(** The back-patch read off the current Go source hits the BC subfield
    whatever precedes it (this is what breaks when writeBlock searches for the
    first occurrence of B C 2 0 again). *)
Theorem backpatch_hits_bc_subfield :
  forall pre x0 x1 rest, zlen pre = 12 ->
    patch_pos bgzf_wr_patch_mode bgzf_wr_patch_guard (pre ++ [66; 67; 2; 0; x0; x1] ++ rest) = Some 12.
Proof. exact gen_patch_at_12. Qed.
Print Assumptions backpatch_hits_bc_subfield.

(** The original code (first occurrence of B C 2 0 from the start of the
    member) is refuted: with ModTime = 0x24342 s the search stops in MTIME and
    the size lands in XFL/OS while BSIZE stays 0 — for every compressor. *)
Theorem members_wellformed_first_index_refuted :
  exists h, hdr_ok h /\
    forall deflate crc32 lvl p,
      patch_pos PatchFirstIndex true (raw_member deflate crc32 lvl h p) = Some 4.
Proof. exists mtime_24342. split; [exact mtime_24342_ok|]. intros. apply first_index_hits_mtime. Qed.
Print Assumptions members_wellformed_first_index_refuted.

Example c08_haseof_moved_cursor :
  haseof_go {| he_data := [9; 9; 9] ++ bgzf_magicBlock; he_pos := 17; he_methods := Some HLenSeeker |} = Ok true
  /\ ends_with_marker ([9; 9; 9] ++ bgzf_magicBlock) = true.
Proof. split; reflexivity. Qed.

Example c08_header_bytes :
  gz_header 9 {| h_mtime := 148290; h_os := 3; h_extra := [65; 66; 1; 0; 7]; h_name := [120]; h_comment := [] |}
  = [31; 139; 8; 12; 66; 67; 2; 0; 2; 3; 11; 0; 66; 67; 2; 0; 0; 0; 65; 66; 1; 0; 7; 120; 0].
Proof. reflexivity. Qed.
