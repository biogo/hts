(** Little-endian integers over byte lists, firstn/skipn with Z lengths:
    general lemmas used by the BAM codec (C05) and decoder (C11) proofs. *)
From Coq Require Import ZArith Lia List Bool.
From Hts Require Import Base.Prim Model.BamCodec.
Import ListNotations.
Open Scope Z_scope.

Lemma zlen_nil {A} : zlen (@nil A) = 0.
Proof. reflexivity. Qed.

Lemma zlen_cons {A} (a : A) l : zlen (a :: l) = 1 + zlen l.
Proof. unfold zlen. simpl length. lia. Qed.

Lemma zlen_repeat {A} (a : A) n : zlen (repeat a n) = Z.of_nat n.
Proof. unfold zlen. rewrite repeat_length. reflexivity. Qed.

Lemma zfirstn_app {A} (a b : list A) : zfirstn (zlen a) (a ++ b) = a.
Proof.
  unfold zfirstn, zlen. rewrite Nat2Z.id.
  rewrite firstn_app, Nat.sub_diag, firstn_all. simpl. apply app_nil_r.
Qed.

Lemma zskipn_app {A} (a b : list A) : zskipn (zlen a) (a ++ b) = b.
Proof.
  unfold zskipn, zlen. rewrite Nat2Z.id.
  rewrite skipn_app, Nat.sub_diag, skipn_all. reflexivity.
Qed.

Lemma zfirstn_app_n {A} (a b : list A) n : n = zlen a -> zfirstn n (a ++ b) = a.
Proof. intros ->. apply zfirstn_app. Qed.

Lemma zskipn_app_n {A} (a b : list A) n : n = zlen a -> zskipn n (a ++ b) = b.
Proof. intros ->. apply zskipn_app. Qed.

Lemma zfirstn_all {A} (a : list A) n : n = zlen a -> zfirstn n a = a.
Proof. intros ->. rewrite <- (app_nil_r a) at 2. apply zfirstn_app. Qed.

Lemma zskipn_all {A} (a : list A) n : n = zlen a -> zskipn n a = [].
Proof. intros ->. rewrite <- (app_nil_r a) at 2. apply zskipn_app. Qed.

Lemma firstn_app_len {A} (a b : list A) n : n = length a -> firstn n (a ++ b) = a.
Proof. intros ->. rewrite firstn_app, Nat.sub_diag, firstn_all. simpl. apply app_nil_r. Qed.

Lemma skipn_app_len {A} (a b : list A) n : n = length a -> skipn n (a ++ b) = b.
Proof. intros ->. rewrite skipn_app, Nat.sub_diag, skipn_all. reflexivity. Qed.

Lemma le_put_length n v : length (le_put n v) = n.
Proof. revert v; induction n; intros; simpl; auto. Qed.

Lemma zlen_le_put n v : zlen (le_put n v) = Z.of_nat n.
Proof. unfold zlen. rewrite le_put_length. reflexivity. Qed.

Lemma all_bytes_cons b l : all_bytes (b :: l) = true <-> (0 <= b < 256 /\ all_bytes l = true).
Proof.
  unfold all_bytes. simpl. rewrite andb_true_iff. unfold is_byte. rewrite andb_true_iff, Z.leb_le, Z.ltb_lt. tauto.
Qed.

Lemma le_put_bytes n v : all_bytes (le_put n v) = true.
Proof.
  revert v; induction n; intros; [reflexivity|].
  cbn [le_put]. apply all_bytes_cons. split; [|apply IHn].
  apply Z.mod_pos_bound. reflexivity.
Qed.

Lemma le_get_put n v : 0 <= v -> le_get (le_put n v) = v mod 256 ^ Z.of_nat n.
Proof.
  revert v; induction n; intros v Hv.
  - simpl. rewrite Z.mod_1_r. reflexivity.
  - cbn [le_put le_get]. rewrite IHn by (apply Z.div_pos; lia).
    rewrite Nat2Z.inj_succ, Z.pow_succ_r by lia.
    set (m := 256 ^ Z.of_nat n). assert (0 < m) by (apply Z.pow_pos_nonneg; lia).
    rewrite Z.rem_mul_r by lia. reflexivity.
Qed.

Lemma le_get_put_small n v : 0 <= v < 256 ^ Z.of_nat n -> le_get (le_put n v) = v.
Proof. intros H. rewrite le_get_put by lia. apply Z.mod_small; lia. Qed.

Lemma all_bytes_app a b : all_bytes (a ++ b) = all_bytes a && all_bytes b.
Proof. unfold all_bytes. apply forallb_app. Qed.

Lemma le_get_range l : all_bytes l = true -> 0 <= le_get l < 256 ^ Z.of_nat (length l).
Proof.
  induction l as [|b t IH]; intros H.
  - simpl. lia.
  - apply all_bytes_cons in H. destruct H as [Hb Ht]. specialize (IH Ht).
    cbn [le_get length]. rewrite Nat2Z.inj_succ, Z.pow_succ_r by lia. lia.
Qed.

Lemma le_put_get l : all_bytes l = true -> le_put (length l) (le_get l) = l.
Proof.
  induction l as [|b t IH]; intros H; [reflexivity|].
  apply all_bytes_cons in H. destruct H as [Hb Ht].
  cbn [le_get length le_put]. set (x := le_get t) in *.
  replace ((b + 256 * x) mod 256) with b by (Z.div_mod_to_equations; lia).
  replace ((b + 256 * x) / 256) with x by (Z.div_mod_to_equations; lia).
  rewrite IH by assumption. reflexivity.
Qed.

Lemma s32_u32 x : - 2 ^ 31 <= x < 2 ^ 31 -> s32 (u32 x) = x.
Proof. intros H. unfold s32, u32, wraps, wrapu. change (2 ^ (32 - 1)) with 2147483648. change (2 ^ 32) with 4294967296. change (2 ^ 31) with 2147483648 in H. Z.div_mod_to_equations; lia. Qed.

Lemma u32_s32 x : u32 (s32 x) = u32 x.
Proof. unfold s32, u32, wraps, wrapu. change (2 ^ (32 - 1)) with 2147483648. change (2 ^ 32) with 4294967296. Z.div_mod_to_equations; lia. Qed.

Lemma u32_range x : 0 <= u32 x < 2 ^ 32.
Proof. unfold u32, wrapu. apply Z.mod_pos_bound. reflexivity. Qed.

Lemma u32_small x : 0 <= x < 2 ^ 32 -> u32 x = x.
Proof. intros. unfold u32, wrapu. apply Z.mod_small; lia. Qed.
Lemma u16_small x : 0 <= x < 2 ^ 16 -> u16 x = x.
Proof. intros. unfold u16, wrapu. apply Z.mod_small; lia. Qed.
Lemma u8_small x : 0 <= x < 2 ^ 8 -> u8 x = x.
Proof. intros. unfold u8, wrapu. apply Z.mod_small; lia. Qed.
Lemma u16_range x : 0 <= u16 x < 2 ^ 16.
Proof. unfold u16, wrapu. apply Z.mod_pos_bound. reflexivity. Qed.
Lemma u8_range x : 0 <= u8 x < 2 ^ 8.
Proof. unfold u8, wrapu. apply Z.mod_pos_bound. reflexivity. Qed.

Lemma s32_small x : 0 <= x < 2 ^ 31 -> s32 x = x.
Proof. intros H. unfold s32, wraps. change (2 ^ (32 - 1)) with 2147483648. change (2 ^ 32) with 4294967296. change (2 ^ 31) with 2147483648 in H. Z.div_mod_to_equations; lia. Qed.

Lemma is_byte_iff x : is_byte x = true <-> 0 <= x < 256.
Proof. unfold is_byte. rewrite andb_true_iff, Z.leb_le, Z.ltb_lt. tauto. Qed.

Lemma all_bytes_forall l : all_bytes l = true <-> Forall (fun x => 0 <= x < 256) l.
Proof.
  unfold all_bytes. rewrite forallb_forall, Forall_forall. split; intros H x Hx; specialize (H x Hx); apply is_byte_iff; assumption.
Qed.

Lemma all_bytes_firstn n l : all_bytes l = true -> all_bytes (firstn n l) = true.
Proof.
  intros H. rewrite <- (firstn_skipn n l), all_bytes_app in H. apply andb_true_iff in H. tauto.
Qed.

Lemma all_bytes_skipn n l : all_bytes l = true -> all_bytes (skipn n l) = true.
Proof.
  intros H. rewrite <- (firstn_skipn n l), all_bytes_app in H. apply andb_true_iff in H. tauto.
Qed.
