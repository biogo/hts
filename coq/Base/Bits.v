(** Lemma layer turning the shifts, masks and wrap-arounds that the Go code
    writes into div/mod arithmetic that lia can close. *)
From Coq Require Import ZArith Lia List Bool.
From Hts Require Import Base.Prim.
Open Scope Z_scope.

Lemma shiftr_div (a n : Z) : 0 <= n -> Z.shiftr a n = a / 2 ^ n.
Proof. intros; apply Z.shiftr_div_pow2; assumption. Qed.

Lemma shiftl_mul (a n : Z) : 0 <= n -> Z.shiftl a n = a * 2 ^ n.
Proof. intros; apply Z.shiftl_mul_pow2; assumption. Qed.

Lemma land_ones_mod (a n : Z) : 0 <= n -> Z.land a (2 ^ n - 1) = a mod 2 ^ n.
Proof.
  intros Hn. replace (2 ^ n - 1) with (Z.ones n) by (rewrite Z.ones_equiv; lia).
  apply Z.land_ones; assumption.
Qed.

Lemma lor_add_disjoint (a b : Z) : Z.land a b = 0 -> Z.lor a b = a + b.
Proof.
  intros H. rewrite <- Z.lxor_lor by assumption. symmetry. apply Z.add_nocarry_lxor; assumption.
Qed.

Lemma land_low_high (a b k : Z) : 0 <= k -> 0 <= a < 2 ^ k -> Z.land a (b * 2 ^ k) = 0.
Proof.
  intros Hk Ha. apply Z.bits_inj'. intros n Hn.
  rewrite Z.land_spec, Z.bits_0.
  destruct (Z.lt_ge_cases n k) as [Hlt|Hge].
  - rewrite Z.mul_pow2_bits_low by assumption. apply andb_false_r.
  - destruct (Z.eq_dec a 0) as [->|Hne]; [rewrite Z.bits_0; reflexivity|].
    rewrite (Z.bits_above_log2 a n); [reflexivity|lia|].
    apply Z.lt_le_trans with k; [|assumption].
    apply Z.log2_lt_pow2; lia.
Qed.

Lemma lor_low_high (a b k : Z) : 0 <= k -> 0 <= a < 2 ^ k -> Z.lor a (b * 2 ^ k) = a + b * 2 ^ k.
Proof. intros. apply lor_add_disjoint. apply land_low_high; assumption. Qed.

Lemma lor_high_low (a b k : Z) : 0 <= k -> 0 <= a < 2 ^ k -> Z.lor (b * 2 ^ k) a = b * 2 ^ k + a.
Proof. intros. rewrite Z.lor_comm, lor_low_high by assumption. lia. Qed.

(** Properties of a byte proved by running through all 256 values. *)
Lemma byte_forall (P : Z -> bool) :
  forallb P (map Z.of_nat (seq 0 256)) = true -> forall x, 0 <= x < 256 -> P x = true.
Proof.
  intros H x Hx. rewrite forallb_forall in H. apply H.
  apply in_map_iff. exists (Z.to_nat x). split; [lia|]. apply in_seq. lia.
Qed.

Lemma zlen_app {A} (a b : list A) : zlen (a ++ b) = zlen a + zlen b.
Proof. unfold zlen. rewrite app_length. lia. Qed.

Lemma zlen_nonneg {A} (a : list A) : 0 <= zlen a.
Proof. unfold zlen. lia. Qed.

Lemma inb_true {A} (l : list A) i : 0 <= i < zlen l -> inb l i = true.
Proof. intros H. apply andb_true_intro; split; [apply Z.leb_le|apply Z.ltb_lt]; lia. Qed.

Lemma inb_app (pre tl : list Z) (i : Z) : 0 <= i < zlen pre -> inb (pre ++ tl) i = true.
Proof. intros H. apply inb_true. rewrite zlen_app. pose proof (zlen_nonneg tl). lia. Qed.

Lemma upd_nat_app {A} (pre tl : list A) (i : nat) (x : A) :
  (i < length pre)%nat -> upd_nat (pre ++ tl) i x = upd_nat pre i x ++ tl.
Proof.
  revert i; induction pre as [|h t IH]; intros i Hi; simpl in *; [lia|].
  destruct i; [reflexivity|]. simpl. rewrite IH by lia. reflexivity.
Qed.

Lemma updz_app (pre tl : list Z) (i x : Z) :
  0 <= i < zlen pre -> updz (pre ++ tl) i x = updz pre i x ++ tl.
Proof. intros H. unfold updz. apply upd_nat_app. unfold zlen in H. lia. Qed.

Lemma getz_app (pre tl : list Z) (i : Z) :
  0 <= i < zlen pre -> getz (pre ++ tl) i = getz pre i.
Proof. intros H. unfold getz. apply app_nth1. unfold zlen in H. lia. Qed.

Lemma length_upd_nat {A} (l : list A) i x : length (upd_nat l i x) = length l.
Proof. revert i; induction l as [|h t IH]; intros [|i]; simpl; auto. Qed.

Lemma nth_upd_nat_same {A} (l : list A) i x d : (i < length l)%nat -> nth i (upd_nat l i x) d = x.
Proof.
  revert i; induction l as [|h t IH]; intros [|i] Hi; simpl in *; try lia; [reflexivity|].
  apply IH; lia.
Qed.

Lemma nth_upd_nat_other {A} (l : list A) i j x d : i <> j -> nth j (upd_nat l i x) d = nth j l d.
Proof.
  revert i j; induction l as [|h t IH]; intros [|i] [|j] Hij; simpl; try reflexivity; try lia.
  apply IH; lia.
Qed.

Lemma zlen_updz (l : list Z) i x : zlen (updz l i x) = zlen l.
Proof. unfold zlen, updz. rewrite length_upd_nat. reflexivity. Qed.
