(** Vocabulary of the panic-aware decoder models (C11): checked Go slice
    expressions, byte-stream reads, outcome classes. Executable definitions and
    generic lemmas about them. *)
From Coq Require Import ZArith Lia List Bool.
From Hts Require Import Base.Prim.
Open Scope Z_scope.

(** [safe o]: the modelled call returned a value or an error. *)
Definition safe {A} (o : outcome A) : Prop :=
  match o with Panic _ => False | Stuck => False | _ => True end.

(** Outcome class as the harness reports it: 0 ok, 1 error, 2 panic, 3 stuck. *)
Definition cls {A} (o : outcome A) : Z :=
  match o with Ok _ => 0 | Err _ => 1 | Panic _ => 2 | Stuck => 3 end.

Notation "x <- a ;; b" := (obind a (fun x => b)) (at level 61, a at next level, right associativity).

(** Go [l[lo:hi]] on a slice whose capacity equals its length (what
    bytes.Split, make and a full slice expression hand out). *)
Definition sub (l : list Z) (lo hi : Z) : list Z :=
  firstn (Z.to_nat (hi - lo)) (skipn (Z.to_nat lo) l).
Definition slice_ok (l : list Z) (lo hi : Z) : bool :=
  (0 <=? lo) && (lo <=? hi) && (hi <=? zlen l).
(** [make([]T, n)] with a length taken from the input. *)
Definition make_ok (n : Z) : bool := 0 <=? n.

(** A byte source with bytes.Reader semantics: reads are short only at the end. *)
Definition take (n : Z) (s : list Z) : option (list Z * list Z) :=
  if (0 <=? n) && (n <=? zlen s) then Some (firstn (Z.to_nat n) s, skipn (Z.to_nat n) s) else None.

Fixpoint le_bytes (l : list Z) : Z :=
  match l with [] => 0 | b :: t => b + 256 * le_bytes t end.

(** binary.Read of a little-endian signed/unsigned integer of [n] bytes;
    any short read is the error EOF / ErrUnexpectedEOF. *)
Definition rd_u (n : Z) (s : list Z) : outcome (Z * list Z) :=
  match take n s with Some (b, s') => Ok (le_bytes b, s') | None => Err 9 end.
Definition rd_i32 (s : list Z) : outcome (Z * list Z) :=
  match take 4 s with Some (b, s') => Ok (s32 (le_bytes b), s') | None => Err 9 end.

Lemma zlen_nonneg {A} (l : list A) : 0 <= zlen l.
Proof. unfold zlen. lia. Qed.

Lemma zlen_cons {A} (x : A) l : zlen (x :: l) = 1 + zlen l.
Proof. unfold zlen. simpl length. lia. Qed.

Lemma zlen_nil {A} : zlen (@nil A) = 0.
Proof. reflexivity. Qed.

Lemma zlen_skipn {A} (n : nat) (l : list A) : zlen (skipn n l) = Z.max 0 (zlen l - Z.of_nat n).
Proof. unfold zlen. rewrite skipn_length. lia. Qed.

Lemma zlen_firstn {A} (n : nat) (l : list A) : zlen (firstn n l) = Z.min (Z.of_nat n) (zlen l).
Proof. unfold zlen. rewrite firstn_length. lia. Qed.

Lemma zlen_app {A} (a b : list A) : zlen (a ++ b) = zlen a + zlen b.
Proof. unfold zlen. rewrite app_length. lia. Qed.

Lemma take_len n s b s' : take n s = Some (b, s') -> zlen b = n /\ zlen s' = zlen s - n /\ 0 <= n.
Proof.
  unfold take. destruct ((0 <=? n) && (n <=? zlen s)) eqn:E; [|discriminate].
  intros H; inversion H; subst; clear H.
  apply andb_true_iff in E as [E1 E2]. apply Z.leb_le in E1, E2.
  rewrite zlen_firstn, zlen_skipn. rewrite Z2Nat.id by lia. lia.
Qed.

Lemma safe_bind {A B} (o : outcome A) (f : A -> outcome B) :
  safe o -> (forall a, o = Ok a -> safe (f a)) -> safe (obind o f).
Proof. destruct o; simpl; auto. Qed.

Lemma safe_chk {A} (c : bool) (k : outcome A) : c = true -> safe k -> safe (chk c k).
Proof. intros ->. auto. Qed.

Lemma rd_u_safe n s : safe (rd_u n s).
Proof. unfold rd_u. destruct (take n s) as [[? ?]|]; exact I. Qed.
Lemma rd_i32_safe s : safe (rd_i32 s).
Proof. unfold rd_i32. destruct (take 4 s) as [[? ?]|]; exact I. Qed.

Lemma rd_u_len n s v s' : rd_u n s = Ok (v, s') -> zlen s' = zlen s - n /\ 0 <= n.
Proof.
  unfold rd_u. destruct (take n s) as [[b r]|] eqn:E; [|discriminate].
  intros H; inversion H; subst. apply take_len in E. lia.
Qed.
Lemma rd_i32_len s v s' : rd_i32 s = Ok (v, s') -> zlen s' = zlen s - 4.
Proof.
  unfold rd_i32. destruct (take 4 s) as [[b r]|] eqn:E; [|discriminate].
  intros H; inversion H; subst. apply take_len in E. lia.
Qed.

Lemma s32_range x : - 2^31 <= s32 x < 2^31.
Proof. unfold s32, wraps. change (2 ^ (32 - 1)) with 2147483648. change (2^32) with 4294967296. change (2^31) with 2147483648.
  pose proof (Z.mod_pos_bound (x + 2147483648) 4294967296). lia. Qed.
