(** Arithmetic helper lemmas for the binning schemes and the index and record
    codecs: shifts as floor division, monotonicity, uint32 wrap-around that
    does not happen, counted ranges, the geometric series 1 + 8 + ... + 8^(l-1). *)
From Coq Require Import ZArith Lia List Bool.
From Hts Require Import Base.Prim Base.Bits.
Import ListNotations.
Open Scope Z_scope.

Lemma shiftr_mono (a b s : Z) : 0 <= s -> a <= b -> Z.shiftr a s <= Z.shiftr b s.
Proof.
  intros Hs H. rewrite !shiftr_div by assumption.
  apply Z.div_le_mono; [apply Z.pow_pos_nonneg; lia | assumption].
Qed.

Lemma shiftr_nonneg (a s : Z) : 0 <= a -> 0 <= Z.shiftr a s.
Proof. intros. apply Z.shiftr_nonneg. assumption. Qed.

Lemma shiftr_lt_pow (a s k : Z) : 0 <= s -> 0 <= k -> a < 2 ^ (s + k) -> Z.shiftr a s < 2 ^ k.
Proof.
  intros Hs Hk H. rewrite shiftr_div by assumption.
  apply Z.div_lt_upper_bound; [apply Z.pow_pos_nonneg; lia|].
  rewrite <- Z.pow_add_r by lia. assumption.
Qed.

Lemma shiftr_neg1 (s : Z) : 0 <= s -> Z.shiftr (-1) s = -1.
Proof.
  intros Hs. rewrite shiftr_div by assumption.
  assert (0 < 2 ^ s) by (apply Z.pow_pos_nonneg; lia).
  symmetry. apply Z.div_unique with (r := 2 ^ s - 1); lia.
Qed.

(** [i] is the tile of [x] at width [2^s] iff [x] lies in the tile. *)
Lemma shiftr_le_iff (x i s : Z) : 0 <= s -> (Z.shiftr x s <= i <-> x < (i + 1) * 2 ^ s).
Proof.
  intros Hs. rewrite shiftr_div by assumption.
  assert (Hp : 0 < 2 ^ s) by (apply Z.pow_pos_nonneg; lia).
  pose proof (Z.div_mod x (2 ^ s) ltac:(lia)) as Hd.
  pose proof (Z.mod_pos_bound x (2 ^ s) Hp) as Hm.
  split; intros H; nia.
Qed.

Lemma shiftr_ge_iff (x i s : Z) : 0 <= s -> (i <= Z.shiftr x s <-> i * 2 ^ s <= x).
Proof.
  intros Hs. rewrite shiftr_div by assumption.
  assert (Hp : 0 < 2 ^ s) by (apply Z.pow_pos_nonneg; lia).
  pose proof (Z.div_mod x (2 ^ s) ltac:(lia)) as Hd.
  pose proof (Z.mod_pos_bound x (2 ^ s) Hp) as Hm.
  split; intros H; nia.
Qed.

Lemma u32_id (x : Z) : 0 <= x < 2 ^ 32 -> u32 x = x.
Proof. intros H. unfold u32, wrapu. apply Z.mod_small. assumption. Qed.

Lemma u32_add_u32 (a b : Z) : u32 (a + u32 b) = u32 (a + b).
Proof. unfold u32, wrapu. apply Zplus_mod_idemp_r. Qed.

Lemma u32_sub_u32 (a b : Z) : u32 (a - u32 b) = u32 (a - b).
Proof. unfold u32, wrapu. apply Zminus_mod_idemp_r. Qed.

Lemma u32_add_small (a b : Z) : 0 <= a + b < 2 ^ 32 -> u32 (a + u32 b) = a + b.
Proof. intros H. rewrite u32_add_u32. apply u32_id. assumption. Qed.

Lemma s64_id (x : Z) : - 2 ^ 63 <= x < 2 ^ 63 -> s64 x = x.
Proof.
  intros H. unfold s64, wraps. change (64 - 1) with 63.
  rewrite Z.mod_small; lia.
Qed.

Fixpoint zcount (b : Z) (n : nat) : list Z :=
  match n with O => [] | S n' => b :: zcount (b + 1) n' end.

Lemma In_zcount (x b : Z) (n : nat) : In x (zcount b n) <-> b <= x < b + Z.of_nat n.
Proof.
  revert b; induction n as [|n IH]; intros b; simpl.
  - lia.
  - rewrite IH. lia.
Qed.

Lemma zcount_length (b : Z) (n : nat) : length (zcount b n) = n.
Proof. revert b; induction n; intros; simpl; auto. Qed.

Lemma NoDup_zcount (b : Z) (n : nat) : NoDup (zcount b n).
Proof.
  revert b; induction n as [|n IH]; intros b; simpl; constructor.
  - rewrite In_zcount. lia.
  - apply IH.
Qed.

(** 1 + 8 + ... + 8^(l-1), the number of the first bin of level [l]. *)
Fixpoint geo8 (l : nat) : Z :=
  match l with O => 0 | S l' => geo8 l' + 8 ^ Z.of_nat l' end.

Lemma geo8_closed (l : nat) : 7 * geo8 l = 8 ^ Z.of_nat l - 1.
Proof.
  induction l as [|l IH]; [reflexivity|].
  cbn [geo8]. rewrite Nat2Z.inj_succ, Z.pow_succ_r by lia. lia.
Qed.

Lemma geo8_div (l : nat) : geo8 l = (8 ^ Z.of_nat l - 1) / 7.
Proof. rewrite <- geo8_closed. rewrite Z.mul_comm, Z.div_mul; lia. Qed.

Lemma geo8_nonneg (l : nat) : 0 <= geo8 l.
Proof. pose proof (geo8_closed l). assert (0 < 8 ^ Z.of_nat l) by (apply Z.pow_pos_nonneg; lia). lia. Qed.

Lemma pow8_pow2 (k : Z) : 0 <= k -> 8 ^ k = 2 ^ (3 * k).
Proof. intros. change 8 with (2 ^ 3). rewrite <- Z.pow_mul_r; lia. Qed.

Lemma pow8_mono (a b : Z) : 0 <= a <= b -> 8 ^ a <= 8 ^ b.
Proof. intros. apply Z.pow_le_mono_r; lia. Qed.

(** Levels up to 11 keep every bin number below 2^32. *)
Lemma geo8_bound (l : nat) : (l <= 11)%nat -> geo8 l <= geo8 11.
Proof.
  intros H. do 12 (destruct l as [|l]; [vm_compute; discriminate|]). lia.
Qed.

Lemma geo8_11 : geo8 11 = 1227133513.
Proof. reflexivity. Qed.

Lemma shiftl_1 (k : Z) : 0 <= k -> Z.shiftl 1 k = 2 ^ k.
Proof. intros. rewrite shiftl_mul by assumption. lia. Qed.
