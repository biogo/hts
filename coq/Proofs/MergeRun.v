(** C18 — the abstract merge: a state is a bag of non-empty tagged streams
    (input id, pending records, ends-in-error flag) and an error latch; a run
    repeatedly takes the head of one stream.  Every property of the merger's
    output is proved here for all runs; Proofs/Merger.v shows that the model
    of bam.Merger only produces such runs. *)
From Coq Require Import ZArith List Bool Permutation Sorted.
From Hts Require Import Model.Merger.
Import ListNotations.
Open Scope Z_scope.

Definition astream := (Z * list rec * bool)%type.
Definition astate := list astream.

Definition s_id (s : astream) : Z := fst (fst s).
Definition s_recs (s : astream) : list rec := snd (fst s).
Definition s_fail (s : astream) : bool := snd s.

Definition afail (S : astate) : bool := existsb s_fail S.
Definition aflat (S : astate) : list (Z * rec) :=
  concat (map (fun s => map (pair (s_id s)) (s_recs s)) S).
Definition ids (S : astate) : list Z := map s_id S.
Definition proj (i : Z) (outs : list (Z * rec)) : list rec :=
  map snd (filter (fun o => fst o =? i) outs).

(** the state after taking the head of stream (i, h :: tl, fl) out of S0 *)
Definition after_take (i : Z) (tl : list rec) (fl : bool) (S0 : astate) : astate :=
  match tl with [] => S0 | _ => (i, tl, fl) :: S0 end.
Definition err_after (tl : list rec) (fl : bool) : bool :=
  match tl with [] => fl | _ => false end.

Lemma proj_app : forall x a b, proj x (a ++ b) = proj x a ++ proj x b.
Proof. intros. unfold proj. now rewrite filter_app, map_app. Qed.

Lemma proj_pair : forall x i l, proj x (map (pair i) l) = if i =? x then l else [].
Proof.
  intros x i l. unfold proj. induction l as [| a l IH]; simpl.
  - destruct (i =? x); reflexivity.
  - destruct (i =? x) eqn:E; simpl; [now rewrite IH | exact IH].
Qed.

Lemma afail_perm : forall S S', Permutation S S' -> afail S = afail S'.
Proof.
  unfold afail. induction 1; simpl; auto.
  - now rewrite IHPermutation.
  - destruct (s_fail x), (s_fail y); reflexivity.
  - congruence.
Qed.

Lemma aflat_perm : forall S S', Permutation S S' -> Permutation (aflat S) (aflat S').
Proof.
  unfold aflat. induction 1; simpl.
  - constructor.
  - now apply Permutation_app_head.
  - rewrite !app_assoc. apply Permutation_app_tail. apply Permutation_app_comm.
  - eapply Permutation_trans; eauto.
Qed.

Lemma ids_perm : forall S S', Permutation S S' -> Permutation (ids S) (ids S').
Proof. intros. unfold ids. now apply Permutation_map. Qed.

Lemma proj_aflat_perm : forall j S S',
    NoDup (ids S) -> Permutation S S' -> proj j (aflat S) = proj j (aflat S').
Proof.
  intros j S S' ND HP. induction HP as [| x l l' _ IH | x y l | l l' l'' HP1 IH1 HP2 IH2].
  - reflexivity.
  - inversion ND; subst. unfold aflat in *. simpl. rewrite !proj_app. f_equal. now apply IH.
  - unfold aflat. simpl. rewrite !proj_app, !proj_pair, !app_assoc. f_equal.
    destruct (s_id y =? j) eqn:Ey, (s_id x =? j) eqn:Ex; rewrite ?app_nil_r; try reflexivity.
    apply Z.eqb_eq in Ey, Ex. inversion ND as [| ? ? Hy _]; subst. exfalso. apply Hy. left. congruence.
  - rewrite IH1 by assumption. apply IH2. eapply Permutation_NoDup; [apply ids_perm |]; eassumption.
Qed.

Lemma afail_after : forall i h tl fl S0,
    err_after tl fl || afail (after_take i tl fl S0) = afail ((i, h :: tl, fl) :: S0).
Proof. intros. destruct tl; reflexivity. Qed.

Lemma aflat_after : forall i tl fl S0, aflat (after_take i tl fl S0) = map (pair i) tl ++ aflat S0.
Proof. intros. destruct tl; reflexivity. Qed.

Lemma ids_after : forall S i h tl fl S0,
    Permutation S ((i, h :: tl, fl) :: S0) -> NoDup (ids S) -> NoDup (ids (after_take i tl fl S0)).
Proof.
  intros S i h tl fl S0 HP ND. apply (Permutation_NoDup (ids_perm _ _ HP)) in ND.
  destruct tl; [now inversion ND | exact ND].
Qed.

Section Run.
  (** [P h S0]: side condition on the choice (True for any merge, "h is a
      minimum" for the heap-driven one). *)
  Variable P : rec -> astate -> Prop.

  Inductive mrun : astate -> bool -> list (Z * rec) -> Z -> Prop :=
  | mrun_err : forall S, mrun S true [] 1
  | mrun_eof : mrun [] false [] 0
  | mrun_step : forall S S0 i h tl fl outs e,
      Permutation S ((i, h :: tl, fl) :: S0) ->
      P h S0 ->
      mrun (after_take i tl fl S0) (err_after tl fl) outs e ->
      mrun S false ((i, h) :: outs) e.

  Lemma mrun_perm : forall S S' b outs e,
      Permutation S S' -> mrun S b outs e -> mrun S' b outs e.
  Proof.
    intros S S' b outs e HP H. destruct H.
    - constructor.
    - apply Permutation_nil in HP. subst. constructor.
    - eapply mrun_step; eauto. eapply Permutation_trans; [apply Permutation_sym; eassumption | assumption].
  Qed.

  (** errors reported; loss-free; stable: [outs ++ rest] is an interleaving of
      the streams *)
  Lemma mrun_spec : forall S b outs e,
      mrun S b outs e ->
      e = (if b || afail S then 1 else 0) /\
      exists rest, Permutation (aflat S) (outs ++ rest) /\
                   (NoDup (ids S) -> forall j, proj j (aflat S) = proj j outs ++ proj j rest) /\
                   (e = 0 -> rest = []).
  Proof.
    induction 1 as [S | | S S0 i h tl fl outs e HP _ _ [He [rest [H1 [H2 H3]]]]].
    - split; [reflexivity |]. exists (aflat S). repeat split; auto. discriminate.
    - split; [reflexivity |]. exists []. repeat split; auto.
    - rewrite aflat_after in H1, H2.
      split; [now rewrite He, afail_after with (h := h), (afail_perm _ _ HP) |].
      exists rest. split; [| split; [| exact H3]].
      + eapply Permutation_trans; [apply aflat_perm; exact HP |]. now apply (perm_skip (i, h)).
      + intros ND j. rewrite (proj_aflat_perm j _ _ ND HP).
        change (proj j ([(i, h)] ++ map (pair i) tl ++ aflat S0) = proj j ([(i, h)] ++ outs) ++ proj j rest).
        now rewrite !(proj_app j [(i, h)]), (H2 (ids_after _ _ _ _ _ _ HP ND)), app_assoc.
  Qed.

  Lemma mrun_in : forall S b outs e o, mrun S b outs e -> In o outs -> In o (aflat S).
  Proof.
    intros S b outs e o H Hin. destruct (mrun_spec _ _ _ _ H) as [_ [rest [HP _]]].
    eapply Permutation_in; [apply Permutation_sym; eassumption |].
    apply in_or_app. now left.
  Qed.
End Run.

Section Sorted.
  Variable le : rec -> rec -> Prop.
  Hypothesis le_trans : forall a b c, le a b -> le b c -> le a c.

  Definition head_min (h : rec) (S0 : astate) : Prop :=
    Forall (fun s => match s_recs s with h' :: _ => le h h' | [] => True end) S0.

  Definition streams_sorted (S : astate) : Prop :=
    Forall (fun s => StronglySorted le (s_recs s)) S.

  Lemma head_min_flat : forall h S0, streams_sorted S0 -> head_min h S0 ->
      Forall (fun o => le h (snd o)) (aflat S0).
  Proof.
    unfold streams_sorted, head_min, aflat. induction S0 as [| s S0 IH]; intros HS HM; simpl; [constructor |].
    inversion HS as [| ? ? Hs HS0]; inversion HM as [| ? ? Hh HM0]; subst.
    apply Forall_app. split; [| now apply IH].
    rewrite Forall_map. simpl. destruct (s_recs s) as [| h' t]; [constructor |].
    apply StronglySorted_inv in Hs. destruct Hs as [_ Ht].
    constructor; [exact Hh |]. eapply Forall_impl; [| exact Ht]. intros a. now apply le_trans.
  Qed.

  Lemma mrun_sorted : forall S b outs e,
      mrun head_min S b outs e -> streams_sorted S -> StronglySorted le (map snd outs).
  Proof.
    induction 1 as [| | S S0 i h tl fl outs e HP Hmin Hrun IH]; intros HS; simpl; [constructor | constructor |].
    apply (Permutation_Forall HP) in HS. inversion HS as [| ? ? Hhd HS0]; subst.
    apply StronglySorted_inv in Hhd. destruct Hhd as [Htl Hall].
    assert (HF : Forall (fun o => le h (snd o)) (aflat (after_take i tl fl S0))).
    { rewrite aflat_after. apply Forall_app. split; [now rewrite Forall_map | now apply head_min_flat]. }
    constructor.
    - apply IH. destruct tl; [exact HS0 | now constructor].
    - rewrite Forall_map. rewrite Forall_forall in *. intros o Ho. apply HF.
      eapply mrun_in; eauto.
  Qed.
End Sorted.

Lemma mrun_weaken : forall (P Q : rec -> astate -> Prop) S b outs e,
    (forall h S0, P h S0 -> Q h S0) -> mrun P S b outs e -> mrun Q S b outs e.
Proof.
  intros P Q S b outs e HPQ H. induction H.
  - constructor.
  - constructor.
  - eapply mrun_step; eauto.
Qed.
