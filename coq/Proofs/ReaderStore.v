(** C02 — without a cache, the reader with store objects (one block, recycled
    for every fetch) is the reader on block values. *)
From Coq Require Import ZArith List Bool Lia.
From Hts Require Import Base.Prim Model.Flat Model.Reader Proofs.FlatLemmas Proofs.ReaderFlat.
Import ListNotations.
Open Scope Z_scope.

Definition emb (v : vstate) : rstate :=
  mkR [v_cur v] (Some O) (v_err v) (v_lc v) (v_blocked v) None.

Definition omap {A B} (f : A -> B) (o : outcome A) : outcome B :=
  match o with Ok a => Ok (f a) | Err e => Err e | Panic w => Panic w | Stuck => Stuck end.

Lemma v_skip_mono (F : file) : forall f1 f2 s x, (f1 <= f2)%nat -> v_skip F f1 s = Ok x -> v_skip F f2 s = Ok x.
Proof.
  induction f1 as [|f1 IH]; intros f2 s x Hle H.
  - simpl in H. destruct (b_len (v_cur s) =? 0) eqn:E; [discriminate|].
    destruct f2; simpl; rewrite E; exact H.
  - destruct f2 as [|f2]; [lia|]. simpl in *.
    destruct (b_len (v_cur s) =? 0); [|exact H].
    destruct (v_nextBlock F s) as [s1 e]. destruct (e =? eNil); [|exact H].
    apply (IH f2); [lia|exact H].
Qed.

Lemma v_copy_mono (F : file) (n : Z) : forall f1 f2 s acc x, (f1 <= f2)%nat -> v_copy F f1 s n acc = Ok x -> v_copy F f2 s n acc = Ok x.
Proof.
  induction f1 as [|f1 IH]; intros f2 s acc x Hle H.
  - simpl in H. destruct (zlen acc <? n) eqn:E; [discriminate|].
    destruct f2; simpl; rewrite E; exact H.
  - destruct f2 as [|f2]; [lia|]. simpl in *.
    destruct (zlen acc <? n); [|exact H].
    destruct (b_read (v_cur s) (n - zlen acc)) as [[b bs] e].
    destruct (e =? eEOF).
    + destruct (zlen (acc ++ bs) =? n); [exact H|].
      destruct (v_blocked s); [exact H|].
      destruct (v_nextBlock F (set_cur s b)) as [s2 e2].
      destruct (e2 =? eNil); [|exact H]. apply (IH f2); [lia|exact H].
    + apply (IH f2); [lia|exact H].
Qed.

Lemma emb_nextBlock (F : file) (v : vstate) :
  r_nextBlock F (emb v) = Ok (emb (fst (v_nextBlock F v)), snd (v_nextBlock F v)).
Proof.
  unfold r_nextBlock, with_cur, emb, v_nextBlock. simpl.
  unfold r_fetch. simpl. unfold sget. simpl.
  destruct (b_fill F (v_cur v) (b_next (v_cur v))) as [b e]. reflexivity.
Qed.

Lemma emb_skip (F : file) : forall fuel v,
  r_skip F fuel (emb v) = omap (fun x => (emb (fst x), snd x)) (v_skip F fuel v).
Proof.
  induction fuel as [|fuel IH]; intros v.
  - simpl. unfold with_cur, emb, sget. simpl. destruct (b_len (v_cur v) =? 0); reflexivity.
  - simpl. unfold with_cur at 1. simpl. unfold sget at 1. simpl.
    destruct (b_len (v_cur v) =? 0); [|reflexivity].
    change (mkR [v_cur v] (Some O) (v_err v) (v_lc v) (v_blocked v) None) with (emb v).
    rewrite emb_nextBlock. destruct (v_nextBlock F v) as [s1 e]. simpl.
    destruct (e =? eNil); [apply IH|reflexivity].
Qed.

Lemma emb_copy (F : file) (n : Z) : forall fuel v acc,
  r_copy F fuel (emb v) n acc = omap (fun x => (emb (fst (fst x)), snd (fst x), snd x)) (v_copy F fuel v n acc).
Proof.
  induction fuel as [|fuel IH]; intros v acc.
  - simpl. destruct (zlen acc <? n); reflexivity.
  - simpl. destruct (zlen acc <? n); [|reflexivity].
    unfold with_cur. simpl. unfold sget. simpl.
    destruct (b_read (v_cur v) (n - zlen acc)) as [[b bs] e].
    destruct (e =? eEOF).
    + destruct (zlen (acc ++ bs) =? n); [reflexivity|].
      destruct (v_blocked v); [reflexivity|].
      change (rs_st (emb v) (sset [v_cur v] 0 b)) with (emb (set_cur v b)).
      rewrite emb_nextBlock. destruct (v_nextBlock F (set_cur v b)) as [s2 e2]. simpl.
      destruct (e2 =? eNil); [apply IH|reflexivity].
    + change (rs_st (emb v) (sset [v_cur v] 0 b)) with (emb (set_cur v b)). apply IH.
Qed.

Lemma emb_read (F : file) (v : vstate) (n : Z) (x : vstate * list Z * Z) :
  v_read F v n = Ok x -> r_read F (emb v) n = Ok (emb (fst (fst x)), snd (fst x), snd x).
Proof.
  unfold v_read, r_read. simpl r_err. destruct (negb (v_err v =? eNil)).
  - intros H; inversion H; subst. reflexivity.
  - destruct (v_skip F (S (length F)) v) as [[s1 e]| | |] eqn:Hsk; try discriminate.
    rewrite emb_skip.
    rewrite (v_skip_mono F (S (length F)) (r_fuel F (emb v)) v (s1, e)); [|unfold r_fuel; simpl; lia|exact Hsk].
    simpl. destruct (negb (e =? eNil)).
    + intros H; inversion H; subst. reflexivity.
    + intros H.
      change (rs_begin (emb s1) (cur_tx (emb s1))) with (emb (set_begin s1 (b_tx (v_cur s1)))).
      rewrite emb_copy.
      rewrite (v_copy_mono F n (fuel_of F) _ _ [] x); [reflexivity| |exact H].
      unfold r_fuel, fuel_of. simpl. lia.
Qed.

Lemma emb_readbyte (F : file) (v : vstate) (x : vstate * list Z * Z) :
  v_readbyte F v = Ok x -> r_readbyte F (emb v) = Ok (emb (fst (fst x)), snd (fst x), snd x).
Proof.
  unfold v_readbyte, r_readbyte. simpl r_err. destruct (negb (v_err v =? eNil)).
  - intros H; inversion H; subst. reflexivity.
  - destruct (v_skip F (S (length F)) v) as [[s1 e]| | |] eqn:Hsk; try discriminate.
    rewrite emb_skip.
    rewrite (v_skip_mono F (S (length F)) (r_fuel F (emb v)) v (s1, e)); [|unfold r_fuel; simpl; lia|exact Hsk].
    simpl. destruct (negb (e =? eNil)).
    + intros H; inversion H; subst. reflexivity.
    + unfold with_cur. simpl. unfold sget. simpl.
      destruct (b_readbyte (v_cur s1)) as [[b bs] e1].
      destruct (e1 =? eEOF).
      * destruct (v_blocked s1).
        -- intros H; inversion H; subst. reflexivity.
        -- change (rs_st (rs_begin (emb s1) (cur_tx (emb s1))) (sset [v_cur s1] 0 b))
             with (emb (set_cur (set_begin s1 (b_tx (v_cur s1))) b)).
           rewrite emb_nextBlock.
           destruct (v_nextBlock F (set_cur (set_begin s1 (b_tx (v_cur s1))) b)) as [s4 e2].
           intros H; inversion H; subst. reflexivity.
      * intros H; inversion H; subst. reflexivity.
Qed.

Lemma v_seek_has (F : file) (v : vstate) (f o : Z) :
  b_has (v_cur (fst (v_seek F v f o))) = true \/ snd (v_seek F v f o) <> eNil.
Proof.
  unfold v_seek.
  destruct (negb (f =? b_base (v_cur v)) || negb (b_has (v_cur v))) eqn:Hre.
  - unfold b_fill. destruct (fetch F f); simpl; try (right; discriminate).
    + left. reflexivity.
  - simpl. left. apply orb_false_iff in Hre. destruct Hre as [_ H]. apply negb_false_iff in H. exact H.
Qed.

Lemma emb_seek (F : file) (v : vstate) (f o : Z) :
  r_seek F (emb v) f o = Ok (emb (fst (v_seek F v f o)), snd (v_seek F v f o)).
Proof.
  generalize (v_seek_has F v f o). unfold r_seek, v_seek, with_cur. simpl. unfold sget. simpl.
  destruct (negb (f =? b_base (v_cur v)) || negb (b_has (v_cur v))) eqn:Hre.
  - unfold r_fetch. simpl. unfold sget. simpl.
    destruct (b_fill F (v_cur v) f) as [b e]. simpl.
    destruct (negb (e =? eNil)) eqn:He; [reflexivity|].
    simpl. unfold with_cur, sget. simpl. intros [H|H]; [|congruence].
    simpl in H. rewrite H. reflexivity.
  - simpl. unfold with_cur, sget. simpl. intros [H|H]; [|congruence].
    simpl in H. rewrite H. reflexivity.
Qed.

Definition no_cache_op (o : rop) : bool := match o with OSetCache _ _ => false | _ => true end.

Lemma emb_step (F : file) (ch : list nat) (v : vstate) (o : rop) (x : vstate * fret) :
  no_cache_op o = true -> v_step F v o = Ok x ->
  r_step F ch (emb v) o = Ok (emb (fst x), snd x).
Proof.
  intros Hn Hv. destruct o as [fo bo|n| |b| |k cap]; simpl in *; try discriminate.
  - rewrite emb_seek. destruct (v_seek F v fo bo) as [s' e]. inversion Hv; subst. reflexivity.
  - destruct (v_read F v n) as [[[s' bs] e]| | |] eqn:Hr; try discriminate. inversion Hv; subst.
    rewrite (emb_read F v n _ Hr). reflexivity.
  - destruct (v_readbyte F v) as [[[s' bs] e]| | |] eqn:Hr; try discriminate. inversion Hv; subst.
    rewrite (emb_readbyte F v _ Hr). reflexivity.
  - inversion Hv; subst. reflexivity.
  - change (r_lc (emb v)) with (v_lc v). destruct (fst (v_lc v)) as [fo bo].
    rewrite emb_seek. destruct (v_seek F v fo bo) as [s' e]. inversion Hv; subst. reflexivity.
Qed.

Lemma run_emb (F : file) (ch : list nat) : wf_file F = true -> forall ops s f,
  sim F s f -> Forall (valid_op F) ops -> forallb no_cache_op ops = true ->
  r_run F ch (emb s) ops = v_run F s ops.
Proof.
  intros W. induction ops as [|o ops IH]; intros s f Hs Hv Hn; [reflexivity|].
  inversion Hv as [|? ? Hvo Hvr]; subst. simpl in Hn. apply andb_true_iff in Hn. destruct Hn as [Hno Hnr].
  destruct (step_sim F s f o W Hs Hvo) as (s' & r & Hst & Hr & Hs').
  simpl. rewrite Hst.
  rewrite (emb_step F ch s o (s', r) Hno Hst).
  simpl. rewrite (IH s' _ Hs' Hvr Hnr). reflexivity.
Qed.

Lemma r_init_emb (F : file) : r_init F = (emb (fst (v_init F)), snd (v_init F)).
Proof. unfold r_init, v_init. destruct (b_fill F b_new 0) as [b e]. reflexivity. Qed.

(** C02 for the reader with store objects (bgzf.Reader, rd = 1, no cache). *)
Theorem r_refines_flat (F : file) (ch : list nat) (ops : list rop) :
  wf_file F = true -> F <> [] -> Forall (valid_op F) ops -> forallb no_cache_op ops = true ->
  snd (r_init F) = eNil /\
  exists l, r_run F ch (fst (r_init F)) ops = Ok l /\
    rets l = map fst (flat_run F f_init ops) /\
    begins F l = map (fun y => fst (snd y)) (flat_run F f_init ops) /\
    (addressable F = true -> ends F l = map (fun y => snd (snd y)) (flat_run F f_init ops)).
Proof.
  intros W Hne Hv Hn. rewrite r_init_emb. simpl.
  destruct (init_sim F W Hne) as [Hs He]. split; [exact He|].
  rewrite (run_emb F ch W ops _ _ Hs Hv Hn).
  apply (run_sim F W ops _ _ Hs Hv).
Qed.

Definition obs_tr (F : file) (x : robs) : fret * (Z * Z) := (fst (fst x), tr_chunk F (snd (fst x))).

Lemma combine_maps {A} (f : A -> fret) (g h : A -> Z) : forall (l : list A) (L : list (fret * (Z * Z))),
  map f l = map fst L -> map g l = map (fun y => fst (snd y)) L -> map h l = map (fun y => snd (snd y)) L ->
  map (fun x => (f x, (g x, h x))) l = L.
Proof.
  induction l as [|a l IH]; intros [|[r [b e]] L] H1 H2 H3; simpl in *; try discriminate; [reflexivity|].
  inversion H1; inversion H2; inversion H3; subst. f_equal. apply IH; assumption.
Qed.

Theorem r_refines_flat_full (F : file) (ch : list nat) (ops : list rop) :
  wf_file F = true -> F <> [] -> addressable F = true ->
  Forall (valid_op F) ops -> forallb no_cache_op ops = true ->
  exists l, r_run F ch (fst (r_init F)) ops = Ok l /\ map (obs_tr F) l = flat_run F f_init ops.
Proof.
  intros W Hne Ha Hv Hn. destruct (r_refines_flat F ch ops W Hne Hv Hn) as (_ & l & Hl & H1 & H2 & H3).
  exists l. split; [exact Hl|]. apply combine_maps; [exact H1|exact H2|exact (H3 Ha)].
Qed.

Definition flat_exec (F : file) (f : fstate) (ops : list rop) : fstate :=
  fold_left (fun s o => fst (flat_step F s o)) ops f.

Lemma flat_run_app (F : file) : forall a b f, flat_run F f (a ++ b) = flat_run F f a ++ flat_run F (flat_exec F f a) b.
Proof.
  induction a as [|o a IH]; intros b f; [reflexivity|].
  unfold flat_exec. simpl. destruct (flat_step F f o) as [f' r] eqn:E. simpl. rewrite IH. reflexivity.
Qed.

Lemma flat_replay (F : file) (f : fstate) (n : Z) :
  snd (flat_read F f n) <> ([], eEOF) ->
  let f1 := fst (flat_read F f n) in
  let f2 := fst (flat_seek f1 (fst (f_chunk f1))) in
  flat_read F f2 n = flat_read F f n.
Proof.
  unfold flat_read. destruct (f_eof f) eqn:He; [intros H; destruct H; reflexivity|].
  destruct (total F - f_pos f =? 0) eqn:Hz; [intros H; destruct H; reflexivity|].
  intros _. simpl. rewrite Hz. reflexivity.
Qed.

Theorem r_seek_begin_replays (F : file) (ch : list nat) (ops : list rop) (n : Z) :
  wf_file F = true -> F <> [] -> addressable F = true ->
  Forall (valid_op F) ops -> forallb no_cache_op ops = true -> 0 <= n ->
  exists l o1 o2 o3,
    r_run F ch (fst (r_init F)) (ops ++ [ORead n; OReseek; ORead n]) = Ok (l ++ [o1; o2; o3]) /\
    (fst (obs_tr F o1) <> ([], eEOF) -> obs_tr F o3 = obs_tr F o1).
Proof.
  intros W Hne Ha Hv Hn Hn0.
  destruct (r_refines_flat_full F ch (ops ++ [ORead n; OReseek; ORead n]) W Hne Ha) as (L & HL & HM).
  - apply Forall_app. split; [exact Hv|]. constructor; [exact Hn0|]. constructor; [exact I|]. constructor; [exact Hn0|constructor].
  - rewrite forallb_app, Hn. reflexivity.
  - rewrite flat_run_app in HM.
    apply map_eq_app in HM. destruct HM as (l & l3 & -> & Hm1 & Hm3).
    set (f := flat_exec F f_init ops) in *.
    simpl in Hm3.
    destruct (flat_read F f n) as [f1 r1] eqn:E1. simpl in Hm3.
    destruct (flat_read F (mkF (fst (f_chunk f1)) false (f_blocked f1) (fst (f_chunk f1), fst (f_chunk f1))) n) as [f3 r3] eqn:E3.
    apply map_eq_cons in Hm3. destruct Hm3 as (o1 & t1 & -> & Ho1 & Hm3).
    apply map_eq_cons in Hm3. destruct Hm3 as (o2 & t2 & -> & Ho2 & Hm3).
    apply map_eq_cons in Hm3. destruct Hm3 as (o3 & t3 & -> & Ho3 & Hm3).
    apply map_eq_nil in Hm3. subst t3.
    exists l, o1, o2, o3. split; [exact HL|].
    rewrite Ho1, Ho3. simpl. intros Hne1.
    pose proof (flat_replay F f n) as Hrp. rewrite E1 in Hrp. simpl in Hrp.
    unfold flat_seek in Hrp. simpl in Hrp. rewrite E3 in Hrp.
    specialize (Hrp Hne1). inversion Hrp; subst. reflexivity.
Qed.

Lemma flat_run_length (F : file) : forall ops f, length (flat_run F f ops) = length ops.
Proof. induction ops as [|o ops IH]; intros f; simpl; [reflexivity|]. destruct (flat_step F f o). simpl. rewrite IH. reflexivity. Qed.

Lemma rets_length (F : file) (f : fstate) (ops : list rop) (l : list robs) :
  rets l = map fst (flat_run F f ops) -> length l = length ops.
Proof. intros H. apply (f_equal (@length _)) in H. unfold rets in H. rewrite !map_length, flat_run_length in H. exact H. Qed.

Definition run_ends (F : file) (ops : list rop) : option (list Z) :=
  match r_run F [] (fst (r_init F)) ops with Ok l => Some (ends F l) | _ => None end.

(** After a Read of a whole member of [L] bytes End is (base, uint16 L), the flat cursor is [L]. *)
Lemma whole_member_ends (m : member) (L : Z) :
  wf_file [m] = true -> m_len m = L -> 0 < L ->
  run_ends [m] [ORead L] = Some [u16 L] /\ map (fun y => snd (snd y)) (flat_run [m] f_init [ORead L]) = [L].
Proof.
  intros W HL Hpos. set (F := [m]).
  assert (S : split_at F [] m []) by (split; [reflexivity|exact W]).
  assert (Htot : total F = L) by (unfold F; rewrite total_cons, total_nil; lia).
  destruct (init_sim F W ltac:(discriminate)) as [Hs0 _].
  split.
  - (* the reader: Read is skip (nothing to discard) and the copy loop *)
    assert (Hread : exists s' r, v_step F (fst (v_init F)) (ORead L) = Ok (s', r) /\ tr F (snd (v_lc s')) = u16 L).
    { pose proof Hs0 as [_ _ _ _ [[_ (He & pre & m0 & post & S0 & On & Hq)]|[Hx _]]]; [|discriminate].
      destruct (split_single S0) as (-> & -> & ->).
      simpl in Hq.
      set (s0 := fst (v_init F)) in *. simpl v_step. unfold v_read. rewrite He. simpl negb. cbv iota.
      destruct (skip_spec F [] [] m s0 2 S On He ltac:(simpl; lia)) as (s1 & e1 & Hsk & _ & Hcase).
      destruct Hcase as [(-> & _ & _ & _ & _ & _ & _ & _ & _ & _ & Hsame & _)|(_ & _ & Hx)]; [|rewrite total_nil in Hx; lia].
      rewrite (Hsame ltac:(lia)) in Hsk. change (Datatypes.S (length F)) with 2%nat. rewrite Hsk. simpl negb. cbv iota.
      set (s0b := set_begin s0 (b_tx (v_cur s0))).
      destruct (copy_unblocked F L [] m [] s0b (fuel_of F) S On (sim_blocked _ _ _ Hs0) ltac:(unfold fuel_of, F; simpl; lia) ltac:(lia))
        as (s' & Hcp & _ & _ & Hend & Hat).
      change (b_pos (v_cur s0b)) with (b_pos (v_cur s0)) in Hcp, Hat. rewrite <- Hq in Hcp, Hat.
      replace (Z.min L (zlen (zdrop 0 (m_data m) ++ flat_data []))) with L in Hcp, Hat
        by (rewrite zdrop_0, app_nil_r; fold (m_len m); lia).
      rewrite Z.ltb_irrefl in Hcp, Hat. rewrite Hcp. eexists _, _. split; [reflexivity|].
      destruct Hat as (_ & pre' & m' & post' & S' & On' & Hq').
      destruct (split_single S') as (-> & -> & ->).
      rewrite Hend. destruct On' as (Hb & _ & _ & _ & _ & Ho). unfold tr, b_tx. cbn [fst snd].
      rewrite Hb, Ho, (split_before S), total_nil, Z.add_0_l. f_equal. rewrite total_nil in Hq'. lia. }
    destruct Hread as (s' & r & Hst & Htr).
    unfold run_ends. rewrite r_init_emb. cbn [fst].
    rewrite (run_emb F [] W [ORead L] _ _ Hs0 ltac:(constructor; [simpl; lia|constructor]) eq_refl).
    cbn [v_run]. rewrite Hst. unfold ends. simpl. rewrite Htr. reflexivity.
  - cbn [flat_run flat_step]. unfold flat_read. cbn [f_init f_eof f_pos f_blocked]. rewrite Htot, Z.sub_0_r.
    destruct (Z.eqb_spec L 0); [lia|]. rewrite Z.min_id. reflexivity.
Qed.

Lemma mkdata_go_length (k : nat) (j seed : Z) : length (mkdata_go k j seed) = k.
Proof. revert j. induction k as [|k IH]; intros j; simpl; [reflexivity|]. f_equal. apply IH. Qed.

Definition big_member : member := mkMember 0 100 (mkdata 65536 11).

Lemma big_member_len : m_len big_member = 65536.
Proof. unfold m_len, zlen, big_member, mkdata. cbn [m_data]. rewrite mkdata_go_length. apply Z2Nat.id. lia. Qed.
