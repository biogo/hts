(** No deadlock in the fault-free writer pipeline (Model/WriterConc.v): in
    every reachable state in which the caller has not finished its script,
    some thread is enabled (Model/WriterEnabled.v).  On top of the pipeline
    invariant CInv this needs token conservation: the compressors are
    partitioned over the caller, bg.waiting, bg.queue and the emitter. *)
From Coq Require Import ZArith Lia List Bool.
From Hts Require Import Base.Prim Base.WrList Generated Model.Bgzf Model.Writer Model.WriterConc Model.WriterEnabled
  Proofs.Bgzf Proofs.Writer Proofs.WriterConc.
Import ListNotations.
Open Scope Z_scope.

Definition held_count (st : cst) : Z := match x_held st with Some _ => 1 | None => 0 end.

Definition Cnt (st : cst) : Prop :=
  zlen (x_waiting st) + zlen (x_queue st) + held_count st + api_holds (s_pc (x_api st)) = x_cap st
  /\ 2 <= x_cap st.

Definition pc_delta (pc : apc) : Z :=
  match pc with
  | AWSend _ _ | AFSend | ACSend => -1
  | AWRecv _ _ | AFRecv | ACRecv => 1
  | _ => 0
  end.

Lemma step0_holds s : api_holds (s_pc (step0 s)) = api_holds (s_pc s) + pc_delta (s_pc s).
Proof. sstep_cases s; reflexivity. Qed.

Section Progress.
  Variable deflate : Z -> list Z -> list Z.
  Variable crc32 : list Z -> Z.
  Variables (pm : wr_patch) (guard ovf : bool) (lvl : Z) (h : gzhdr).
  Variable fault : Z -> bool.
  Hypothesis no_faults : forall k, fault k = false.
  Hypothesis deflate_bound : forall l d,
    zlen (deflate l d) <= zlen d + zlen d / 2^12 + zlen d / 2^14 + zlen d / 2^25 + 13.
  Hypothesis Hpa : patch_at_12 pm guard.
  Hypothesis Hl : hdr_legal h.
  Hypothesis Hs : hdr_small h.

  Local Notation stepc := (step deflate crc32 pm guard ovf lvl h fault).
  Local Notation CInv := (CInv deflate crc32 lvl h).

  Lemma zlen_map {A B} (f : A -> B) l : zlen (map f l) = zlen l.
  Proof. unfold zlen. rewrite map_length. reflexivity. Qed.

  Lemma cnt_task f st : Cnt st -> Cnt (map_pending f st).
  Proof.
    unfold Cnt, held_count, map_pending. proj. rewrite zlen_map. destruct (x_held st); auto.
  Qed.

  Lemma cnt_step script t st : CInv script st -> Cnt st -> Cnt (stepc t st).
  Proof.
    intros I Cst. pose proof (ci_err _ _ _ _ _ _ I) as Ierr. pose proof (ci_waiting _ _ _ _ _ _ I) as Iwait.
    pose proof (ci_held _ _ _ _ _ _ I) as Ih.
    unfold step. destruct t as [|[|i]]; [| |apply cnt_task; assumption]; pose proof Cst as [C N].
    - (* caller: a send moves a compressor from its hands to the queue, a receive from waiting to its hands *)
      unfold api_step. rewrite Ierr, (fb_nil st Iwait), ?no_faults. fold step0. fold (step0 (x_api st)).
      pose proof (step0_holds (x_api st)) as Hh. revert C Hh. clear -Cst N.
      destruct (s_pc (x_api st)); cbn [pc_delta api_holds];
        repeat match goal with
               | |- context [Cnt (if ?c then _ else _)] => destruct c
               | |- context [Cnt (match ?c with _ => _ end)] => destruct c
               end; try (intros _ _; exact Cst); try lazymatch goal with |- _ -> _ -> Cnt (map_pending _ _) => intros C Hh; apply cnt_task; revert C Hh end;
        unfold Cnt, held_count; proj; rewrite ?zlen_app', ?zlen_cons; change (zlen (@nil comp)) with 0; 
        intros C Hh; (split; [|assumption]); lia.
    - (* emitter: takes from the queue, gives back to waiting *)
      unfold emit_step. revert C Ih. unfold held_count. clear -Cst N.
      destruct (x_epc st);
        repeat match goal with
               | |- context [Cnt (if ?c then _ else _)] => destruct c
               | |- context [Cnt (match ?c with _ => _ end)] => destruct c
               end; try (intros _ _; exact Cst);
        unfold Cnt, held_count; proj; rewrite ?zlen_app', ?zlen_cons; change (zlen (@nil comp)) with 0;
        intros C Ih; try rewrite Ih in C; (split; [|assumption]); lia.
  Qed.

  Lemma cnt_init wc script : Cnt (cinit wc script).
  Proof.
    unfold Cnt, held_count, cinit, pool_size. proj. cbn [sinit s_pc api_holds].
    rewrite zlen_map. unfold zlen. rewrite seq_length. change (Z.of_nat (length (@nil comp))) with 0. split; lia.
  Qed.

  Lemma run_cnt script sched : forall st, CInv script st -> Cnt st ->
    Cnt (run deflate crc32 pm guard ovf lvl h fault sched st).
  Proof.
    induction sched as [|t r IH]; intros st I C; [assumption|]. cbn [run]. apply IH.
    - apply step_inv; auto.
    - apply (cnt_step script); assumption.
  Qed.

  Lemma holds_nonneg pc : 0 <= api_holds pc.
  Proof. destruct pc; cbn; lia. Qed.

  (** If the pipeline holds a compressor (or only has to notice that the queue
      was closed), the emitter or a compressor goroutine can move. *)
  Lemma pipe_progress script st :
    CInv script st -> Cnt st -> add_pc (s_pc (x_api st)) = false ->
    (x_queue st <> [] \/ x_held st <> None \/ (x_qclosed st = true /\ x_epc st <> EExit)) ->
    emit_enabled st = true \/ exists id, task_enabled id st = true.
  Proof.
    intros I [C N] Hadd Hwork.
    pose proof (ci_held _ _ _ _ _ _ I) as Ih. pose proof (ci_sent _ _ _ _ _ _ I) as Is. rewrite Hadd in Is.
    destruct (ci_chain _ _ _ _ _ _ I) as (done & ps & _ & C2 & _).
    unfold emit_enabled. destruct (x_epc st) eqn:Hepc.
    - left. rewrite Ih in Hwork. destruct Hwork as [Hq|[Hh|[Hc _]]]; [|congruence|].
      + destruct (x_queue st); [congruence|reflexivity].
      + rewrite Hc. apply orb_true_r.
    - (* waiting for the flush of c: its writeBlock goroutine is running, or it has flushed *)
      destruct Ih as [c Hc]. rewrite Hc.
      assert (Hpend : pending st = c :: x_queue st) by (unfold pending, held_pending; rewrite Hepc, Hc; reflexivity).
      rewrite Hpend in Is, C2. cbn [forallb] in Is. apply andb_prop in Is. destruct Is as [Hns _].
      inversion C2 as [|? p ? ? [_ [_ Hst]] _]; subst.
      destruct (c_stage c) eqn:Hsg; try contradiction.
      + unfold nonsent in Hns. rewrite Hsg in Hns. discriminate.
      + right. exists (c_id c). unfold task_enabled. rewrite Hc. cbn [app existsb]. rewrite Z.eqb_refl, Hsg. reflexivity.
      + left. reflexivity.
    - left. reflexivity.
    - (* bg.waiting has room: it holds at most cap - 1 *) left. apply Z.ltb_lt. unfold held_count in C. destruct Ih as [c [Hc _]]. rewrite Hc in C.
      pose proof (holds_nonneg (s_pc (x_api st))). pose proof (zlen_nonneg (x_queue st)). lia.
    - exfalso. destruct (ci_exit _ _ _ _ _ _ I Hepc) as [Hq _].
      destruct Hwork as [H|[H|[_ H]]]; congruence.
  Qed.

  (** Deadlock freedom: while the caller has not finished its script, some
      thread can take a step. *)
  Theorem no_stuck script st :
    CInv script st -> Cnt st -> cdone st = false -> some_enabled st.
  Proof.
    intros I Cn Hnd. pose proof Cn as [C N]. unfold some_enabled, api_enabled, cdone, sdone in *.
    pose proof (zlen_nonneg (x_waiting st)). pose proof (zlen_nonneg (x_queue st)).
    assert (Hwork : 1 <= zlen (x_queue st) + held_count st -> x_queue st <> [] \/ x_held st <> None).
    { unfold held_count. destruct (x_held st); [right; discriminate|]. destruct (x_queue st); [cbn; lia|left; discriminate]. }
    assert (Hh0 : 0 <= held_count st) by (unfold held_count; destruct (x_held st); lia).
    assert (Hpipe := pipe_progress script st I Cn).
    destruct (s_pc (x_api st)) eqn:Hpc; cbn [api_holds add_pc] in *; try (left; reflexivity); try discriminate.
    (* a send finds room: the caller holds the compressor it is sending *)
    all: try (left; apply Z.ltb_lt; lia).
    (* a receive finds an idle compressor, or all of them are in the pipeline *)
    all: try (destruct (x_waiting st); [change (zlen (@nil comp)) with 0 in C; right; apply Hpipe; [reflexivity|]|left; reflexivity];
              destruct Hwork; auto; lia).
    - (* Wait: a positive qwg counts a compressor in the pipeline *)
      destruct (x_qwg st =? 0) eqn:Hq; [left; reflexivity|]. apply Z.eqb_neq in Hq. right. apply Hpipe; [reflexivity|].
      pose proof (ci_qwg _ _ _ _ _ _ I) as Iq. pose proof (ci_held _ _ _ _ _ _ I) as Ih.
      destruct (x_held st) eqn:Hh; [right; left; discriminate|]. left. intros E.
      unfold pending, held_pending in Iq. rewrite Hh, E in Iq.
      destruct (x_epc st); cbn in Iq; try lia. destruct Ih as (c & Hc & _). discriminate.
    - (* Close waits for the emitter, which has work until it has left its loop *)
      destruct (x_epc st) eqn:Hepc; try (left; reflexivity);
        (right; apply Hpipe; [reflexivity|]; right; right;
         split; [rewrite (ci_qclosed _ _ _ _ _ _ I); apply (si_wg _ _ (api_inv _ _ _ _ _ _ I)); assumption|discriminate]).
  Qed.

  Theorem run_no_stuck wc script sched :
    let st := run_conc deflate crc32 pm guard ovf lvl h fault wc script sched in
    cdone st = false -> some_enabled st.
  Proof.
    intros st Hnd. unfold st, run_conc in *. apply (no_stuck script); auto.
    - apply run_inv; auto. apply cinit_inv; assumption.
    - apply (run_cnt script); [apply cinit_inv; assumption|apply cnt_init].
  Qed.
End Progress.

(** The guards are the model's: a thread that is not enabled does not move. *)
Lemma emit_blocked_noop fault st : emit_enabled st = false -> emit_step fault st = st.
Proof.
  unfold emit_enabled, emit_step. destruct (x_epc st); try discriminate; try reflexivity.
  - destruct (x_queue st); cbn [isnil negb orb]; [|discriminate]. intros ->. reflexivity.
  - destruct (x_held st) as [c|]; [|reflexivity]. intros ->. reflexivity.
  - destruct (x_held st) as [c|]; [|reflexivity]. intros ->. reflexivity.
Qed.

Lemma api_blocked_noop deflate crc32 pm guard ovf lvl h fault st :
  api_enabled st = false -> s_pc (x_api st) <> ADone ->
  api_step deflate crc32 pm guard ovf lvl h fault st = st.
Proof.
  unfold api_enabled, api_step. destruct (s_pc (x_api st)); try discriminate; try congruence;
    try (intros ->; reflexivity);
    try (destruct (x_waiting st); [reflexivity|discriminate]).
  destruct (x_epc st); try reflexivity; discriminate.
Qed.
