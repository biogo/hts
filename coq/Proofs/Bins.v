(** C16: the bin functions. The CSI functions are treated for every geometry,
    knowing of the level shifts only that [sh (S m) = sh m - 3]; the fixed BAI
    scheme is the geometry (14, 5) and gets its containment facts from there.
    What BAI has of its own is the wider domain of BinFor / OverlappingBinsFor
    (the unplaced position -1). *)
From Coq Require Import ZArith Lia List Bool.
From Hts Require Import Base.Prim Base.Bits Base.BinArith Generated
  Model.SamSpecArith Model.Bins.
Import ListNotations.
Open Scope Z_scope.

(** [count_up] (specification), [zrange] (model) and [zcount] (Base/BinArith.v)
    are the same function. *)
Lemma count_up_zcount b n : count_up b n = zcount b n.
Proof. revert b; induction n; intros; simpl; [reflexivity|]. rewrite IHn. reflexivity. Qed.

Lemma zrange_zcount b n : zrange b n = zcount b n.
Proof. revert b; induction n; intros; simpl; [reflexivity|]. rewrite IHn. reflexivity. Qed.

Lemma In_range_incl x lo hi : In x (range_incl lo hi) <-> lo <= x <= hi.
Proof. unfold range_incl. rewrite count_up_zcount, In_zcount. lia. Qed.

Lemma NoDup_range_incl lo hi : NoDup (range_incl lo hi).
Proof. unfold range_incl. rewrite count_up_zcount. apply NoDup_zcount. Qed.

Lemma loop_u32_spec b e : e < 2 ^ 32 - 1 -> loop_u32 b e = Ok (range_incl b e).
Proof.
  intros H. unfold loop_u32, range_incl. destruct (Z.eqb_spec e (2 ^ 32 - 1)); [lia|].
  rewrite zrange_zcount, <- count_up_zcount. reflexivity.
Qed.

Lemma NoDup_app_intro {A} (a b : list A) :
  NoDup a -> NoDup b -> (forall x, In x a -> ~ In x b) -> NoDup (a ++ b).
Proof.
  induction a as [|x a IH]; intros Ha Hb Hd; [assumption|].
  inversion Ha as [|? ? Hx Ha']; subst. cbn [app]. constructor.
  - rewrite in_app_iff. intros [H|H]; [contradiction|]. apply (Hd x); [left; reflexivity|assumption].
  - apply IH; try assumption. intros y Hy. apply Hd. right. assumption.
Qed.

Lemma shiftr_le_pow (a s k : Z) : 0 <= s -> 0 <= k -> a <= 2 ^ (s + k) -> Z.shiftr a s <= 2 ^ k.
Proof.
  intros Hs Hk H. rewrite shiftr_div by assumption.
  apply Z.div_le_upper_bound; [apply Z.pow_pos_nonneg; lia|].
  rewrite <- Z.pow_add_r by lia. assumption.
Qed.

(** [x >> s] is the number of the tile of width [2^s] that holds [x]. Tile [i]
    meets [b, e) iff [i] lies between the tiles of the two ends; it contains
    [b, e) iff it is the tile of both. *)
Lemma tile_meets b e i s :
  0 <= s -> (Z.shiftr b s <= i <= Z.shiftr (e - 1) s <-> i * 2 ^ s < e /\ b < (i + 1) * 2 ^ s).
Proof. intros Hs. rewrite (shiftr_le_iff b), (shiftr_ge_iff (e - 1)) by assumption. lia. Qed.

Lemma tile_contains b e i s :
  0 <= s -> b < e ->
  (Z.shiftr b s = i /\ Z.shiftr (e - 1) s = i <-> i * 2 ^ s <= b /\ e <= (i + 1) * 2 ^ s).
Proof.
  intros Hs Hbe. pose proof (shiftr_mono b (e - 1) s Hs ltac:(lia)).
  pose proof (shiftr_ge_iff b i s Hs). pose proof (shiftr_le_iff (e - 1) i s Hs). lia.
Qed.

(** BinFor and OverlappingBinsFor are the functions of SAMv1 5.3 also at the
    unplaced position -1, where [uint32(beg >> shift)] is 2^32-1 and adding the
    level offset wraps back. *)
Lemma shiftr_i32 x s : 0 <= s -> -1 <= x < 2 ^ 31 -> -1 <= Z.shiftr x s < 2 ^ 31.
Proof.
  intros Hs Hx. split.
  - rewrite <- (shiftr_neg1 s Hs). apply shiftr_mono; lia.
  - rewrite shiftr_div by assumption.
    assert (0 < 2 ^ s) by (apply Z.pow_pos_nonneg; lia).
    apply Z.div_lt_upper_bound; [assumption|]. nia.
Qed.

Lemma bin_nowrap off x s :
  0 <= s -> 1 <= off < 2 ^ 31 -> -1 <= x < 2 ^ 31 ->
  u32 (off + u32 (Z.shiftr x s)) = off + Z.shiftr x s.
Proof. intros Hs Ho Hx. apply u32_add_small. pose proof (shiftr_i32 x s Hs Hx). lia. Qed.

Lemma binfor_is_spec_gen b e :
  -1 <= b < 2 ^ 31 -> internal_BinFor b e = Ok (spec_reg2bin b e).
Proof.
  intros Hb. unfold internal_BinFor, spec_reg2bin. cbv zeta.
  rewrite !bin_nowrap by lia.
  do 5 (destruct (_ =? _); [reflexivity|]). reflexivity.
Qed.

Fixpoint spec_levels (ls : list (Z * Z)) (beg e : Z) : list Z :=
  match ls with
  | [] => []
  | (off, sh) :: tl =>
      range_incl (off + Z.shiftr beg sh) (off + Z.shiftr e sh) ++ spec_levels tl beg e
  end.

Definition level_ok (p : Z * Z) : Prop := 1 <= fst p < 2 ^ 31 /\ 0 <= snd p.

Lemma obf_loop_spec ls b e acc :
  Forall level_ok ls -> -1 <= b < 2 ^ 31 -> -1 <= e < 2 ^ 31 ->
  obf_loop ls b e acc = Ok (acc ++ spec_levels ls b e).
Proof.
  intros Hls Hb He. revert acc. induction Hls as [|[off sh] tl [Ho Hs] _ IH]; intros acc; simpl.
  - rewrite app_nil_r. reflexivity.
  - simpl in Ho, Hs. rewrite !bin_nowrap by lia.
    pose proof (shiftr_i32 e sh Hs He).
    rewrite loop_u32_spec by lia. simpl. rewrite IH, <- app_assoc. reflexivity.
Qed.

Lemma bai_levels_ok : Forall level_ok bai_levels.
Proof. repeat apply Forall_cons; try apply Forall_nil; cbv; repeat split; (reflexivity || discriminate). Qed.

Lemma obf_is_spec_gen b e :
  -1 <= b < 2 ^ 31 -> 0 <= e <= 2 ^ 31 ->
  overlapping_bins_for b e = Ok (spec_reg2bins b e).
Proof.
  intros Hb He. unfold overlapping_bins_for. cbv zeta.
  rewrite obf_loop_spec by (try apply bai_levels_ok; lia).
  unfold spec_reg2bins, bai_levels, spec_levels. cbv zeta. rewrite app_nil_r. reflexivity.
Qed.

Lemma spec_t0 depth : 0 <= depth ->
  (Z.shiftl 1 (depth * 3) - 1) / 7 = geo8 (Z.to_nat depth).
Proof.
  intros H. rewrite shiftl_1 by lia. rewrite geo8_div, Z2Nat.id by lia.
  rewrite pow8_pow2 by lia. f_equal. f_equal. f_equal. lia.
Qed.

Lemma geo8_step_down n : geo8 (S n) - Z.shiftl 1 (Z.of_nat n * 3) = geo8 n.
Proof.
  cbn [geo8]. rewrite shiftl_1 by lia. rewrite pow8_pow2 by lia.
  replace (Z.of_nat n * 3) with (3 * Z.of_nat n) by lia. lia.
Qed.

Lemma geo8_step_up n : geo8 n + Z.shiftl 1 (Z.of_nat n * 3) = geo8 (S n).
Proof. pose proof (geo8_step_down n). lia. Qed.

Lemma geo8_mono m m' : (m <= m')%nat -> geo8 m <= geo8 m'.
Proof.
  induction 1 as [|m' _ IH]; [lia|]. cbn [geo8].
  assert (0 < 8 ^ Z.of_nat m') by (apply Z.pow_pos_nonneg; lia). lia.
Qed.

Lemma geo8_small l : (l <= 11)%nat -> 0 <= geo8 l < 2 ^ 31.
Proof. intros H. pose proof (geo8_nonneg l). pose proof (geo8_bound l H). rewrite geo8_11 in *. lia. Qed.

Lemma geo8_level_offset m : geo8 m = level_offset (Z.of_nat m).
Proof. unfold level_offset. apply geo8_div. Qed.

Section Levels.
  (** [sh m] is the shift of level [m] (tiles get 8 times smaller per level),
      [top] the width of the whole range in bits. *)
  Variable sh : nat -> Z.
  Variable top : Z.
  Hypothesis sh_S : forall m, sh (S m) = sh m - 3.
  Hypothesis sh_0 : sh 0 = top.

  Lemma sh_top m : top = sh m + 3 * Z.of_nat m.
  Proof. induction m as [|m IH]; [lia|]. rewrite sh_S. lia. Qed.

  Lemma bin_lt_next l x :
    0 <= sh l -> x < 2 ^ top -> geo8 l + Z.shiftr x (sh l) < geo8 (S l).
  Proof.
    intros Hs Hx. rewrite (sh_top l) in Hx. apply shiftr_lt_pow in Hx; [|assumption|lia].
    rewrite <- pow8_pow2 in Hx by lia. cbn [geo8]. lia.
  Qed.

  (** reg2bin climbs from the finest level to the first level [m] on which
      both ends lie in one tile; [m = 0] if there is none. *)
  Lemma spec_reg2bin_loop_char n b e :
    exists m, (m <= n)%nat /\
      spec_csi_reg2bin_loop n b e (sh n) (geo8 n)
        = match m with O => 0 | _ => geo8 m + Z.shiftr b (sh m) end /\
      (m <> O -> Z.shiftr b (sh m) = Z.shiftr e (sh m)) /\
      forall j, (m < j <= n)%nat -> Z.shiftr b (sh j) <> Z.shiftr e (sh j).
  Proof.
    induction n as [|n (m & Hm & Hr & He & Hj)]; cbn [spec_csi_reg2bin_loop].
    - exists O. repeat split; [lia|congruence|lia].
    - destruct (Z.eqb_spec (Z.shiftr b (sh (S n))) (Z.shiftr e (sh (S n)))) as [E|E].
      + exists (S n). repeat split; [lia|auto|lia].
      + rewrite geo8_step_down, sh_S, Z.sub_add. exists m. repeat split; [lia|assumption..|].
        intros j Hj'. destruct (Nat.eq_dec j (S n)) as [->|]; [assumption|apply Hj; lia].
  Qed.

  Lemma In_spec_reg2bins_loop k todo : forall l b e,
    In k (spec_csi_reg2bins_loop todo (Z.of_nat l) b e (sh l) (geo8 l)) <->
    exists m, (l <= m < l + todo)%nat /\
      geo8 m + Z.shiftr b (sh m) <= k <= geo8 m + Z.shiftr e (sh m).
  Proof.
    induction todo as [|todo IH]; intros l b e; cbn [spec_csi_reg2bins_loop].
    - split; [intros []|]. intros (m & Hm & _). lia.
    - rewrite in_app_iff, In_range_incl, geo8_step_up, <- sh_S.
      replace (Z.of_nat l + 1) with (Z.of_nat (S l)) by lia. rewrite IH. split.
      + intros [H|(m & Hm & H)]; [exists l|exists m]; (split; [lia|assumption]).
      + intros (m & Hm & H). destruct (Nat.eq_dec m l) as [->|]; [left; assumption|].
        right. exists m. split; [lia|assumption].
  Qed.

  (** Level [l] ends below [geo8 (S l)], where the finer levels begin. *)
  Lemma NoDup_spec_reg2bins_loop todo : forall l b e,
    (forall m, (m < l + todo)%nat -> 0 <= sh m) -> 0 <= b -> e < 2 ^ top ->
    NoDup (spec_csi_reg2bins_loop todo (Z.of_nat l) b e (sh l) (geo8 l)).
  Proof.
    induction todo as [|todo IH]; intros l b e Hs Hb He; cbn [spec_csi_reg2bins_loop]; [constructor|].
    rewrite geo8_step_up, <- sh_S. replace (Z.of_nat l + 1) with (Z.of_nat (S l)) by lia.
    apply NoDup_app_intro.
    - apply NoDup_range_incl.
    - apply IH; try assumption. intros m Hm. apply Hs. lia.
    - intros k Hk Hin. apply In_range_incl in Hk.
      apply In_spec_reg2bins_loop in Hin as (m & Hm & Hlo & _).
      pose proof (bin_lt_next l e (Hs l ltac:(lia)) He).
      pose proof (shiftr_nonneg b (sh m) Hb).
      pose proof (geo8_mono (S l) m ltac:(lia)). lia.
  Qed.

  (** Up to level 10 every bin number is below [geo8 11 < 2^31], so the Go
      loops, which compute in uint32, never wrap. *)
  Lemma bin_small l x :
    (l <= 10)%nat -> 0 <= sh l -> 0 <= x <= 2 ^ top ->
    0 <= geo8 l + Z.shiftr x (sh l) < 2 ^ 31.
  Proof.
    intros Hl Hs [Hx0 Hx]. pose proof (geo8_nonneg l). pose proof (geo8_small (S l) ltac:(lia)) as Hg.
    pose proof (shiftr_nonneg x (sh l) Hx0).
    rewrite (sh_top l) in Hx. apply shiftr_le_pow in Hx; [|assumption|lia].
    rewrite <- pow8_pow2 in Hx by lia. cbn [geo8] in Hg. lia.
  Qed.

  Lemma csi_t_step n : (n <= 10)%nat ->
    u32 (geo8 (S n) - u32 (Z.shiftl 1 (u32 (u32 (Z.of_nat (S n) - 1) * csi_nextBinShift)))) = geo8 n.
  Proof.
    intros H. change csi_nextBinShift with 3.
    replace (Z.of_nat (S n) - 1) with (Z.of_nat n) by lia.
    rewrite (u32_id (Z.of_nat n)), (u32_id (Z.of_nat n * 3)) by lia.
    rewrite u32_sub_u32, geo8_step_down. apply u32_id.
    pose proof (geo8_small n ltac:(lia)). lia.
  Qed.

  Lemma csi_t_up l : (l <= 10)%nat ->
    u32 (geo8 l + u32 (Z.shiftl 1 (u32 (Z.of_nat l * csi_nextBinShift)))) = geo8 (S l).
  Proof.
    intros H. change csi_nextBinShift with 3. rewrite (u32_id (Z.of_nat l * 3)) by lia.
    rewrite u32_add_u32, geo8_step_up. apply u32_id. pose proof (geo8_small (S l) ltac:(lia)). lia.
  Qed.

  Lemma reg2bin_loop_model n b e :
    (n <= 10)%nat -> 0 <= sh n -> top <= 62 -> 0 <= b <= 2 ^ top ->
    reg2bin_loop n (Z.of_nat n) b e (sh n) (geo8 n) = Ok (spec_csi_reg2bin_loop n b e (sh n) (geo8 n)).
  Proof.
    induction n as [|n IH]; intros Hn Hs H62 Hb; [reflexivity|].
    cbn [reg2bin_loop spec_csi_reg2bin_loop].
    destruct (Z.shiftr b (sh (S n)) =? Z.shiftr e (sh (S n))).
    - rewrite u32_add_small; [reflexivity|]. pose proof (bin_small (S n) b Hn Hs Hb). lia.
    - rewrite csi_t_step, geo8_step_down by lia. change csi_nextBinShift with 3.
      pose proof (sh_top n). rewrite sh_S in *.
      rewrite Z.sub_add, (u32_id (sh n)), (u32_id (Z.of_nat (S n) - 1)) by lia.
      replace (Z.of_nat (S n) - 1) with (Z.of_nat n) by lia.
      apply IH; lia.
  Qed.

  Lemma reg2bins_loop_model todo : forall l b e acc,
    (l + todo <= 11)%nat -> (forall m, (m < l + todo)%nat -> 0 <= sh m) -> top <= 62 ->
    0 <= b <= 2 ^ top -> 0 <= e < 2 ^ top ->
    reg2bins_loop todo (Z.of_nat l) b e (sh l) (geo8 l) acc
    = Ok (acc ++ spec_csi_reg2bins_loop todo (Z.of_nat l) b e (sh l) (geo8 l)).
  Proof.
    induction todo as [|todo IH]; intros l b e acc Hl Hs H62 Hb He;
      cbn [reg2bins_loop spec_csi_reg2bins_loop]; [rewrite app_nil_r; reflexivity|].
    pose proof (Hs l ltac:(lia)) as Hsl.
    pose proof (bin_small l b ltac:(lia) Hsl Hb) as Bb. pose proof (bin_small l e ltac:(lia) Hsl ltac:(lia)) as Be.
    rewrite !u32_add_small, loop_u32_spec by lia. cbn [obind]. clear Bb Be.
    rewrite csi_t_up, geo8_step_up, (u32_id (Z.of_nat l + 1)) by lia.
    change csi_nextBinShift with 3. rewrite <- sh_S.
    replace (Z.of_nat l + 1) with (Z.of_nat (S l)) by lia.
    destruct todo as [|todo].
    - cbn. rewrite app_nil_r. reflexivity.
    - pose proof (Hs (S l) ltac:(lia)). pose proof (sh_top (S l)).
      rewrite (u32_id (sh (S l))), IH, <- app_assoc by (try lia; intros; apply Hs; lia). reflexivity.
  Qed.
End Levels.

Lemma level_shift_S ms depth m :
  level_shift ms depth (Z.of_nat (S m)) = level_shift ms depth (Z.of_nat m) - 3.
Proof. unfold level_shift. lia. Qed.

Lemma level_shift_0 ms depth : level_shift ms depth (Z.of_nat 0) = ms + 3 * depth.
Proof. unfold level_shift. lia. Qed.

Lemma level_shift_depth ms depth : 0 <= depth -> level_shift ms depth (Z.of_nat (Z.to_nat depth)) = ms.
Proof. unfold level_shift. lia. Qed.

Lemma spec_csi_reg2bin_char b e ms depth :
  0 <= depth ->
  exists m, (m <= Z.to_nat depth)%nat /\
    spec_csi_reg2bin b e ms depth
      = match m with O => 0 | _ => geo8 m + Z.shiftr b (level_shift ms depth (Z.of_nat m)) end /\
    (m <> O -> Z.shiftr b (level_shift ms depth (Z.of_nat m))
               = Z.shiftr (e - 1) (level_shift ms depth (Z.of_nat m))) /\
    forall j, (m < j <= Z.to_nat depth)%nat ->
      Z.shiftr b (level_shift ms depth (Z.of_nat j)) <> Z.shiftr (e - 1) (level_shift ms depth (Z.of_nat j)).
Proof.
  intros Hd. unfold spec_csi_reg2bin. rewrite spec_t0 by assumption.
  pose proof (spec_reg2bin_loop_char _ (level_shift_S ms depth) (Z.to_nat depth) b (e - 1)) as H.
  cbv beta in H. rewrite level_shift_depth in H by assumption. exact H.
Qed.

Lemma In_spec_csi_reg2bins k b e ms depth :
  0 <= depth ->
  (In k (spec_csi_reg2bins b e ms depth) <->
   exists m, (m <= Z.to_nat depth)%nat /\
     geo8 m + Z.shiftr b (level_shift ms depth (Z.of_nat m)) <= k
     <= geo8 m + Z.shiftr (e - 1) (level_shift ms depth (Z.of_nat m))).
Proof.
  intros Hd. unfold spec_csi_reg2bins. rewrite (Z.mul_comm depth 3), <- level_shift_0.
  rewrite (In_spec_reg2bins_loop _ (level_shift_S ms depth) k _ 0).
  split; intros (m & Hm & H); exists m; (split; [lia|assumption]).
Qed.

Lemma csi_bins_exact_spec k b e ms depth :
  0 <= ms -> 0 <= depth ->
  (In k (spec_csi_reg2bins b e ms depth) <->
   exists m i, (m <= Z.to_nat depth)%nat /\ k = geo8 m + i /\
     bin_lo ms depth (Z.of_nat m) i < e /\ b < bin_hi ms depth (Z.of_nat m) i).
Proof.
  intros Hms Hd. rewrite In_spec_csi_reg2bins by assumption. unfold bin_lo, bin_hi. split.
  - intros (m & Hm & H). exists m, (k - geo8 m).
    rewrite <- tile_meets by (unfold level_shift; lia). split; [assumption|]. split; lia.
  - intros (m & i & Hm & -> & H). exists m.
    rewrite <- tile_meets in H by (unfold level_shift; lia). split; [assumption|lia].
Qed.

Lemma csi_bin_smallest_spec b e ms depth :
  0 <= ms -> 0 <= depth -> 0 <= b < e -> e <= 2 ^ (ms + 3 * depth) ->
  exists m i, (m <= Z.to_nat depth)%nat /\ spec_csi_reg2bin b e ms depth = geo8 m + i /\
    bin_lo ms depth (Z.of_nat m) i <= b /\ e <= bin_hi ms depth (Z.of_nat m) i /\
    forall j i', (m < j <= Z.to_nat depth)%nat ->
      ~ (bin_lo ms depth (Z.of_nat j) i' <= b /\ e <= bin_hi ms depth (Z.of_nat j) i').
Proof.
  intros Hms Hd Hb He.
  destruct (spec_csi_reg2bin_char b e ms depth Hd) as (m & Hm & -> & E & Hmin).
  assert (C : forall j i, (j <= Z.to_nat depth)%nat ->
    (Z.shiftr b (level_shift ms depth (Z.of_nat j)) = i /\ Z.shiftr (e - 1) (level_shift ms depth (Z.of_nat j)) = i
     <-> bin_lo ms depth (Z.of_nat j) i <= b /\ e <= bin_hi ms depth (Z.of_nat j) i)).
  { intros j i Hj. apply tile_contains; [unfold level_shift|]; lia. }
  exists m, (match m with O => 0 | _ => Z.shiftr b (level_shift ms depth (Z.of_nat m)) end).
  split; [assumption|]. split; [destruct m; reflexivity|].
  rewrite <- and_assoc. split.
  - destruct m as [|m].
    + unfold bin_lo, bin_hi. rewrite level_shift_0. lia.
    + apply C; [assumption|]. rewrite <- E by discriminate. split; reflexivity.
  - intros j i' Hj Hc. apply C in Hc as [<- Hc]; [|lia]. exact (Hmin j Hj (eq_sym Hc)).
Qed.

(** The bin contains its interval, so it meets every query that overlaps the
    interval, and the list has every bin that meets the query. *)
Lemma csi_bin_in_bins_spec ms depth b1 e1 b2 e2 :
  0 <= ms -> 0 <= depth ->
  0 <= b1 < e1 -> e1 <= 2 ^ (ms + 3 * depth) -> b1 < e2 -> b2 < e1 ->
  In (spec_csi_reg2bin b1 e1 ms depth) (spec_csi_reg2bins b2 e2 ms depth).
Proof.
  intros Hms Hd H1 H2 H3 H4.
  destruct (csi_bin_smallest_spec b1 e1 ms depth) as (m & i & Hm & -> & Hlo & Hhi & _); try lia.
  apply csi_bins_exact_spec; try assumption. exists m, i. repeat split; [assumption|lia..].
Qed.

Lemma spec_csi_reg2bin_range b e ms depth :
  0 <= ms -> 0 <= depth -> 0 <= b < 2 ^ (ms + 3 * depth) ->
  0 <= spec_csi_reg2bin b e ms depth < geo8 (S (Z.to_nat depth)).
Proof.
  intros Hms Hd Hb. destruct (spec_csi_reg2bin_char b e ms depth Hd) as (m & Hm & -> & _).
  pose proof (geo8_mono (S m) (S (Z.to_nat depth)) ltac:(lia)). pose proof (geo8_nonneg m).
  pose proof (bin_lt_next _ _ (level_shift_S ms depth) (level_shift_0 ms depth) m b) as B.
  cbv beta in B. unfold level_shift in B at 1. specialize (B ltac:(lia) ltac:(lia)).
  pose proof (shiftr_nonneg b (level_shift ms depth (Z.of_nat m)) ltac:(lia)).
  destruct m; [pose proof (geo8_mono 1 (S (Z.to_nat depth)) ltac:(lia)); cbn in *|]; lia.
Qed.

Lemma csi_t0_geo8 depth : 0 <= depth <= 10 -> csi_t0 depth = geo8 (Z.to_nat depth).
Proof.
  intros H. unfold csi_t0. change csi_nextBinShift with 3.
  rewrite (u32_id (depth * 3)) by lia.
  rewrite shiftl_1 by lia.
  pose proof (Z.pow_le_mono_r 2 (depth * 3) 30 ltac:(lia) ltac:(lia)).
  assert (0 < 2 ^ (depth * 3)) by (apply Z.pow_pos_nonneg; lia).
  rewrite (u32_id (2 ^ (depth * 3))) by lia.
  rewrite (u32_id (2 ^ (depth * 3) - 1)) by lia.
  rewrite Z.quot_div_nonneg by lia.
  rewrite <- (shiftl_1 (depth * 3)) by lia. rewrite spec_t0 by lia.
  apply u32_id. pose proof (geo8_small (Z.to_nat depth) ltac:(lia)). lia.
Qed.

Lemma csi_reg2bin_is_spec_gen b e ms depth :
  0 <= ms -> 0 <= depth <= 10 -> ms + 3 * depth <= 62 ->
  0 <= b <= 2 ^ (ms + 3 * depth) -> 0 <= e <= 2 ^ (ms + 3 * depth) ->
  csi_reg2bin b e ms depth = Ok (spec_csi_reg2bin b e ms depth).
Proof.
  intros Hms Hd H62 Hb He. unfold csi_reg2bin, spec_csi_reg2bin. cbv zeta.
  pose proof (Z.pow_le_mono_r 2 (ms + 3 * depth) 62 ltac:(lia) ltac:(lia)).
  rewrite s64_id, csi_t0_geo8, spec_t0 by lia.
  pose proof (reg2bin_loop_model _ _ (level_shift_S ms depth) (level_shift_0 ms depth) (Z.to_nat depth) b (e - 1)) as M.
  cbv beta in M. rewrite level_shift_depth, Z2Nat.id in M by lia. apply M; lia.
Qed.

Lemma csi_reg2bins_is_spec_gen b e ms depth :
  0 <= ms -> 0 <= depth <= 10 -> ms + 3 * depth <= 62 ->
  0 <= b <= 2 ^ (ms + 3 * depth) -> 1 <= e <= 2 ^ (ms + 3 * depth) ->
  csi_reg2bins b e ms depth = Ok (spec_csi_reg2bins b e ms depth).
Proof.
  intros Hms Hd H62 Hb He. unfold csi_reg2bins, spec_csi_reg2bins. cbv zeta.
  pose proof (Z.pow_le_mono_r 2 (ms + 3 * depth) 62 ltac:(lia) ltac:(lia)).
  rewrite s64_id by lia. change csi_nextBinShift with 3.
  rewrite (u32_id (depth * 3)), (u32_id (ms + depth * 3)) by lia.
  rewrite (Z.mul_comm depth 3), <- level_shift_0.
  refine (reg2bins_loop_model _ _ (level_shift_S ms depth) (level_shift_0 ms depth)
            (S (Z.to_nat depth)) 0%nat b (e - 1) [] _ _ _ _ _); unfold level_shift; lia.
Qed.

Lemma csi_bin_in_bins_gen ms depth b1 e1 b2 e2 :
  0 <= ms -> 0 <= depth <= 10 -> ms + 3 * depth <= 62 ->
  0 <= b1 -> 0 <= b2 -> b1 < e1 <= 2 ^ (ms + 3 * depth) -> b2 < e2 <= 2 ^ (ms + 3 * depth) ->
  b1 < e2 -> b2 < e1 ->
  exists k l, csi_reg2bin b1 e1 ms depth = Ok k /\ csi_reg2bins b2 e2 ms depth = Ok l /\ In k l.
Proof.
  intros. exists (spec_csi_reg2bin b1 e1 ms depth), (spec_csi_reg2bins b2 e2 ms depth).
  split; [apply csi_reg2bin_is_spec_gen; lia|].
  split; [apply csi_reg2bins_is_spec_gen; lia|].
  apply csi_bin_in_bins_spec; lia.
Qed.

(** An empty query ending at 0 makes the uint32 loop bound wrap to 2^32-1:
    the Go loop never ends (the C code of the specification, with signed
    ints, returns the empty range). *)
Lemma csi_reg2bins_end0_stuck b ms depth :
  0 <= ms -> 0 <= depth <= 10 -> ms + 3 * depth <= 62 ->
  csi_reg2bins b 0 ms depth = Stuck.
Proof.
  intros Hms Hd H62. unfold csi_reg2bins. cbv zeta.
  change (s64 (0 - 1)) with (-1). cbn [reg2bins_loop].
  change csi_nextBinShift with 3.
  rewrite (u32_id (depth * 3)) by lia.
  rewrite (u32_id (ms + depth * 3)) by lia.
  rewrite shiftr_neg1 by lia.
  change (u32 (0 + u32 (-1))) with (2 ^ 32 - 1).
  unfold loop_u32. rewrite Z.eqb_refl. reflexivity.
Qed.

Lemma csi_default_reg2bin_spec b e : spec_csi_reg2bin b e 14 5 = spec_reg2bin b e.
Proof. reflexivity. Qed.

(** The root level of the general list is [beg>>29 .. (end-1)>>29], which is
    the fixed scheme's [0] only inside the indexable range. *)
Lemma csi_default_reg2bins_spec b e :
  0 <= b < 2 ^ 29 -> 1 <= e <= 2 ^ 29 ->
  spec_csi_reg2bins b e 14 5 = spec_reg2bins b e.
Proof.
  intros Hb He.
  unfold spec_csi_reg2bins, spec_reg2bins.
  change (Z.to_nat 5) with 5%nat. cbn [spec_csi_reg2bins_loop].
  cbv zeta. rewrite app_nil_r.
  change (14 + 5 * 3) with 29.
  assert (H : Z.shiftr b 29 = 0) by (rewrite shiftr_div by lia; apply Z.div_small; lia).
  assert (H0 : Z.shiftr (e - 1) 29 = 0) by (rewrite shiftr_div by lia; apply Z.div_small; lia).
  rewrite H, H0.
  reflexivity.
Qed.

Lemma bai_bin_in_bins_spec b1 e1 b2 e2 :
  0 <= b1 -> 0 <= b2 -> b1 < e1 <= 2 ^ 29 -> b2 < e2 <= 2 ^ 29 -> b1 < e2 -> b2 < e1 ->
  In (spec_reg2bin b1 e1) (spec_reg2bins b2 e2).
Proof.
  intros. rewrite <- csi_default_reg2bin_spec, <- csi_default_reg2bins_spec by lia.
  apply csi_bin_in_bins_spec; simpl; lia.
Qed.

Lemma bai_bin_in_bins_gen b1 e1 b2 e2 :
  0 <= b1 -> 0 <= b2 -> b1 < e1 <= 2 ^ 29 -> b2 < e2 <= 2 ^ 29 -> b1 < e2 -> b2 < e1 ->
  exists k l, internal_BinFor b1 e1 = Ok k /\ overlapping_bins_for b2 e2 = Ok l /\ In k l.
Proof.
  intros. exists (spec_reg2bin b1 e1), (spec_reg2bins b2 e2).
  split; [apply binfor_is_spec_gen; lia|].
  split; [apply obf_is_spec_gen; lia|].
  apply bai_bin_in_bins_spec; lia.
Qed.

Lemma csi_bins_nodup_spec b e ms depth :
  0 <= ms -> 0 <= depth -> 0 <= b -> e <= 2 ^ (ms + 3 * depth) ->
  NoDup (spec_csi_reg2bins b e ms depth).
Proof.
  intros Hms Hd Hb He. unfold spec_csi_reg2bins.
  rewrite (Z.mul_comm depth 3), <- level_shift_0.
  apply (NoDup_spec_reg2bins_loop _ _ (level_shift_S ms depth) (level_shift_0 ms depth) _ 0);
    unfold level_shift; lia.
Qed.
