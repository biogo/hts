(** C18 — the model of bam.Merger (Model/Merger.v) only produces runs of the
    abstract merge (Proofs/MergeRun.v); the properties of the output follow. *)
From Coq Require Import ZArith List Bool Lia Permutation.
From Hts Require Import Base.Prim Model.Merger Proofs.MergeRun.
Import ListNotations.
Open Scope Z_scope.

(** The contract of the priority queue (container/heap used through
    bySortOrderAndID): bag laws, totality when the comparison does not panic,
    and an invariant [wf] under which Pop returns an element related by [R] to
    all that remain. *)
Definition cmp_total (cmp : rdr -> rdr -> outcome bool) (l : list rdr) : Prop :=
  forall a b, In a l -> In b l -> exists c, cmp a b = Ok c.

Record pq_spec (cmp : rdr -> rdr -> outcome bool)
       (init : list rdr -> outcome (list rdr))
       (push : list rdr -> rdr -> outcome (list rdr))
       (pop : list rdr -> outcome (rdr * list rdr))
       (wf : list rdr -> Prop) (R : rdr -> list rdr -> Prop) : Prop := {
  bag_init : forall l l', init l = Ok l' -> Permutation l l';
  bag_push : forall q x q', push q x = Ok q' -> Permutation (x :: q) q';
  bag_pop : forall q x q', pop q = Ok (x, q') -> Permutation q (x :: q');
  ok_init : forall l, cmp_total cmp l -> exists l', init l = Ok l';
  ok_push : forall q x, cmp_total cmp (x :: q) -> exists q', push q x = Ok q';
  ok_pop : forall q, q <> [] -> cmp_total cmp q -> exists x q', pop q = Ok (x, q');
  wf_init : forall l l', cmp_total cmp l -> init l = Ok l' -> wf l';
  wf_push : forall q x q', wf q -> cmp_total cmp (x :: q) -> push q x = Ok q' -> wf q';
  wf_pop : forall q x q', wf q -> pop q = Ok (x, q') -> wf q' /\ R x q'
}.

(** reassignReference on one reference id *)
Definition relink1 (ls : list (list Z)) (i a : Z) : outcome Z :=
  if a <? 0 then Ok a else link_of ls i a.

Lemma reassign_some : forall ls i r r',
    reassign (Some ls) i r = Ok r' <->
    exists a b, relink1 ls i (r_ref r) = Ok a /\ relink1 ls i (r_mref r) = Ok b /\
                r' = mkRec (r_uid r) (r_name r) a (r_pos r) b (r_key r).
Proof.
  intros ls i r r'. unfold reassign. fold (relink1 ls i (r_ref r)) (relink1 ls i (r_mref r)).
  split.
  - destruct (relink1 ls i (r_ref r)) as [a | | |]; try discriminate.
    destruct (relink1 ls i (r_mref r)) as [b | | |]; try discriminate.
    intros H. inversion H. eauto.
  - intros (a & b & -> & -> & ->). reflexivity.
Qed.

Definition final_ok (e : Z) (mf : mstate) : Prop :=
  (e = 1 /\ m_err mf = true) \/ (e = 0 /\ mf = mkM [] false).

Section Sim.
  Variable links : option (list (list Z)).

  Definition relink (i : Z) (r : rec) : rec :=
    match reassign links i r with Ok r' => r' | _ => r end.
  Definition okrec (i : Z) (r : rec) : Prop := exists r', reassign links i r = Ok r'.

  Lemma reassign_relink : forall i r, okrec i r -> reassign links i r = Ok (relink i r).
  Proof. intros i r [r' H]. unfold relink. rewrite H. reflexivity. Qed.

  (** Sorted mode: a reader in the queue stands for the stream of its head
      followed by what its input still delivers, re-linked *)
  Definition pend (rd : rdr) : list rec :=
    match d_head rd with
    | Some h => h :: map (relink (d_id rd)) (d_rest rd)
    | None => []
    end.
  Definition abs1 (rd : rdr) : astream := (d_id rd, pend rd, d_fail rd).
  Definition abs (q : list rdr) : astate := map abs1 q.
  Definition rd_ok (rd : rdr) : Prop :=
    d_head rd <> None /\ d_err rd = 0 /\ Forall (okrec (d_id rd)) (d_rest rd).

  Lemma abs_perm : forall q q', Permutation q q' -> Permutation (abs q) (abs q').
  Proof. intros. unfold abs. now apply Permutation_map. Qed.

  (** bySortOrderAndID.Less dereferences both heads and nothing else *)
  Definition has_heads (l : list rdr) : Prop := Forall (fun r => d_head r <> None) l.

  Lemma rless_heads : forall less a b c, rless less a b = Ok c -> d_head a <> None /\ d_head b <> None.
  Proof.
    intros less a b c H. unfold rless in H.
    destruct (d_head a); [| discriminate]. destruct (d_head b); [| discriminate]. split; discriminate.
  Qed.

  Lemma total_heads : forall less q, cmp_total (rless less) q -> has_heads q.
  Proof.
    intros less q H. apply Forall_forall. intros a Ha. destruct (H a a Ha Ha) as [c Hc].
    now apply rless_heads in Hc.
  Qed.

  Lemma heads_total : forall less q, has_heads q -> cmp_total (rless less) q.
  Proof.
    intros less q H a b Ha Hb. unfold has_heads in H. rewrite Forall_forall in H.
    pose proof (H a Ha). pose proof (H b Hb). unfold rless.
    destruct (d_head a); [| contradiction]. destruct (d_head b); [| contradiction]. eexists; reflexivity.
  Qed.

  Lemma rless_total : forall less q, Forall rd_ok q -> cmp_total (rless less) q.
  Proof.
    intros less q H. apply heads_total. eapply Forall_impl; [| exact H]. now intros a [Ha _].
  Qed.

  Section Sorted.
    Variable less : rec -> rec -> bool.
    Variable pq : pqops.
    Variable wf : list rdr -> Prop.
    Variable R : rdr -> list rdr -> Prop.
    Variable P : rec -> astate -> Prop.
    Hypothesis PQ : pq_spec (rless less) (pq_init_of pq (rless less)) (pq_push_of pq (rless less))
                            (pq_pop_of pq (rless less)) wf R.
    Hypothesis R_P : forall rd q0 h, R rd q0 -> d_head rd = Some h -> P h (abs q0).

    (** one Read is one step of the abstract merge *)
    Lemma sorted_step : forall q,
        Forall rd_ok q -> wf q -> q <> [] ->
        exists i h tl fl S0,
          Permutation (abs q) ((i, h :: tl, fl) :: S0) /\ P h S0 /\
          exists q',
            mread pq links (Some less) (mkM q false) = Ok (GotRec i h 0, mkM q' (err_after tl fl)) /\
            Forall rd_ok q' /\ wf q' /\ Permutation (abs q') (after_take i tl fl S0).
    Proof.
      intros q Hok Hwf Hne.
      destruct (ok_pop _ _ _ _ _ _ PQ q Hne (rless_total less q Hok)) as [rd [q0 Hpop]].
      pose proof (bag_pop _ _ _ _ _ _ PQ _ _ _ Hpop) as Hperm.
      destruct (wf_pop _ _ _ _ _ _ PQ _ _ _ Hwf Hpop) as [Hwf0 HR].
      apply (Permutation_Forall Hperm) in Hok. inversion Hok as [| ? ? [Hhead [Herr Hrest]] Hq0]; subst.
      destruct (d_head rd) as [h |] eqn:Eh; [| contradiction].
      exists (d_id rd), h, (map (relink (d_id rd)) (d_rest rd)), (d_fail rd), (abs q0).
      split; [| split; [eauto |]].
      { apply abs_perm in Hperm. simpl in Hperm. unfold abs1 at 1, pend in Hperm. now rewrite Eh in Hperm. }
      destruct q as [| q1 qt]; [contradiction |]. unfold mread. simpl. rewrite Hpop. simpl. rewrite Eh, Herr.
      destruct (d_rest rd) as [| r rest]; simpl.
      - (* the input is exhausted: EOF, or the error is latched *)
        exists q0. split; [now destruct (d_fail rd) | auto].
      - (* the next record becomes the head and the reader is pushed back *)
        inversion Hrest as [| ? ? Hr Hrest']; subst. rewrite (reassign_relink _ _ Hr). simpl.
        set (x := mkRdr (d_id rd) rest (d_fail rd) (Some (relink (d_id rd) r)) 0).
        assert (Hokx : Forall rd_ok (x :: q0)).
        { constructor; [| assumption]. repeat split; [discriminate | exact Hrest']. }
        destruct (ok_push _ _ _ _ _ _ PQ q0 x (rless_total less _ Hokx)) as [q' Hpush].
        pose proof (bag_push _ _ _ _ _ _ PQ _ _ _ Hpush) as Hperm'.
        exists q'. rewrite Hpush. split; [reflexivity |].
        split; [eapply Permutation_Forall; eauto |].
        split; [eapply (wf_push _ _ _ _ _ _ PQ); eauto using rless_total |].
        apply Permutation_sym, (abs_perm (x :: q0)), Hperm'.
    Qed.

    Lemma drain_sorted : forall n q b,
        Forall rd_ok q -> wf q -> (length (aflat (abs q)) < n)%nat ->
        exists outs e mf,
          drain pq links (Some less) n (mkM q b) = (outs, e, mf) /\
          mrun P (abs q) b outs e /\ final_ok e mf.
    Proof.
      induction n as [| n IH]; intros q b Hok Hwf Hn; [lia |].
      cbn [drain]. destruct b.
      - exists [], 1, (mkM q true). split; [reflexivity |]. split; [constructor | left; split; reflexivity].
      - destruct q as [| rd0 qt].
        + exists [], 0, (mkM [] false). split; [reflexivity |]. split; [constructor | right; split; reflexivity].
        + destruct (sorted_step (rd0 :: qt) Hok Hwf ltac:(discriminate))
            as (i & h & tl & fl & S0 & Habs & HP & q' & Hread & Hok' & Hwf' & Hperm').
          rewrite Hread. cbn [Z.eqb].
          destruct (IH q' (err_after tl fl) Hok' Hwf') as (outs & e & mf & Hd & Hrun & Hfin).
          { apply aflat_perm, Permutation_length in Habs, Hperm'.
            rewrite aflat_after in Hperm'.
            change (aflat ((i, h :: tl, fl) :: S0)) with ((i, h) :: map (pair i) tl ++ aflat S0) in Habs.
            cbn [length] in Habs. lia. }
          rewrite Hd. exists ((i, h) :: outs), e, mf. split; [reflexivity |]. split; [| exact Hfin].
          eapply mrun_step; eauto. eapply mrun_perm; eauto.
    Qed.
  End Sorted.

  Fixpoint ins_ok (i : Z) (ins : list input) : Prop :=
    match ins with
    | [] => True
    | inp :: t => Forall (okrec i) (i_recs inp) /\ ins_ok (i + 1) t
    end.

  Fixpoint astreams (i : Z) (ins : list input) : astate :=
    match ins with
    | [] => []
    | inp :: t =>
      match i_recs inp with
      | [] => astreams (i + 1) t
      | _ => (i, map (relink i) (i_recs inp), i_fail inp) :: astreams (i + 1) t
      end
    end.

  Definition efail (ins : list input) : bool :=
    existsb (fun inp => match i_recs inp with [] => i_fail inp | _ => false end) ins.

  Fixpoint tagged (i : Z) (ins : list input) : list (Z * rec) :=
    match ins with
    | [] => []
    | inp :: t => map (pair i) (map (relink i) (i_recs inp)) ++ tagged (i + 1) t
    end.

  Lemma aflat_astreams : forall ins i, aflat (astreams i ins) = tagged i ins.
  Proof.
    induction ins as [| inp t IH]; intros i; simpl; [reflexivity |].
    destruct (i_recs inp) eqn:E; simpl.
    - apply IH.
    - unfold aflat in *. simpl. rewrite IH. reflexivity.
  Qed.

  Lemma tagged_length : forall ins i, length (tagged i ins) = total_recs ins.
  Proof.
    unfold total_recs. induction ins as [| inp t IH]; intros i; simpl; [reflexivity |].
    rewrite !app_length, !map_length, IH. reflexivity.
  Qed.

  Lemma fail_split : forall ins i, efail ins || afail (astreams i ins) = existsb i_fail ins.
  Proof.
    induction ins as [| inp t IH]; intros i; simpl; [reflexivity |].
    unfold efail in *. simpl. destruct (i_recs inp) eqn:E.
    - rewrite <- (IH (i + 1)). destruct (i_fail inp); reflexivity.
    - simpl. unfold afail in *. simpl. unfold s_fail at 1. simpl.
      rewrite <- (IH (i + 1)).
      destruct (i_fail inp); simpl; [now rewrite orb_true_r | reflexivity].
  Qed.

  Lemma init_heads_spec : forall ins i merr,
      ins_ok i ins ->
      exists rs, init_heads links i ins merr = Ok (rs, merr || efail ins) /\
                 Forall rd_ok (filter has_head rs) /\
                 abs (filter has_head rs) = astreams i ins.
  Proof.
    induction ins as [| inp t IH]; intros i merr Hok; simpl.
    - exists []. rewrite orb_false_r. repeat split; constructor.
    - destruct Hok as [Hrecs Ht]. unfold efail. simpl. fold (efail t).
      destruct (i_recs inp) as [| r rest] eqn:E; simpl.
      + destruct (i_fail inp) eqn:Ef.
        * destruct (IH (i + 1) true Ht) as [rs [H1 [H2 H3]]]. rewrite H1. simpl.
          exists (mkRdr i [] true None 2 :: rs). rewrite orb_true_r. simpl.
          split; [reflexivity |]. split; assumption.
        * destruct (IH (i + 1) merr Ht) as [rs [H1 [H2 H3]]]. rewrite H1. simpl.
          exists (mkRdr i [] false None 1 :: rs). simpl.
          split; [reflexivity |]. split; assumption.
      + inversion Hrecs as [| x xs Hr Hrest]; subst.
        rewrite (reassign_relink _ _ Hr). simpl.
        destruct (IH (i + 1) merr Ht) as [rs [H1 [H2 H3]]]. rewrite H1. simpl.
        exists (mkRdr i rest (i_fail inp) (Some (relink i r)) 0 :: rs). simpl.
        split; [reflexivity |]. split.
        * constructor; [| assumption]. unfold rd_ok. simpl.
          split; [discriminate | split; [reflexivity | assumption]].
        * rewrite H3. reflexivity.
  Qed.

  (** Concatenation mode: the readers are always [cat_readers] of what the
      inputs still hold *)
  Definition behead (inp : input) (rest : list rec) : input :=
    mkInput (i_refs inp) (i_so inp) rest (i_fail inp) (i_go inp).

  (** one Read: skip the exhausted inputs that ended cleanly *)
  Fixpoint cat_next (i : Z) (ins : list input) : rd_res * mstate :=
    match ins with
    | [] => (GotEOF, mkM [] false)
    | inp :: t =>
      match i_recs inp with
      | r :: rest => (GotRec i (relink i r) 0, mkM (cat_readers i (behead inp rest :: t)) false)
      | [] => if i_fail inp then (GotErr, mkM (cat_readers i (inp :: t)) true) else cat_next (i + 1) t
      end
    end.

  Lemma mread_cat_next : forall ins i fuel,
      ins_ok i ins -> (length ins < fuel)%nat ->
      mread_cat links fuel (mkM (cat_readers i ins) false) = Ok (cat_next i ins).
  Proof.
    induction ins as [| inp t IH]; intros i fuel Hok Hf; (destruct fuel; [simpl in Hf; lia |]); [reflexivity |].
    destruct Hok as [Hrecs Ht]. simpl in *. destruct (i_recs inp) as [| r rest]; simpl.
    - destruct (i_fail inp); [reflexivity |]. apply IH; [assumption | lia].
    - inversion Hrecs; subst. now rewrite (reassign_relink i r).
  Qed.

  Lemma cat_readers_length : forall ins i, length (cat_readers i ins) = length ins.
  Proof. induction ins; intros; simpl; auto. Qed.

  Lemma drain_cat : forall pq n ins i,
      ins_ok i ins -> (total_recs ins < n)%nat ->
      exists outs e mf rest,
        drain pq links None n (mkM (cat_readers i ins) false) = (outs, e, mf) /\
        tagged i ins = outs ++ rest /\ e = (if existsb i_fail ins then 1 else 0) /\
        (e = 0 -> rest = []) /\ final_ok e mf.
  Proof.
    intros pq n. induction n as [| n IHn]; intros ins i Hok Hn; [lia |].
    assert (Hread : forall ins i, ins_ok i ins ->
              mread pq links None (mkM (cat_readers i ins) false) = Ok (cat_next i ins)).
    { intros. apply mread_cat_next; [assumption | simpl; rewrite cat_readers_length; lia]. }
    revert i Hok. induction ins as [| inp t IHt]; intros i Hok.
    - exists [], 0, (mkM [] false), []. repeat split. right; split; reflexivity.
    - cbn [drain]. rewrite (Hread _ _ Hok). destruct Hok as [Hrecs Ht].
      unfold total_recs in *. cbn [cat_next existsb tagged map concat] in *.
      destruct (i_recs inp) as [| r rest] eqn:E; cbn [map app] in *.
      + destruct (i_fail inp) eqn:Ef; cbn [orb].
        * eexists [], 1, _, _. repeat split; [discriminate | left; split; reflexivity].
        * (* an exhausted input is skipped within the same Read *)
          destruct (IHt Hn (i + 1) Ht) as (outs & e & mf & rest' & Hd & H).
          cbn [drain] in Hd. rewrite (Hread _ _ Ht) in Hd. exists outs, e, mf, rest'. auto.
      + destruct (IHn (behead inp rest :: t) i) as (outs & e & mf & rest' & Hd & Hfl & H).
        * split; [now inversion Hrecs | exact Ht].
        * unfold total_recs. simpl in *. lia.
        * cbn [Z.eqb]. rewrite Hd. exists ((i, relink i r) :: outs), e, mf, rest'.
          simpl in Hfl. rewrite Hfl. auto.
  Qed.
End Sim.
