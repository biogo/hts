(** C02 / C03, rd > 1 — a safety invariant of the schedule-driven model that
    holds for every file, cache, schedule and history: the rd decompressors
    are conserved.  Between API calls every decompressor is in exactly one of
    {waiting, working, held by the parked read-ahead thread}; no call and no
    read-ahead step duplicates or loses one.  (So the channels never overflow:
    their capacity is rd.) *)
From Coq Require Import ZArith List Bool Lia Permutation.
From Hts Require Import Base.Prim Model.Flat Model.Reader Model.ReaderAsync.
Import ListNotations.
Open Scope Z_scope.

Definition tpark (t : tstate) : list nat := match t with TParked d => [d] | TIdle _ => [] end.
Definition tokens (a : astate) : list nat := a_waiting a ++ a_working a ++ tpark (a_t a).

Lemma tokens_as_r a r : tokens (as_r a r) = tokens a. Proof. reflexivity. Qed.
Lemma tokens_dset a i d : tokens (dset a i d) = tokens a. Proof. reflexivity. Qed.
Lemma tokens_as_control a c : tokens (as_control a c) = tokens a. Proof. reflexivity. Qed.
Lemma tokens_as_sched a s : tokens (as_sched a s) = tokens a. Proof. reflexivity. Qed.

Lemma a_fetch_tokens F a i blk off a' : a_fetch F a i blk off = Ok a' -> tokens a' = tokens a.
Proof.
  unfold a_fetch. destruct (r_peekchain _ _ _) as [off'| | |]; try discriminate.
  destruct blk as [b|]; destruct (b_fill F _ off') as [bb e]; intros H; inversion H; reflexivity.
Qed.

(** One iteration of the read-ahead loop, by what the thread can use (the decompressor it is parked
    with, then waiting) and where it aims (the redirect in control, else its loop variable).  [trun]
    is the fetch and the send to working; in [taken a wt] the thread has taken its decompressor and
    emptied control. *)
Definition avail (a : astate) : list nat := tpark (a_t a) ++ a_waiting a.

Definition target (a : astate) : option Z :=
  match a_control a, a_t a with
  | Some v, _ => Some v
  | None, TIdle n => if n <? 0 then None else Some n
  | None, TParked _ => None
  end.

Definition trun (F : file) (a1 : astate) (d : nat) (off : Z) : outcome astate :=
  match a_fetch F a1 d (d_blk (dget a1 d)) off with
  | Ok a2 =>
      Ok (as_t (as_working a2 (a_working a2 ++ [d]))
               (TIdle match d_blk (dget a2 d) with Some bid => b_next (sget (r_st (a_r a2)) bid) | None => -1 end))
  | Err e => Err e | Panic w => Panic w | Stuck => Stuck
  end.

Definition taken (a : astate) (wt : list nat) : astate :=
  mkA (a_r a) (a_decs a) wt (a_working a) None (a_t a) (a_sched a).

Lemma t_step_cases (F : file) (a : astate) :
  t_step F a =
  match avail a, target a with
  | [], _ => None
  | d :: rest, Some off => Some (trun F (taken a rest) d off)
  | d :: rest, None =>
      match a_t a with TIdle _ => Some (Ok (as_t (as_waiting a rest) (TParked d))) | TParked _ => None end
  end.
Proof.
  unfold t_step, trun, taken, avail, target, as_control, as_waiting. cbv zeta.
  destruct (a_control a), (a_t a) as [next|d]; simpl; try reflexivity; destruct (a_waiting a); try reflexivity;
    destruct (next <? 0); reflexivity.
Qed.

Lemma tokens_avail a : Permutation (tokens a) (avail a ++ a_working a).
Proof. unfold tokens, avail. rewrite (app_assoc (a_waiting a)), <- (app_assoc (tpark _)). apply Permutation_app_comm. Qed.

Lemma trun_tokens F a1 d off a2 : trun F a1 d off = Ok a2 -> tokens a2 = a_waiting a1 ++ a_working a1 ++ [d].
Proof.
  unfold trun, a_fetch. destruct (r_peekchain _ _ _) as [off'| | |]; try discriminate.
  destruct (d_blk (dget a1 d)) as [b|]; destruct (b_fill F _ off') as [bb e]; intros H; inversion H;
    unfold tokens; simpl; rewrite app_nil_r; reflexivity.
Qed.

Lemma t_step_tokens F a a' : t_step F a = Some (Ok a') -> Permutation (tokens a') (tokens a).
Proof.
  rewrite t_step_cases, (tokens_avail a). destruct (avail a) as [|d rest] eqn:Ea; [discriminate|].
  assert (Hmove : Permutation (rest ++ a_working a ++ [d]) ((d :: rest) ++ a_working a)).
  { rewrite app_assoc. apply Permutation_sym, Permutation_cons_append. }
  destruct (target a); [|destruct (a_t a) eqn:Ht; [|discriminate]]; intros H; injection H as H.
  - rewrite (trun_tokens _ _ _ _ _ H). exact Hmove.
  - subst a'. exact Hmove.
Qed.

Lemma t_run_tokens F : forall k a a', t_run F k a = Ok a' -> Permutation (tokens a') (tokens a).
Proof.
  induction k as [|k IH]; intros a a' H; simpl in H; [inversion H; reflexivity|].
  destruct (t_step F a) as [[a1| | |]|] eqn:E; try discriminate.
  - rewrite (IH _ _ H). apply (t_step_tokens _ _ _ E).
  - inversion H; reflexivity.
Qed.

Lemma recv_working_tokens F : forall fuel a a' d, recv_working F fuel a = Ok (a', d) -> Permutation (d :: tokens a') (tokens a).
Proof.
  induction fuel as [|fuel IH]; intros a a' d H; simpl in H; destruct (a_working a) as [|x w] eqn:E; try discriminate.
  1,3: inversion H; subst; unfold tokens; simpl; rewrite E; apply Permutation_middle.
  destruct (t_step F a) as [[a1| | |]|] eqn:Et; try discriminate.
  rewrite (IH _ _ _ H). apply (t_step_tokens _ _ _ Et).
Qed.

Lemma send_control_tokens F : forall fuel a v a', send_control F fuel a v = Ok a' -> Permutation (tokens a') (tokens a).
Proof.
  induction fuel as [|fuel IH]; intros a v a' H; simpl in H; destruct (a_control a); try discriminate.
  1,3: inversion H; reflexivity.
  destruct (t_step F a) as [[a1| | |]|] eqn:Et; try discriminate.
  rewrite (IH _ _ _ H). apply (t_step_tokens _ _ _ Et).
Qed.

(** The select of Seek with a channel ready; otherwise the read-ahead thread is stepped. *)
Definition select_now (a : astate) : option (astate * nat * bool) :=
  match a_waiting a, a_working a with
  | d :: w, [] => Some (as_waiting a w, d, false)
  | [], d :: w => Some (as_working a w, d, true)
  | d1 :: w1, d2 :: w2 =>
      let '(x, a1) := pop_sched a in
      Some (if Nat.even x then (as_waiting a1 w1, d1, false) else (as_working a1 w2, d2, true))
  | [], [] => None
  end.

Lemma select_dec_eq F fuel a :
  select_dec F fuel a =
  match select_now a, fuel with
  | Some x, _ => Ok x
  | None, O => Stuck
  | None, S fuel' => match t_step F a with
                     | None => Stuck
                     | Some (Ok a1) => select_dec F fuel' a1
                     | Some (Err e) => Err e | Some (Panic w) => Panic w | Some Stuck => Stuck
                     end
  end.
Proof.
  unfold select_now. destruct fuel; simpl; destruct (a_waiting a), (a_working a); try reflexivity;
    destruct (pop_sched a) as [x a1]; destruct (Nat.even x); reflexivity.
Qed.

Lemma select_now_spec a :
  match select_now a with
  | None => a_waiting a = [] /\ a_working a = []
  | Some x => exists sc d w (fw : bool),
      x = (if fw then as_working (as_sched a sc) w else as_waiting (as_sched a sc) w, d, fw) /\
      (if fw then a_working a else a_waiting a) = d :: w
  end.
Proof.
  unfold select_now, pop_sched.
  destruct (a_waiting a) as [|d1 w1], (a_working a) as [|d2 w2]; [split; reflexivity| | |].
  - exists (a_sched a), d2, w2, true. split; reflexivity.
  - exists (a_sched a), d1, w1, false. split; reflexivity.
  - destruct (a_sched a) as [|x sc] eqn:Hs; [exists [], d1, w1, false; rewrite <- Hs; split; reflexivity|].
    destruct (Nat.even x); [exists sc, d1, w1, false|exists sc, d2, w2, true]; split; reflexivity.
Qed.

Lemma select_dec_tokens F : forall fuel a a' d b, select_dec F fuel a = Ok (a', d, b) -> Permutation (d :: tokens a') (tokens a).
Proof.
  induction fuel as [|fuel IH]; intros a a' d b; rewrite select_dec_eq; pose proof (select_now_spec a) as Hn;
    destruct (select_now a) as [x|]; try discriminate.
  1,2: destruct Hn as (sc & d0 & w & fw & -> & Hw); intros H; injection H as <- <- <-; unfold tokens;
       destruct fw; simpl; rewrite Hw; [apply Permutation_middle|reflexivity].
  destruct (t_step F a) as [[a1| | |]|] eqn:Et; try discriminate.
  intros H. rewrite (IH _ _ _ _ H). apply (t_step_tokens _ _ _ Et).
Qed.

Lemma a_keep_tokens a b a' : a_keep a b = Ok a' -> tokens a' = tokens a.
Proof.
  unfold a_keep. destruct b as [i|]; [|intros H; inversion H; reflexivity].
  destruct (r_cache (a_r a)) as [c|]; [|intros H; inversion H; reflexivity].
  destruct (negb (b_has (sget (r_st (a_r a)) i))); [intros H; inversion H; reflexivity|].
  destruct (c_put (r_st (a_r a)) c i) as [[[c1 x] y]| | |]; try discriminate. intros H; inversion H; reflexivity.
Qed.

(** wait() on a decompressor received from working, current = its block; [give] sends it to waiting. *)
Definition pop (a : astate) (d : nat) : astate :=
  let a2 := dset a d (mkD None (d_err (dget a d))) in as_r a2 (rs_cur (a_r a2) (d_blk (dget a d))).

Definition give (a : astate) (d : nat) : astate := as_waiting a (a_waiting a ++ [d]).

Lemma give_tokens a d : Permutation (tokens (give a d)) (d :: tokens a).
Proof. unfold tokens. simpl. rewrite <- app_assoc. simpl. apply Permutation_sym. apply Permutation_middle. Qed.

Lemma nb_loop_S F (i : nat) (a : astate) (base : Z) :
  nb_loop F (S i) a base =
  match recv_working F (S (length (a_decs a))) a with
  | Ok (a1, d) =>
      let a3 := give (pop a1 d) d in
      if blk_base a1 (d_blk (dget a1 d)) =? base then Ok (a3, d_err (dget a1 d))
      else if d_err (dget a1 d) =? eNil then
             match a_keep a3 (d_blk (dget a1 d)) with
             | Ok a4 => nb_loop F i (as_r a4 (rs_cur (a_r a4) None)) base
             | Err e => Err e | Panic w => Panic w | Stuck => Stuck
             end
           else nb_loop F i a3 base
  | Err e => Err e | Panic w => Panic w | Stuck => Stuck
  end.
Proof. reflexivity. Qed.

Lemma nb_loop_tokens F : forall i a base a' e, nb_loop F i a base = Ok (a', e) -> Permutation (tokens a') (tokens a).
Proof.
  induction i as [|i IH]; intros a base a' e; [discriminate|]. rewrite nb_loop_S.
  destruct (recv_working F (S (length (a_decs a))) a) as [[a1 d]| | |] eqn:Er; try discriminate.
  pose proof (Permutation_trans (give_tokens (pop a1 d) d) (recv_working_tokens _ _ _ _ _ Er)) as P3. cbv zeta.
  destruct (blk_base a1 (d_blk (dget a1 d)) =? base); [intros H; inversion H; subst; exact P3|].
  destruct (d_err (dget a1 d) =? eNil); [|intros H; rewrite (IH _ _ _ _ H); exact P3].
  destruct (a_keep _ (d_blk (dget a1 d))) as [a4| | |] eqn:Ek; try discriminate.
  intros H. rewrite (IH _ _ _ _ H), tokens_as_r, (a_keep_tokens _ _ _ Ek). exact P3.
Qed.

Lemma a_nextBlock_tokens F a a' e : a_nextBlock F a = Ok (a', e) -> Permutation (tokens a') (tokens a).
Proof.
  unfold a_nextBlock. destruct (r_cur (a_r a)) as [i|]; [|discriminate].
  destruct (r_cacheSwap (a_r a) _) as [[r1 [|]]| | |]; try discriminate.
  - intros H; inversion H; reflexivity.
  - intros H. apply nb_loop_tokens in H. exact H.
Qed.

Lemma a_skip_tokens F : forall fuel a a' e, a_skip F fuel a = Ok (a', e) -> Permutation (tokens a') (tokens a).
Proof.
  induction fuel as [|fuel IH]; intros a a' e H; simpl in H; destruct (acur a) as [i|]; try discriminate;
    destruct (b_len (ablk a i) =? 0); try discriminate.
  1,3: inversion H; reflexivity.
  destruct (a_nextBlock F a) as [[a1 e1]| | |] eqn:En; try discriminate.
  pose proof (a_nextBlock_tokens _ _ _ _ En) as P1.
  destruct (e1 =? eNil); [rewrite (IH _ _ _ H)|inversion H; subst]; exact P1.
Qed.

Lemma a_copy_tokens F n : forall fuel a acc a' bs e, a_copy F fuel a n acc = Ok (a', bs, e) -> Permutation (tokens a') (tokens a).
Proof.
  induction fuel as [|fuel IH]; intros a acc a' bs e H; simpl in H; destruct (zlen acc <? n); try discriminate.
  1,3: inversion H; reflexivity.
  destruct (acur a) as [i|]; [|discriminate].
  destruct (b_read (ablk a i) (n - zlen acc)) as [[b bs1] e1].
  destruct (e1 =? eEOF); [|rewrite (IH _ _ _ _ _ H); reflexivity].
  destruct (zlen (acc ++ bs1) =? n); [inversion H; reflexivity|].
  destruct (r_blocked (a_r a)); [inversion H; reflexivity|].
  destruct (a_nextBlock F _) as [[a2 e2]| | |] eqn:En; try discriminate.
  pose proof (a_nextBlock_tokens _ _ _ _ En) as P1.
  destruct (e2 =? eNil); [rewrite (IH _ _ _ _ _ H)|inversion H; subst]; exact P1.
Qed.

Lemma a_read_tokens F a n a' bs e : a_read F a n = Ok (a', bs, e) -> Permutation (tokens a') (tokens a).
Proof.
  unfold a_read. destruct (negb (r_err (a_r a) =? eNil)); [intros H; inversion H; reflexivity|].
  destruct (a_skip F (a_fuel F a) a) as [[a1 e1]| | |] eqn:Es; try discriminate.
  pose proof (a_skip_tokens _ _ _ _ _ Es) as P1.
  destruct (negb (e1 =? eNil)); [intros H; inversion H; subst; exact P1|].
  intros H. apply a_copy_tokens in H. rewrite H. exact P1.
Qed.

Lemma a_readbyte_tokens F a a' bs e : a_readbyte F a = Ok (a', bs, e) -> Permutation (tokens a') (tokens a).
Proof.
  unfold a_readbyte. destruct (negb (r_err (a_r a) =? eNil)); [intros H; inversion H; reflexivity|].
  destruct (a_skip F (a_fuel F a) a) as [[a1 e1]| | |] eqn:Es; try discriminate.
  pose proof (a_skip_tokens _ _ _ _ _ Es) as P1.
  destruct (negb (e1 =? eNil)); [intros H; inversion H; subst; exact P1|].
  destruct (acur _) as [i|]; [|discriminate].
  destruct (b_readbyte _) as [[b bs1] e2].
  destruct (e2 =? eEOF).
  - destruct (r_blocked _); [intros H; inversion H; subst; exact P1|].
    destruct (a_nextBlock F _) as [[a4 e4]| | |] eqn:En; try discriminate.
    pose proof (a_nextBlock_tokens _ _ _ _ En) as P2.
    intros H; inversion H; subst. rewrite tokens_as_r, P2. exact P1.
  - intros H; inversion H; subst. exact P1.
Qed.

(** Seek in pieces: its end in the current block, the attempt on a decompressor received from
    working, the synchronous fetch. *)
Definition afin (f o : Z) (a1 : astate) : outcome (astate * Z) :=
  match acur a1 with
  | None => Panic 3
  | Some i =>
      if negb (b_has (ablk a1 i)) then Panic 4
      else
        let r2 := rs_err (rs_st (a_r a1) (sset (r_st (a_r a1)) i (b_seek (ablk a1 i) o))) eNil in
        Ok (as_r a1 (rs_lc r2 ((f, o), (f, o))), eNil)
  end.

Definition seek_pre (F : file) (fuel : nat) (a2 : astate) (d : nat) (fromWorking : bool) (f : Z) : outcome (astate * bool) :=
  if fromWorking then
    let '(a3, blk, err) := a_wait a2 d in
    if err =? eNil then
      match a_keep a3 blk with
      | Ok a4 =>
          if blk_base a4 blk =? f then
            let a5 := as_r a4 (rs_cur (a_r a4) blk) in
            match send_control F fuel a5 (cur_next a5) with
            | Ok a6 => Ok (give a6 d, true)
            | Err e => Err e | Panic w => Panic w | Stuck => Stuck
            end
          else Ok (a4, false)
      | Err e => Err e | Panic w => Panic w | Stuck => Stuck
      end
    else Ok (a3, false)
  else Ok (a2, false).

Definition seek_sync (F : file) (a3 : astate) (d : nat) (f o : Z) : outcome (astate * Z) :=
  match a_fetch F a3 d (acur a3) f with
  | Ok a4 =>
      let '(a5, blk, err) := a_wait a4 d in
      let a6 := as_r a5 (rs_err (rs_cur (a_r a5) blk) err) in
      let a8 := give (as_control a6 (Some (cur_next a6))) d in
      if negb (err =? eNil) then Ok (a8, err) else afin f o a8
  | Err e => Err e | Panic w => Panic w | Stuck => Stuck
  end.

Lemma a_seek_eq (F : file) (a : astate) (f o : Z) :
  a_seek F a f o =
  match acur a with
  | None => Panic 3
  | Some ci =>
      let cur := ablk a ci in
      if negb (f =? b_base cur) || negb (b_has cur) then
        match r_cacheSwap (a_r a) f with
        | Ok (r1, true) => afin f o (as_r a r1)
        | Ok (r1, false) =>
            match select_dec F (S (length (a_decs a))) (as_r a r1) with
            | Ok (a2, d, fw) =>
                match seek_pre F (S (length (a_decs a))) a2 d fw f with
                | Ok (a3, true) => afin f o a3
                | Ok (a3, false) => seek_sync F a3 d f o
                | Err e => Err e | Panic w => Panic w | Stuck => Stuck
                end
            | Err e => Err e | Panic w => Panic w | Stuck => Stuck
            end
        | Err e => Err e | Panic w => Panic w | Stuck => Stuck
        end
      else afin f o a
  end.
Proof. reflexivity. Qed.

Lemma afin_tokens f o a1 a2 e : afin f o a1 = Ok (a2, e) -> tokens a2 = tokens a1.
Proof.
  unfold afin. destruct (acur a1) as [i|]; [|discriminate].
  destruct (negb (b_has (ablk a1 i))); [discriminate|]. intros H; inversion H; reflexivity.
Qed.

(** In [seek_pre] and [seek_sync] the consumer holds decompressor [d]. *)
Lemma seek_sync_tokens F a3 d f o a9 e : seek_sync F a3 d f o = Ok (a9, e) -> Permutation (tokens a9) (d :: tokens a3).
Proof.
  unfold seek_sync. destruct (a_fetch F a3 d (acur a3) f) as [a4| | |] eqn:Ef; try discriminate.
  rewrite <- (a_fetch_tokens _ _ _ _ _ _ Ef). unfold a_wait. cbv beta iota zeta.
  match goal with |- (if _ then Ok (give ?A _, _) else _) = _ -> _ => pose proof (give_tokens A d) as P8 end.
  destruct (negb (d_err (dget a4 d) =? eNil)); intros H; [inversion H; subst; exact P8|].
  rewrite (afin_tokens _ _ _ _ _ H). exact P8.
Qed.

Lemma seek_pre_tokens F fuel a2 d fw f a3 b : seek_pre F fuel a2 d fw f = Ok (a3, b) ->
  Permutation (if b then tokens a3 else d :: tokens a3) (d :: tokens a2).
Proof.
  unfold seek_pre, a_wait. destruct fw; [|intros H; inversion H; reflexivity].
  destruct (d_err (dget a2 d) =? eNil); [|intros H; inversion H; reflexivity].
  destruct (a_keep _ (d_blk (dget a2 d))) as [a4| | |] eqn:Ek; try discriminate.
  pose proof (a_keep_tokens _ _ _ Ek) as P4. rewrite tokens_dset in P4.
  destruct (blk_base a4 (d_blk (dget a2 d)) =? f); [|intros H; inversion H; subst; rewrite P4; reflexivity].
  destruct (send_control F _ _ _) as [a6| | |] eqn:Es; try discriminate.
  pose proof (send_control_tokens _ _ _ _ _ Es) as P6. rewrite tokens_as_r, P4 in P6.
  intros H; inversion H; subst. rewrite give_tokens, P6. reflexivity.
Qed.

Lemma a_seek_tokens F a f o a' e : a_seek F a f o = Ok (a', e) -> Permutation (tokens a') (tokens a).
Proof.
  rewrite a_seek_eq. destruct (acur a) as [ci|]; [|discriminate]. cbv zeta.
  destruct (negb (f =? b_base (ablk a ci)) || negb (b_has (ablk a ci))); [|intros H; rewrite (afin_tokens _ _ _ _ _ H); reflexivity].
  destruct (r_cacheSwap (a_r a) f) as [[r1 [|]]| | |]; try discriminate.
  - intros H. rewrite (afin_tokens _ _ _ _ _ H). reflexivity.
  - destruct (select_dec F (S (length (a_decs a))) (as_r a r1)) as [[[a2 d] fw]| | |] eqn:Esel; try discriminate.
    pose proof (select_dec_tokens _ _ _ _ _ _ Esel) as P2. rewrite tokens_as_r in P2.
    destruct (seek_pre F _ a2 d fw f) as [[a3 [|]]| | |] eqn:Epre; try discriminate;
      pose proof (seek_pre_tokens _ _ _ _ _ _ _ _ Epre) as P3; cbv iota in P3; intros H.
    + rewrite (afin_tokens _ _ _ _ _ H), P3. exact P2.
    + rewrite (seek_sync_tokens _ _ _ _ _ _ _ H), P3. exact P2.
Qed.

Lemma a_step_tokens F ch a o a' r : a_step F ch a o = Ok (a', r) -> Permutation (tokens a') (tokens a).
Proof.
  unfold a_step.
  assert (Hpop : tokens (snd (pop_sched a)) = tokens a) by (unfold pop_sched; destruct (a_sched a); reflexivity).
  destruct (pop_sched a) as [k a1]. simpl in Hpop.
  destruct (t_run F k a1) as [a2| | |] eqn:Et; try discriminate.
  pose proof (t_run_tokens _ _ _ _ Et) as P2. rewrite Hpop in P2.
  assert (Hseek : forall f b, match a_seek F a2 f b with Ok (a', e) => Ok (a', ([] : list Z, e))
                              | Err e => Err e | Panic w => Panic w | Stuck => Stuck end = Ok (a', r) ->
                              Permutation (tokens a') (tokens a)).
  { intros f b. destruct (a_seek F a2 f b) as [[a3 e]| | |] eqn:E; try discriminate.
    intros H; inversion H; subst. rewrite (a_seek_tokens _ _ _ _ _ _ E). exact P2. }
  destruct o as [f b|n| |b| |kk cap].
  - apply Hseek.
  - destruct (a_read F a2 n) as [[[a3 bs] e]| | |] eqn:E; try discriminate.
    intros H; inversion H; subst. rewrite (a_read_tokens _ _ _ _ _ _ E). exact P2.
  - destruct (a_readbyte F a2) as [[[a3 bs] e]| | |] eqn:E; try discriminate.
    intros H; inversion H; subst. rewrite (a_readbyte_tokens _ _ _ _ _ E). exact P2.
  - intros H; inversion H; subst. exact P2.
  - destruct (fst (r_lc (a_r a2))) as [f b]. apply Hseek.
  - intros H; inversion H; subst. exact P2.
Qed.

Fixpoint a_exec (F : file) (ch : list nat) (a : astate) (ops : list rop) : outcome astate :=
  match ops with
  | [] => Ok a
  | o :: ops' => match a_step F ch a o with
                 | Ok (a', _) => a_exec F ch a' ops'
                 | Err e => Err e | Panic w => Panic w | Stuck => Stuck
                 end
  end.

Lemma a_exec_tokens (F : file) (ch : list nat) : forall ops a a',
  a_exec F ch a ops = Ok a' -> Permutation (tokens a') (tokens a).
Proof.
  induction ops as [|o ops IH]; intros a a' H; simpl in H.
  - inversion H; reflexivity.
  - destruct (a_step F ch a o) as [[a1 r]| | |] eqn:E; try discriminate.
    rewrite (IH _ _ H). apply (a_step_tokens _ _ _ _ _ _ E).
Qed.

Lemma a_init_tokens (F : file) (rd : nat) (sched : list nat) :
  (1 <= rd)%nat -> Permutation (tokens (fst (a_init F rd sched))) (seq 0 rd).
Proof.
  intros Hrd. unfold a_init. destruct (r_init F) as [r e]. unfold tokens. simpl. rewrite app_nil_r.
  destruct rd as [|rd']; [lia|]. simpl. rewrite Nat.sub_0_r.
  apply Permutation_sym. apply Permutation_cons_append.
Qed.

Lemma tokens_bound (a : astate) (rd : nat) :
  Permutation (tokens a) (seq 0 rd) -> (length (a_waiting a) + length (a_working a) <= rd)%nat.
Proof.
  intros P. apply Permutation_length in P. unfold tokens in P. rewrite !app_length, seq_length in P. lia.
Qed.
