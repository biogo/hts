(** C16: Cigar.IsValid (the Go loop with its early returns and its c[i-1] /
    c[i+1] look-ups) decides exactly the validity rules of SAMv1 1.4: the loop
    computes the boolean recursion [code_valid_from] with the code's local
    neighbour rule; that recursion is the conjunction of three independent
    rules; the local rule and the specification's global rule accept the same
    lists. *)
From Coq Require Import ZArith Lia List Bool Btauto.
From Hts Require Import Base.Prim Base.Bits Generated
  Model.SamSpecArith Model.Cigar Proofs.Cigar.
Import ListNotations.
Open Scope Z_scope.

(** The rule the code applies at one position: a local look at the
    neighbours instead of the specification's "only H between here and the end". *)
Definition inner_b (before after : list sop) : bool :=
  match before, after with [], _ => false | _, [] => false | _, _ => true end.

Definition code_clip_at (before : list sop) (x : sop) (after : list sop) : bool :=
  negb (is_H x && inner_b before after)
  && negb (is_S x && inner_b before after && negb (is_H (last before x)) && negb (is_H (hd x after))).

Fixpoint all_splits (P : list sop -> sop -> list sop -> bool) (before rest : list sop) : bool :=
  match rest with
  | [] => true
  | x :: tl => P before x tl && all_splits P (before ++ [x]) tl
  end.

Fixpoint code_valid_from (before rest : list sop) (len off : Z) : bool :=
  match rest with
  | [] => len =? 0
  | x :: tl =>
      code_clip_at before x tl
      && negb ((off <? 0) && consumes_query (fst x))
      && code_valid_from (before ++ [x]) tl (len - snd x * coeff_q (fst x)) (off + snd x * coeff_r (fst x))
  end.

Lemma cigar_at_mid pre x tl : cigar_at (pre ++ x :: tl) (zlen pre) = Ok x.
Proof.
  unfold cigar_at, inb, getz, zlen. rewrite app_length, Nat2Z.id, nth_middle. cbn [length].
  replace (_ && _) with true; [reflexivity|].
  symmetry. apply andb_true_intro. split; [apply Z.leb_le|apply Z.ltb_lt]; lia.
Qed.

Lemma type_is_not_at pre x tl o n :
  cop_of_code (spec_op_code x) = Some o ->
  type_is_not (pre ++ x :: tl) (zlen pre) sam_CigarHardClipped = Ok (negb (is_H (o, n))).
Proof.
  intros Ho. unfold type_is_not. rewrite cigar_at_mid. cbn [obind].
  rewrite type_is_mod. cbn [obind]. rewrite (code_is_H _ _ n Ho). reflexivity.
Qed.

Lemma inner_eq (pre : list Z) (w : Z) (tl : list Z) (spre stl : list sop) :
  length spre = length pre -> length stl = length tl ->
  negb (zlen pre =? 0) && negb (zlen pre =? zlen (pre ++ w :: tl) - 1) = inner_b spre stl.
Proof.
  intros H1 H2. rewrite zlen_app. unfold zlen. cbn [length]. rewrite <- H1, <- H2.
  destruct spre, stl; try reflexivity; cbn [length inner_b];
    do 2 (lazymatch goal with |- context [?a =? ?b] => destruct (Z.eqb_spec a b); try lia end); reflexivity.
Qed.

(** The neighbour look-ups of an inner S. *)
Lemma bad_value pre w tl spre stl o :
  spec_decode pre = Some spre -> spec_decode tl = Some stl ->
  cop_of_code (spec_op_code w) = Some o ->
  (if is_S (o, spec_op_len w) && inner_b spre stl
   then obind (type_is_not (pre ++ w :: tl) (zlen pre - 1) sam_CigarHardClipped) (fun l =>
          if l then type_is_not (pre ++ w :: tl) (zlen pre + 1) sam_CigarHardClipped else Ok false)
   else Ok false)
  = Ok (is_S (o, spec_op_len w) && inner_b spre stl
        && negb (is_H (last spre (o, spec_op_len w))) && negb (is_H (hd (o, spec_op_len w) stl))).
Proof.
  intros Hpre Htl Ho.
  destruct (is_S _); [|reflexivity].
  destruct (inner_b spre stl) eqn:Hin; [|reflexivity]. cbn [andb].
  assert (Hp : pre <> []).
  { intros ->. injection Hpre as <-. discriminate Hin. }
  destruct (exists_last Hp) as (pre' & p & ->).
  rewrite decode_app in Hpre. cbn [spec_decode] in Hpre.
  destruct (spec_decode pre') as [spre'|], (cop_of_code (spec_op_code p)) as [op|] eqn:Hop; try discriminate Hpre.
  injection Hpre as <-.
  destruct tl as [|nx tl'].
  { injection Htl as <-. destruct (spre' ++ _); discriminate Hin. }
  destruct (decode_cons _ _ _ Htl) as (on & stl' & Hon & _ & ->).
  rewrite last_last. cbn [hd].
  replace (zlen (pre' ++ [p]) - 1) with (zlen pre') by (rewrite zlen_app; unfold zlen; simpl length; lia).
  replace (zlen (pre' ++ [p]) + 1) with (zlen (pre' ++ [p; w])) by (rewrite !zlen_app; unfold zlen; simpl length; lia).
  rewrite <- (app_assoc pre' [p]). cbn [app].
  rewrite (type_is_not_at pre' p _ op (spec_op_len p) Hop). cbn [obind].
  destruct (is_H (op, _)); [reflexivity|]. cbn [negb andb].
  rewrite (app_assoc pre' [p; w] (nx :: tl') : pre' ++ p :: w :: nx :: tl' = _).
  apply (type_is_not_at _ nx tl' on _ Hon).
Qed.

Lemma isvalid_loop_code rest : forall pre spre srest len off,
  spec_decode pre = Some spre -> spec_decode rest = Some srest ->
  isvalid_loop (pre ++ rest) rest (zlen pre) len off = Ok (code_valid_from spre srest len off).
Proof.
  induction rest as [|w tl IH]; intros pre spre srest len off Hpre Hrest.
  - injection Hrest as <-. reflexivity.
  - destruct (decode_cons _ _ _ Hrest) as (o & stl & Ho & Htl & ->).
    cbn [isvalid_loop code_valid_from fst snd].
    rewrite type_is_mod. cbn [obind].
    rewrite (code_is_H _ _ (spec_op_len w) Ho), (code_is_S _ _ (spec_op_len w) Ho).
    rewrite (inner_eq pre w tl spre stl (decode_length _ _ Hpre) (decode_length _ _ Htl)).
    rewrite (bad_value pre w tl spre stl o Hpre Htl Ho).
    unfold code_clip_at.
    destruct (is_H _ && inner_b spre stl); [reflexivity|].
    destruct (is_S _ && inner_b spre stl && _ && _); [reflexivity|]. cbn [obind negb andb].
    rewrite (consumes_known _ _ Ho). cbn [obind fst snd].
    replace (negb (coeff_q o =? 0)) with (consumes_query o) by (unfold coeff_q; destruct (consumes_query o); reflexivity).
    destruct ((off <? 0) && consumes_query o); [reflexivity|]. cbn [negb andb].
    rewrite len_is_div. cbn [obind].
    rewrite (app_assoc pre [w] tl : pre ++ w :: tl = _), <- (zlen_app pre [w] : _ = zlen pre + 1).
    apply IH; [|assumption].
    rewrite decode_app, Hpre. cbn [spec_decode]. rewrite Ho. reflexivity.
Qed.

Lemma code_valid_split rest : forall before len off,
  code_valid_from before rest len off
  = all_splits code_clip_at before rest && back_ok_from off rest && (spec_querylen rest =? len).
Proof.
  induction rest as [|[o n] tl IH]; intros before len off.
  - cbn. rewrite Z.eqb_sym. reflexivity.
  - cbn [code_valid_from all_splits back_ok_from spec_querylen fst snd].
    rewrite IH, ref_step_coeff.
    replace (spec_querylen tl =? len - n * coeff_q o)
      with ((if consumes_query o then n else 0) + spec_querylen tl =? len)
      by (apply eq_iff_eq_true; rewrite !Z.eqb_eq; unfold coeff_q; destruct (consumes_query o); lia).
    replace (negb ((off <? 0) && consumes_query o)) with (if consumes_query o then 0 <=? off else true)
      by (destruct (consumes_query o); [rewrite andb_true_r, Z.leb_antisym|rewrite andb_false_r]; reflexivity).
    btauto.
Qed.

Lemma all_splits_iff P rest : forall before,
  all_splits P before rest = true <->
  (forall b x a, rest = b ++ x :: a -> P (before ++ b) x a = true).
Proof.
  induction rest as [|x0 tl IH]; intros before; cbn [all_splits].
  - split; [|reflexivity]. intros _ b x a E. destruct b; discriminate E.
  - rewrite andb_true_iff, IH. split.
    + intros [H0 Htl] b x a E. destruct b as [|y b].
      * cbn in E. injection E as <- <-. rewrite app_nil_r. assumption.
      * cbn in E. injection E as <- E. specialize (Htl b x a E).
        rewrite <- app_assoc in Htl. exact Htl.
    + intros H. split.
      * specialize (H [] x0 tl eq_refl). rewrite app_nil_r in H. exact H.
      * intros b x a E. specialize (H (x0 :: b) x a). rewrite <- app_assoc. apply H.
        cbn. rewrite E. reflexivity.
Qed.

Lemma forallb_last {A} (f : A -> bool) l d : l <> [] -> forallb f l = true -> f (last l d) = true.
Proof.
  intros Hl H. destruct (exists_last Hl) as (l' & a & ->).
  rewrite last_last. rewrite forallb_app in H. apply andb_true_iff in H as [_ H].
  simpl in H. rewrite andb_true_r in H. exact H.
Qed.

Lemma spec_to_code b x a : clip_ok_at b x a = true -> code_clip_at b x a = true.
Proof.
  unfold clip_ok_at, code_clip_at. intros H. apply andb_true_iff in H as [HH HS].
  destruct b as [|b0 b']; [cbn; rewrite !andb_false_r; reflexivity|].
  destruct a as [|a0 a']; [cbn; rewrite !andb_false_r; reflexivity|].
  cbn [inner_b]. rewrite !andb_true_r.
  destruct (is_H x); [discriminate HH|]. cbn [negb andb].
  destruct (is_S x); [|reflexivity]. cbn [andb].
  apply orb_true_iff in HS as [HS|HS].
  - rewrite (forallb_last is_H (b0 :: b') x ltac:(discriminate) HS). reflexivity.
  - cbn [forallb] in HS. apply andb_true_iff in HS as [HS _]. cbn [hd]. rewrite HS.
    rewrite andb_false_r. reflexivity.
Qed.

(** The code's H rule alone: an H stands first or last. *)
Lemma H_outer l :
  (forall b x a, l = b ++ x :: a -> code_clip_at b x a = true) ->
  forall b h a, l = b ++ h :: a -> is_H h = true -> b = [] \/ a = [].
Proof.
  intros Hall b h a E Hh. specialize (Hall b h a E). unfold code_clip_at in Hall. rewrite Hh in Hall.
  destruct b; [auto|]. destruct a; [auto|]. discriminate Hall.
Qed.

(** An inner S has an H beside it, which is then the first resp. last
    operation: all operations on that side of the S are H. *)
Lemma code_to_spec l :
  (forall b x a, l = b ++ x :: a -> code_clip_at b x a = true) ->
  forall b x a, l = b ++ x :: a -> clip_ok_at b x a = true.
Proof.
  intros Hall b x a E. unfold clip_ok_at. apply andb_true_iff. split.
  - destruct (is_H x) eqn:Hx; [|reflexivity].
    destruct (H_outer l Hall b x a E Hx) as [-> | ->]; [|destruct b]; reflexivity.
  - destruct (is_S x) eqn:Sx; [|reflexivity].
    destruct b as [|b0 b']; [reflexivity|]. destruct a as [|a0 a']; [apply orb_true_r|].
    pose proof (Hall _ _ _ E) as Hx. unfold code_clip_at in Hx. rewrite Sx in Hx.
    cbn [inner_b andb hd] in Hx. apply andb_true_iff in Hx as [_ HS].
    apply negb_true_iff, andb_false_iff in HS as [HS|HS]; apply negb_false_iff in HS.
    + destruct (@exists_last _ (b0 :: b') ltac:(discriminate)) as (b'' & h & Eb).
      rewrite Eb in *. rewrite last_last in HS.
      destruct (H_outer l Hall b'' h (x :: a0 :: a')) as [-> | ?];
        [rewrite E, <- app_assoc; reflexivity|assumption| |discriminate].
      cbn. rewrite HS. reflexivity.
    + destruct (H_outer l Hall ((b0 :: b') ++ [x]) a0 a') as [? | ->];
        [rewrite E, <- app_assoc; reflexivity|assumption|discriminate|].
      cbn [forallb]. rewrite HS. apply orb_true_r.
Qed.

Lemma clip_ok_from_all_splits c : forall before,
  clip_ok_from before c = all_splits clip_ok_at before c.
Proof. induction c as [|x tl IH]; intros before; cbn; [reflexivity|]. rewrite IH. reflexivity. Qed.

Lemma clip_code_eq_spec l : all_splits code_clip_at [] l = spec_clip_ok l.
Proof.
  unfold spec_clip_ok. rewrite clip_ok_from_all_splits.
  apply eq_iff_eq_true. rewrite !all_splits_iff. cbn [app]. split.
  - intros H. apply code_to_spec. exact H.
  - intros H b x a E. apply spec_to_code. apply H. exact E.
Qed.
