(** C13 — bam.Reader: SetChunk(Begin of record i, End of record j) yields
    records i..j and then io.EOF.  Framing level: the stream after the header
    is a sequence of frames (4-byte little-endian length, body). *)
From Coq Require Import ZArith List Bool Lia.
From Hts Require Import Base.Prim Model.Flat Model.Reader Model.ChunkReader
  Proofs.FlatLemmas Proofs.ReaderFlat Proofs.ChunkReaderProof.
Import ListNotations.
Open Scope Z_scope.

(** Offsets of flat position [p]: a Begin lies in the block of the byte at [p],
    an End in the block of the byte before it. *)
Definition is_before (F : file) (o : voff) (p : Z) : Prop :=
  exists pre m post, split_at F pre m post /\ fst o = m_base m /\ 0 <= snd o < m_len m /\ p = total pre + snd o.
Definition is_after (F : file) (o : voff) (p : Z) : Prop :=
  exists pre m post, split_at F pre m post /\ fst o = m_base m /\ 1 <= snd o <= m_len m /\ p = total pre + snd o.

Definition at_off (F : file) (o : voff) (p : Z) : Prop :=
  exists pre m post, split_at F pre m post /\ fst o = m_base m /\ 0 <= snd o <= m_len m /\ p = total pre + snd o.

Lemma at_off_intro (F : file) (o : voff) (p : Z) : is_before F o p \/ is_after F o p -> at_off F o p.
Proof. intros [H|H]; destruct H as (pre & m & post & S & Hf & Ho & Hp); exists pre, m, post; (split; [exact S|]); (split; [exact Hf|]); lia. Qed.

Lemma at_off_lt (F : file) (o o' : voff) (p p' : Z) : addressable F = true ->
  at_off F o p -> at_off F o' p' -> p < p' -> voffset o < voffset o'.
Proof.
  intros Ha (pre & m & post & S & Hf & Ho & Hp) (pre' & m' & post' & S' & Hf' & Ho' & Hp') Hlt.
  pose proof (addressable_len S Ha). pose proof (addressable_len S' Ha).
  unfold voffset. rewrite Hf, Hf'. destruct (split_cmp S S') as [(-> & ->)|[?|?]]; lia.
Qed.

Lemma at_off_valid (F : file) (o : voff) (p : Z) : addressable F = true -> at_off F o p -> off_ok F o /\ tr F o = p.
Proof.
  intros Ha (pre & m & post & S & Hf & Ho & Hp). pose proof (addressable_len S Ha). split.
  - apply existsb_exists. exists m. split; [destruct S as [-> _]; apply in_or_app; right; left; reflexivity|].
    rewrite Hf, Z.eqb_refl. simpl. repeat rewrite andb_true_iff. repeat split; apply Z.leb_le; lia.
  - unfold tr. rewrite Hf, (split_before S). lia.
Qed.

Lemma after_unique (F : file) (o o' : voff) (p : Z) : is_after F o p -> is_after F o' p -> o = o'.
Proof.
  intros (pre & m & post & S & Hf & Ho & Hp) (pre' & m' & post' & S' & Hf' & Ho' & Hp').
  destruct o as [a b], o' as [a' b']. simpl in *.
  destruct (split_cmp S S') as [(-> & ->)|[?|?]]; [f_equal|exfalso|exfalso]; lia.
Qed.

Lemma readfull_once (M : machine) (fuel : nat) (s s' : MS M) (k : Z) (bs : list Z) (e : Z) :
  1 <= k -> m_step M s (ORead k) = Ok (s', (bs, e)) -> zlen bs = k \/ e <> eNil ->
  readfull M (S fuel) s k [] eNil =
  Ok (s', bs, if k <=? zlen bs then eNil else if (0 <? zlen bs) && (e =? eEOF) then eOther else e).
Proof.
  intros Hk Hrd Hstop. cbn [readfull]. rewrite zlen_nil, Z.sub_0_r, (proj2 (Z.ltb_lt 0 k)) by lia.
  cbn [andb Z.eqb eNil]. rewrite Hrd. cbn [app].
  assert (Hc : (zlen bs <? k) && (e =? eNil) = false).
  { destruct Hstop as [->|He]; [rewrite Z.ltb_irrefl; reflexivity|]. rewrite (proj2 (Z.eqb_neq _ _) He). apply andb_false_r. }
  destruct fuel; cbn [readfull]; rewrite Hc; reflexivity.
Qed.

Lemma br_read_limited (M : machine) (b : bstate M) (c : chunk) : br_limit M b = Some c ->
  voffset (snd c) <= voffset (snd (m_lc M (br_s M b))) -> br_read M b = Ok (b, BEOF).
Proof. intros Hc Hle. unfold br_read. rewrite Hc, (proj2 (Z.leb_le _ _) Hle). reflexivity. Qed.

Section BrRead.
Variable M : machine.
Variables (b : bstate M) (s1 s2 : MS M) (hd body : list Z).
Hypothesis Hlim : match br_limit M b with Some c => voffset (snd (m_lc M (br_s M b))) < voffset (snd c) | None => True end.

Lemma br_unlimited :
  match br_limit M b with Some c => voffset (snd c) <=? voffset (snd (m_lc M (br_s M b))) | None => false end = false.
Proof. destruct (br_limit M b); [apply Z.leb_gt, Hlim|reflexivity]. Qed.

Lemma br_read_eof : readfull M rf_fuel (br_s M b) 4 [] eNil = Ok (s1, hd, eEOF) ->
  br_read M b = Ok (mkBR M s1 (br_limit M b) (fst (m_lc M s1), snd (m_lc M s1)), BEOF).
Proof. intros H1. unfold br_read. rewrite br_unlimited, H1. reflexivity. Qed.

Lemma br_read_rec (sz : Z) : readfull M rf_fuel (br_s M b) 4 [] eNil = Ok (s1, hd, eNil) -> le32s hd = sz -> 1 <= sz ->
  readfull M rf_fuel s1 sz [] eNil = Ok (s2, body, eNil) ->
  br_read M b = Ok (mkBR M s2 (br_limit M b) (fst (m_lc M s1), snd (m_lc M s2)), BRec body).
Proof.
  intros H1 <- Hsz H2. unfold br_read. rewrite br_unlimited, H1. cbn [Z.eqb negb eNil eEOF]. cbv zeta.
  destruct (Z.eqb_spec (le32s hd) 0); [lia|]. destruct (Z.ltb_spec (le32s hd) 0); [lia|]. rewrite H2. reflexivity.
Qed.

End BrRead.

Section Frames.
Variable F : file.
Hypothesis W : wf_file F = true.
Hypothesis Ha : addressable F = true.
Let data := flat_data F.

Definition simv (s : vstate) (p : Z) : Prop :=
  exists f, sim F s f /\ f_eof f = false /\ f_blocked f = false /\ f_pos f = p.

Lemma b_fill_pos (b : block) (k : Z) : 0 <= b_pos b -> 0 <= b_pos (fst (b_fill F b k)).
Proof. intros H. unfold b_fill. destruct (fetch F k); simpl; lia. Qed.

(** The copy loop does not fetch the next block once it has its bytes. *)
Lemma copy_pos (n : Z) : forall fuel s acc s' bs,
  v_copy F fuel s n acc = Ok (s', bs, eNil) -> 0 <= b_pos (v_cur s) ->
  zlen acc < n \/ 1 <= b_pos (v_cur s) -> 1 <= b_pos (v_cur s').
Proof.
  induction fuel as [|fuel IH]; intros s acc s' bs H Hp Hor; simpl in H;
    (destruct (Z.ltb_spec (zlen acc) n); [|inversion H; subst; simpl; lia]); [discriminate|].
  unfold b_read in H. destruct (Z.leb_spec (zlen (b_data (v_cur s))) (b_pos (v_cur s))).
  - change (eEOF =? eEOF) with true in H. cbv iota in H. rewrite app_nil_r in H.
    destruct (Z.eqb_spec (zlen acc) n); [lia|].
    destruct (v_blocked s); [discriminate|].
    destruct (v_nextBlock F (set_cur s (v_cur s))) as [s2 e2] eqn:En.
    destruct (Z.eqb_spec e2 eNil); [|congruence].
    apply (IH _ _ _ _ H); [|left; lia].
    unfold v_nextBlock in En. pose proof (b_fill_pos (v_cur s) (b_next (v_cur s)) Hp).
    simpl in En. destruct (b_fill F (v_cur s) (b_next (v_cur s))). inversion En; subst. assumption.
  - change (eNil =? eEOF) with false in H. cbv iota in H. apply (IH _ _ _ _ H); simpl; [lia|right; lia].
Qed.

Lemma readfull_ok (s : vstate) (p k : Z) (fuel : nat) :
  simv s p -> 1 <= k -> p + k <= total F -> (1 <= fuel)%nat ->
  exists s', readfull (vM F) fuel s k [] eNil = Ok (s', ztake k (zdrop p data), eNil) /\ simv s' (p + k) /\
    is_before F (fst (v_lc s')) p /\ is_after F (snd (v_lc s')) (p + k).
Proof.
  intros (f & Hsim & Hfe & Hfb & <-) Hk Hfit Hfuel.
  destruct (read_sim F s f k W Hsim ltac:(lia)) as (s' & f' & bs & e & Hrd & Hfl & Hsim').
  destruct (sim_state _ _ _ Hsim) as [[_ (He & pre & m & post & S & On & Hq)]|[Hx _]]; [|congruence].
  pose proof On as (_ & _ & _ & _ & Hp & _). pose proof (total_nonneg pre) as Hpre.
  unfold flat_read in Hfl. rewrite Hfe, Hfb in Hfl.
  destruct (Z.eqb_spec (total F - f_pos f) 0) as [E0|E0]; [lia|].
  replace (Z.min k (total F - f_pos f)) with k in Hfl by lia. rewrite Z.ltb_irrefl in Hfl.
  simpl in Hfl. inversion Hfl; subst f' bs e. clear Hfl.
  assert (Hz : zlen (ztake k (zdrop (f_pos f) data)) = k)
    by (change (total F) with (zlen data) in Hfit; apply ztake_zlen; rewrite zlen_zdrop; lia).
  exists s'. split; [|split; [eexists; split; [exact Hsim'|simpl; auto]|]].
  { destruct fuel as [|fuel]; [lia|].
    rewrite (readfull_once (vM F) fuel s s' k (ztake k (zdrop (f_pos f) data)) eNil Hk);
      [rewrite Hz, Z.leb_refl; reflexivity|simpl; rewrite Hrd; reflexivity|left; exact Hz]. }
  (* the offsets LastChunk() reports are finer than [sim]: follow the read through the skip and copy loops *)
  unfold v_read in Hrd. rewrite He in Hrd. simpl negb in Hrd. cbv iota in Hrd.
  destruct (skip_spec F post pre m s (Datatypes.S (length F)) S On He ltac:(pose proof (split_length S); lia))
    as (s1 & e1 & Hsk & [Hlc1 Hbl1] & [(-> & He1 & pre' & m' & post' & S' & On' & Hlt' & Hq' & _)|(-> & _ & Hq')]);
    rewrite Hsk in Hrd; [|discriminate].
  simpl negb in Hrd. cbv iota in Hrd.
  pose proof On' as (Hb' & _ & _ & _ & Hp' & Ho'). pose proof (split_len_le S') as Hle'.
  destruct (copy_unblocked F k pre' m' post' (set_begin s1 (b_tx (v_cur s1))) (fuel_of F) S' On'
              ltac:(simpl; rewrite Hbl1, (sim_blocked _ _ _ Hsim); exact Hfb)
              ltac:(unfold fuel_of; pose proof (split_length S'); lia) ltac:(lia)) as (s2 & Hcp & _ & Hpf & Hps & _).
  pose proof (copy_pos k _ _ _ _ _ Hrd ltac:(simpl; lia) ltac:(left; rewrite zlen_nil; lia)) as Hpos.
  rewrite Hcp in Hrd. inversion Hrd; subst s2. split.
  - (* Begin: where the skip loop stopped *)
    rewrite Hpf. exists pre', m', post'. unfold b_tx. simpl. rewrite Ho', u16_small by lia. auto with zarith.
  - (* End: the cursor after the copy loop *)
    rewrite Hps.
    destruct (sim_state _ _ _ Hsim') as [[_ (_ & pre2 & m2 & post2 & S2 & On2 & Hq2)]|[Hx _]]; [|discriminate].
    simpl in Hq2. pose proof On2 as (Hb2 & _ & _ & _ & Hp2 & Ho2). pose proof (addressable_len S2 Ha).
    exists pre2, m2, post2. unfold b_tx. simpl. rewrite Ho2, u16_small by lia. auto with zarith.
Qed.

Lemma readfull_eof (s : vstate) (k : Z) (fuel : nat) : simv s (total F) -> 1 <= k -> (1 <= fuel)%nat ->
  exists s' f', readfull (vM F) fuel s k [] eNil = Ok (s', [], eEOF) /\ sim F s' f' /\ f_blocked f' = false.
Proof.
  intros (f & Hsim & Hfe & Hfb & Hend) Hk Hfuel.
  destruct (read_sim F s f k W Hsim ltac:(lia)) as (s' & f' & bs & e & Hrd & Hfl & Hsim').
  unfold flat_read in Hfl. rewrite Hfe, Hend, Z.sub_diag in Hfl. inversion Hfl; subst f' bs e.
  exists s'. eexists. split; [|split; [exact Hsim'|exact Hfb]]. destruct fuel as [|fuel]; [lia|].
  rewrite (readfull_once (vM F) fuel s s' k [] eEOF Hk); [|simpl; rewrite Hrd; reflexivity|right; discriminate].
  rewrite zlen_nil, (proj2 (Z.leb_gt k 0)) by lia. reflexivity.
Qed.

(** From position [p] the stream holds frames with body sizes [sizes], ending at [pe]. *)
Fixpoint frames (p : Z) (sizes : list Z) (pe : Z) : Prop :=
  match sizes with
  | [] => pe = p
  | sz :: r => 1 <= sz /\ le32s (ztake 4 (zdrop p data)) = sz /\ frames (p + 4 + sz) r pe
  end.

Fixpoint bodies (p : Z) (sizes : list Z) : list (list Z) :=
  match sizes with
  | [] => []
  | sz :: r => ztake sz (zdrop (p + 4) data) :: bodies (p + 4 + sz) r
  end.

Fixpoint recs_at (p : Z) (sizes : list Z) (recs : list (list Z * chunk)) : Prop :=
  match sizes, recs with
  | [], [] => True
  | sz :: r, (body, (B, E)) :: recs' =>
      body = ztake sz (zdrop (p + 4) data) /\ is_before F B p /\ is_after F E (p + 4 + sz) /\ recs_at (p + 4 + sz) r recs'
  | _, _ => False
  end.

Lemma frames_le : forall sizes p pe, frames p sizes pe -> p <= pe.
Proof. induction sizes as [|sz r IH]; simpl; intros p pe H; [lia|]. destruct H as (H1 & _ & H3). apply IH in H3. lia. Qed.

Lemma frames_app : forall a b p pe, frames p (a ++ b) pe -> exists pm, frames p a pm /\ frames pm b pe.
Proof.
  induction a as [|sz a IH]; simpl; intros b p pe H; [exists p; auto|].
  destruct H as (H1 & H2 & H3). destruct (IH _ _ _ H3) as (pm & Ha' & Hb'). exists pm. auto.
Qed.

Lemma recs_at_bodies : forall a p recs, recs_at p a recs -> map fst recs = bodies p a /\ length recs = length a.
Proof.
  induction a as [|sz a IH]; intros p [|[body [B E]] recs'] H; simpl in *; try contradiction; [auto|].
  destruct H as (-> & _ & _ & H). destruct (IH _ _ H) as [-> ->]. auto.
Qed.

Lemma recs_at_app : forall a b p pm recs, recs_at p (a ++ b) recs -> frames p a pm ->
  exists ra rb, recs = ra ++ rb /\ recs_at p a ra /\ recs_at pm b rb.
Proof.
  induction a as [|sz a IH]; simpl; intros b p pm recs H Hf.
  - subst pm. exists [], recs. simpl. auto.
  - destruct recs as [|[body [B E]] recs']; [contradiction|].
    destruct H as (H0 & H1 & H2 & H3). destruct Hf as (_ & _ & Hf').
    destruct (IH _ _ _ _ H3 Hf') as (ra & rb & -> & Hca & Hcb).
    exists ((body, (B, E)) :: ra), rb. simpl. auto 10.
Qed.

Lemma recs_at_last : forall a p pe recs d, a <> [] -> recs_at p a recs -> frames p a pe ->
  is_after F (snd (snd (last recs d))) pe.
Proof.
  induction a as [|sz a IH]; intros p pe recs d Hne H Hf; [congruence|].
  destruct recs as [|[body [B E]] recs']; [contradiction|].
  simpl in H, Hf. destruct H as (_ & _ & H2 & H3). destruct Hf as (_ & _ & Hf').
  destruct a as [|sz' a'].
  - simpl in Hf'. subst pe. destruct recs'; [exact H2|contradiction].
  - destruct recs' as [|r' recs'']; [contradiction|]. apply (IH _ _ (r' :: recs'') d ltac:(discriminate) H3 Hf').
Qed.

(** LastChunk().End before the frame at [p] is read: the End of the record
    before it, or - at the first record of a chunk - the Begin sought. *)
Definition end_at (s : vstate) (p : Z) (sizes : list Z) : Prop :=
  is_after F (snd (v_lc s)) p \/ (sizes <> [] /\ is_before F (snd (v_lc s)) p).

Lemma readall_frames : forall sizes p pe s lim blc fuel,
  simv s p -> frames p sizes pe -> pe <= total F ->
  ((lim = None /\ pe = total F) \/ (exists c, lim = Some c /\ is_after F (snd c) pe /\ end_at s p sizes)) ->
  (length sizes < fuel)%nat ->
  exists b' recs, br_readall (vM F) fuel (mkBR (vM F) s lim blc) = Ok (b', recs, BEOF) /\
    recs_at p sizes recs /\ exists f', sim F (br_s _ b') f' /\ f_blocked f' = false.
Proof.
  induction sizes as [|sz r IH]; intros p pe s lim blc fuel Hs Hfr Hpe Hstop Hfuel;
    (destruct fuel as [|fuel]; [simpl in Hfuel; lia|]); simpl in Hfr; cbn [br_readall].
  - subst pe. destruct Hstop as [[-> Hend]|(c & -> & Hc & [Hx|[Hx _]])]; [| |contradiction].
    + (* the data ends here *)
      rewrite Hend in Hs. destruct (readfull_eof s 4 rf_fuel Hs ltac:(lia) ltac:(unfold rf_fuel; lia)) as (s1 & f1 & Hr & Hsim1).
      rewrite (br_read_eof (vM F) _ s1 []) by first [exact I|exact Hr].
      eexists _, []. repeat (split; [reflexivity||exact I|]). exists f1. exact Hsim1.
    + (* the limit is reached *)
      rewrite (br_read_limited (vM F) _ c); [|reflexivity|rewrite (after_unique F _ _ _ Hc Hx); apply Z.le_refl].
      destruct Hs as (f & Hsim & _ & Hfb & _).
      eexists _, []. repeat (split; [reflexivity||exact I|]). exists f. split; [exact Hsim|exact Hfb].
  - destruct Hfr as (Hsz & Hle & Hfr'). pose proof (frames_le _ _ _ Hfr') as Hmono.
    destruct (readfull_ok s p 4 rf_fuel Hs ltac:(lia) ltac:(lia) ltac:(unfold rf_fuel; lia)) as (s1 & Hr1 & Hs1 & HB & _).
    destruct (readfull_ok s1 (p + 4) sz rf_fuel Hs1 Hsz ltac:(lia) ltac:(unfold rf_fuel; lia)) as (s2 & Hr2 & Hs2 & _ & HE).
    assert (Hlim : match lim with Some c => voffset (snd (v_lc s)) < voffset (snd c) | None => True end).
    { destruct Hstop as [[-> _]|(c & -> & Hc & Hcur)]; [exact I|].
      apply (at_off_lt F _ _ p pe Ha); [apply at_off_intro|apply at_off_intro; right; exact Hc|lia].
      destruct Hcur as [Hx|[_ Hx]]; auto. }
    rewrite (br_read_rec (vM F) (mkBR (vM F) s lim blc) s1 s2 _ _ Hlim sz Hr1 Hle Hsz Hr2).
    destruct (IH (p + 4 + sz) pe s2 lim (fst (v_lc s1), snd (v_lc s2)) fuel Hs2 Hfr' Hpe) as (b' & recs & Hra & Hrecs & Hrest); [|simpl in Hfuel; lia|].
    { destruct Hstop as [?|(c & Hc1 & Hc2 & _)]; [left; assumption|right]. exists c. repeat split; auto. left. exact HE. }
    simpl. rewrite Hra. eexists _, _. split; [reflexivity|]. simpl. auto.
Qed.

Lemma v_seek_lc (s : vstate) (f o : Z) (s' : vstate) : v_seek F s f o = (s', eNil) -> v_lc s' = ((f, o), (f, o)).
Proof.
  unfold v_seek. destruct (negb (f =? b_base (v_cur s)) || negb (b_has (v_cur s))).
  - destruct (b_fill F (v_cur s) f) as [b e]. destruct (e =? eNil) eqn:E; simpl.
    + intros H; inversion H; reflexivity.
    + intros H; inversion H; subst. discriminate.
  - simpl. intros H; inversion H; reflexivity.
Qed.

Lemma replay_one (b : bstate (vM F)) (fb : fstate) (B E : voff) (mid : list Z) (pi pj : Z) :
  sim F (br_s _ b) fb -> f_blocked fb = false -> is_before F B pi -> is_after F E pj ->
  frames pi mid pj -> mid <> [] -> pj <= total F ->
  exists b2, br_setchunk (vM F) b (B, E) = Ok (b2, eNil) /\
  exists b3 l, br_readall (vM F) (S (length mid)) b2 = Ok (b3, l, BEOF) /\ recs_at pi mid l /\
    exists f3, sim F (br_s _ b3) f3 /\ f_blocked f3 = false.
Proof.
  intros Hsb Hbb HB HE Hfmid Hne Hpj.
  destruct (at_off_valid F B pi Ha (at_off_intro _ _ _ (or_introl HB))) as [Hv Htr].
  destruct B as [fb0 bb0].
  destruct (seek_sim F (br_s _ b) fb fb0 bb0 W Hsb Hv) as (s' & Hsk & Hsim').
  unfold br_setchunk. simpl m_step. simpl fst. simpl snd. rewrite Hsk.
  change (negb (eNil =? eNil)) with false. cbv iota.
  eexists. split; [reflexivity|].
  assert (Hsv : simv s' pi).
  { eexists. split; [exact Hsim'|]. unfold flat_seek. simpl. rewrite Htr. auto. }
  destruct (readall_frames mid pi pj s' (Some ((fb0, bb0), E)) (br_lc _ b) (S (length mid)) Hsv Hfmid Hpj)
    as (b3 & l & Hra3 & Hrecs & Hsim3); [|apply Nat.lt_succ_diag_r|].
  { right. eexists. split; [reflexivity|]. split; [exact HE|]. right. split; [exact Hne|].
    rewrite (v_seek_lc _ _ _ _ Hsk). exact HB. }
  exists b3, l. auto.
Qed.

(** C13, bam.Reader: the records of a sequential pass, and the replay of a
    chunk running from the Begin of one record to the End of a later one. *)
Theorem chunk_replay_proof (s0 : vstate) (p0 : Z) (pre mid post : list Z) (blc0 : chunk) (dflt : list Z * chunk) :
  simv s0 p0 -> frames p0 (pre ++ mid ++ post) (total F) -> mid <> [] ->
  exists b1 recs, br_readall (vM F) (S (length (pre ++ mid ++ post))) (mkBR (vM F) s0 None blc0) = Ok (b1, recs, BEOF) /\
    map fst recs = bodies p0 (pre ++ mid ++ post) /\
    exists rp rm rq, recs = rp ++ rm ++ rq /\ length rp = length pre /\ length rm = length mid /\
      forall (b : bstate (vM F)) (fb : fstate), sim F (br_s _ b) fb -> f_blocked fb = false ->
        exists b2, br_setchunk (vM F) b (fst (snd (hd dflt rm)), snd (snd (last rm dflt))) = Ok (b2, eNil) /\
        exists b3 l, br_readall (vM F) (S (length mid)) b2 = Ok (b3, l, BEOF) /\ map fst l = map fst rm.
Proof.
  intros Hs0 Hfr Hmid.
  destruct (readall_frames (pre ++ mid ++ post) p0 (total F) s0 None blc0 (S (length (pre ++ mid ++ post))) Hs0 Hfr (Z.le_refl _)
              (or_introl (conj eq_refl eq_refl)) (Nat.lt_succ_diag_r _)) as (b1 & recs & Hra & Hrecs & _).
  exists b1, recs. split; [exact Hra|]. split; [apply (recs_at_bodies _ _ _ Hrecs)|].
  destruct (frames_app _ _ _ _ Hfr) as (pi & Hfpre & Hfr2).
  destruct (frames_app _ _ _ _ Hfr2) as (pj & Hfmid & Hfpost).
  destruct (recs_at_app _ _ _ _ _ Hrecs Hfpre) as (rp & rest & -> & Hcp & Hc2).
  destruct (recs_at_app _ _ _ _ _ Hc2 Hfmid) as (rm & rq & -> & Hcm & Hcq).
  destruct (recs_at_bodies _ _ _ Hcm) as [Hbm Hlm].
  exists rp, rm, rq. split; [reflexivity|]. split; [apply (recs_at_bodies _ _ _ Hcp)|]. split; [exact Hlm|].
  intros b fb Hsb Hbb.
  assert (HB0 : is_before F (fst (snd (hd dflt rm))) pi).
  { destruct mid; [destruct Hmid; reflexivity|]. destruct rm as [|[body0 [B0 E0]] rm']; [contradiction|]. apply Hcm. }
  pose proof (recs_at_last mid pi pj rm dflt Hmid Hcm Hfmid) as HEj.
  destruct (replay_one b fb _ _ mid pi pj Hsb Hbb HB0 HEj Hfmid Hmid (frames_le _ _ _ Hfpost))
    as (b2 & Hset & b3 & l & Hra3 & Hrecs3 & _).
  exists b2. split; [exact Hset|]. exists b3, l. split; [exact Hra3|]. rewrite Hbm. apply (recs_at_bodies _ _ _ Hrecs3).
Qed.

End Frames.
