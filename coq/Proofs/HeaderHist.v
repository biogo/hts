(** C07 — the step function of the harness protocol and histories: every
    step returns and HInv holds in every reachable state. *)
From Coq Require Import ZArith List Bool Lia.
From Hts Require Import Base.Prim Model.Header Model.HeaderRun
     Proofs.HeaderBase Proofs.HeaderInv Proofs.HeaderWorld Proofs.HeaderParse Proofs.HeaderMerge.
Import ListNotations.
Open Scope Z_scope.

(** every handle the caller holds is an index into the world *)
Definition EnvOK (w : world) (e : env) : Prop :=
  (forall x, In x (e_h e) -> (x < length (w_h w))%nat) /\ (forall x, In x (e_r e) -> (x < length (w_r w))%nat) /\
  (forall x, In x (e_g e) -> (x < length (w_g w))%nat) /\ (forall x, In x (e_p e) -> (x < length (w_p w))%nat).

Lemma EnvOK_ext : forall w w' e, Ext w w' -> EnvOK w e -> EnvOK w' e.
Proof.
  intros w w' e (X1 & X2 & X3 & X4) (E1 & E2 & E3 & E4).
  repeat split; intros x Hx; [specialize (E1 x Hx)|specialize (E2 x Hx)|specialize (E3 x Hx)|specialize (E4 x Hx)]; lia.
Qed.

Lemma lt_snoc : forall (l : list nat) m n, (forall x, In x l -> (x < n)%nat) -> (m < n)%nat -> forall x, In x (l ++ [m]) -> (x < n)%nat.
Proof. intros l m n H L x Hx. apply in_app_or in Hx. destruct Hx as [Hx|[<-|[]]]; auto. Qed.

Lemma norm_In : forall i l x, norm i l = Some x -> In x l.
Proof. unfold norm. intros i l x. destruct l; [discriminate|]. apply nth_error_In. Qed.
Lemma norm_all_In : forall is_ l xs, norm_all is_ l = Some xs -> forall x, In x xs -> In x l.
Proof.
  induction is_ as [|i t IH]; simpl; intros l xs H x Hx.
  - inversion H; subst. destruct Hx.
  - destruct (norm i l) eqn:N; [|discriminate]. destruct (norm_all t l) eqn:NA; [|discriminate]. inversion H; subst.
    destruct Hx as [E|Hx]; [subst; eapply norm_In; eauto|eapply IH; eauto].
Qed.

Lemma add_new_In : forall items known x, In x (add_new known items) -> In x known \/ In x items.
Proof.
  induction items as [|r l IH]; simpl; intros known x H; auto.
  destruct (existsb (Nat.eqb r) known).
  - destruct (IH _ _ H); auto.
  - destruct (IH _ _ H) as [H1|H1]; auto. apply in_app_or in H1. destruct H1 as [H1|[H1|[]]]; auto.
Qed.

Lemma expose_ok : forall w e h, WInv w -> EnvOK w e -> EnvOK w (expose w e h).
Proof.
  intros w e h I (E1 & E2 & E3 & E4). unfold expose. destruct (nth_error (w_h w) h) as [hd|] eqn:Hh; [|repeat split; auto].
  repeat split; simpl; auto; intros x Hx; apply add_new_In in Hx; destruct Hx as [Hx|Hx]; auto.
  - exact (lens_valid kR invR w h hd x I Hh Hx).
  - exact (lens_valid kG invG w h hd x I Hh Hx).
  - exact (lens_valid kP invP w h hd x I Hh Hx).
Qed.
Lemma expose_hdr_ok : forall w e h, WInv w -> EnvOK w e -> (h < length (w_h w))%nat -> EnvOK w (expose_hdr w e h).
Proof.
  intros w e h I (E1 & E2 & E3 & E4) L. unfold expose_hdr. apply expose_ok; auto.
  repeat split; simpl; auto. apply lt_snoc; auto.
Qed.

Definition StepOK (s : stepres) : Prop := exists w' e' c l, s = Ok (w', e', c, l) /\ WInv w' /\ EnvOK w' e'.

Lemma ok_intro : forall w e c l, WInv w -> EnvOK w e -> StepOK (Ok (w, e, c, l)).
Proof. intros. eexists _, _, _, _. eauto. Qed.

Section Ops.
  Variables (w : world) (e : env).
  Hypotheses (I : WInv w) (EO : EnvOK w e).

  Lemma ok_skip : StepOK (skip w e).
  Proof. apply ok_intro; assumption. Qed.

  Lemma ok_done : forall x, Good w x -> StepOK (done e x).
  Proof. intros x (w' & c & -> & I' & X'). apply ok_intro; [exact I'|eapply EnvOK_ext; eauto]. Qed.

  (** the operand is one of the objects the caller can name, or the step is skipped *)
  Lemma ok_norm : forall (l : list nat) n i (k : nat -> stepres), (forall x, In x l -> (x < n)%nat) ->
    (forall x, (x < n)%nat -> StepOK (k x)) -> StepOK match norm i l with Some x => k x | None => skip w e end.
  Proof. intros l n i k V G. destruct (norm i l) eqn:N; [|apply ok_skip]. apply G, V. eapply norm_In; eauto. Qed.

  Lemma ok_hdr : forall i (k : nat -> stepres), (forall x hd, nth_error (w_h w) x = Some hd -> StepOK (k x)) ->
    StepOK match norm i (e_h e) with Some x => k x | None => skip w e end.
  Proof. intros i k G. apply (ok_norm _ _ _ _ (proj1 EO)). intros x Lx. destruct (nth_error_lt _ _ Lx) as (hd & Hh). eauto. Qed.

  (** a new item becomes visible to the caller *)
  Lemma ok_new_R : forall o, o_owner o = None ->
    StepOK (Ok (set_r w (w_r w ++ [o]), mkE (e_h e) (e_r e ++ [length (w_r w)]) (e_g e) (e_p e), 0, None)).
  Proof.
    intros o Hn. destruct (alloc_good kR invR w o I Hn) as (I' & X'). apply ok_intro; [exact I'|].
    destruct (EnvOK_ext _ _ _ X' EO) as (F1 & F2 & F3 & F4). repeat split; auto. simpl. apply lt_snoc; auto. rewrite app_length; simpl; lia.
  Qed.
  Lemma ok_new_G : forall o, o_owner o = None ->
    StepOK (Ok (set_g w (w_g w ++ [o]), mkE (e_h e) (e_r e) (e_g e ++ [length (w_g w)]) (e_p e), 0, None)).
  Proof.
    intros o Hn. destruct (alloc_good kG invG w o I Hn) as (I' & X'). apply ok_intro; [exact I'|].
    destruct (EnvOK_ext _ _ _ X' EO) as (F1 & F2 & F3 & F4). repeat split; auto. simpl. apply lt_snoc; auto. rewrite app_length; simpl; lia.
  Qed.
  Lemma ok_new_P : forall o, o_owner o = None ->
    StepOK (Ok (set_p w (w_p w ++ [o]), mkE (e_h e) (e_r e) (e_g e) (e_p e ++ [length (w_p w)]), 0, None)).
  Proof.
    intros o Hn. destruct (alloc_good kP invP w o I Hn) as (I' & X'). apply ok_intro; [exact I'|].
    destruct (EnvOK_ext _ _ _ X' EO) as (F1 & F2 & F3 & F4). repeat split; auto. simpl. apply lt_snoc; auto. rewrite app_length; simpl; lia.
  Qed.

  (** a new header [length (w_h w)] becomes visible when the operation succeeded *)
  Lemma ok_new_hdr : forall w' c l, WInv w' -> Ext w w' -> (c = 0 -> (length (w_h w) < length (w_h w'))%nat) ->
    StepOK (if c =? 0 then Ok (w', expose_hdr w' e (length (w_h w)), 0, l) else Ok (w', e, c, None)).
  Proof.
    intros w' c l I' X' L'. assert (EO' := EnvOK_ext _ _ _ X' EO). destruct (c =? 0) eqn:C0; apply ok_intro; auto.
    apply expose_hdr_ok; auto. apply L', Z.eqb_eq, C0.
  Qed.
End Ops.

Section Step.
  Variable parse_time : str -> option str.
  Variable parse_uri : str -> option str.

  Lemma c07_step_total : forall w e op, WInv w -> EnvOK w e ->
    exists w' e' c l, c07_step parse_time parse_uri w e op = Ok (w', e', c, l) /\ WInv w' /\ EnvOK w' e'.
  Proof.
    intros w e op I EO. change (StepOK (c07_step parse_time parse_uri w e op)).
    assert (EO' := EO). destruct EO' as (E1 & E2 & E3 & E4).
    destruct op; cbn [c07_step].
    - destruct (_ && _); [apply ok_new_R; auto|apply ok_intro; auto].
    - destruct (valid_int32 pi); [apply ok_new_G; auto|apply ok_intro; auto].
    - apply ok_new_P; auto.
    - apply (ok_norm w e I EO _ _ _ _ E2). intros x Lx. unfold clone_ref. destruct (nth_error_lt _ _ Lx) as (o & ->). apply ok_new_R; auto.
    - apply (ok_norm w e I EO _ _ _ _ E3). intros x Lx. unfold clone_rg. destruct (nth_error_lt _ _ Lx) as (o & ->). apply ok_new_G; auto.
    - apply (ok_norm w e I EO _ _ _ _ E4). intros x Lx. unfold clone_pg. destruct (nth_error_lt _ _ Lx) as (o & ->). apply ok_new_P; auto.
    - match goal with |- context [match ?X with Some _ => _ | None => skip w e end] => destruct X as [rs'|] eqn:N end; [|apply ok_skip; auto].
      assert (V : forall r, In r rs' -> (r < length (w_r w))%nat).
      { destruct rs as [|r0 rs0]. { inversion N; subst. intros r []. } intros r Hr. apply E2. eapply norm_all_In; eauto. }
      destruct (new_header_good parse_time parse_uri w text rs' I V) as (w' & c & -> & I' & X' & L'). apply ok_new_hdr; auto.
    - apply (ok_hdr w e I EO). intros x hd Hh. rewrite Hh.
      apply ok_intro; [eapply WInv_put_same; eauto|eapply EnvOK_ext; [apply Ext_put|exact EO]].
    - apply (ok_hdr w e I EO). intros x hd Hh. rewrite Hh.
      apply ok_intro; [eapply WInv_put_same; eauto|eapply EnvOK_ext; [apply Ext_put|exact EO]].
    - apply (ok_norm w e I EO _ _ _ _ E1). intros x Lx. apply (ok_norm w e I EO _ _ _ _ E2). intros y Ly. apply (ok_done w e EO), add_reference_good; auto.
    - apply (ok_norm w e I EO _ _ _ _ E1). intros x Lx. apply (ok_norm w e I EO _ _ _ _ E2). intros y Ly. apply (ok_done w e EO), (remove_good kR invR); auto.
    - apply (ok_norm w e I EO _ _ _ _ E1). intros x Lx. apply (ok_norm w e I EO _ _ _ _ E3). intros y Ly. apply (ok_done w e EO), (add_good kG invG); auto.
    - apply (ok_norm w e I EO _ _ _ _ E1). intros x Lx. apply (ok_norm w e I EO _ _ _ _ E3). intros y Ly. apply (ok_done w e EO), (remove_good kG invG); auto.
    - apply (ok_norm w e I EO _ _ _ _ E1). intros x Lx. apply (ok_norm w e I EO _ _ _ _ E4). intros y Ly. apply (ok_done w e EO), (add_good kP invP); auto.
    - apply (ok_norm w e I EO _ _ _ _ E1). intros x Lx. apply (ok_norm w e I EO _ _ _ _ E4). intros y Ly. apply (ok_done w e EO), (remove_good kP invP); auto.
    - apply (ok_norm w e I EO _ _ _ _ E2). intros y Ly. apply (ok_done w e EO), (setname_good kR invR); auto.
    - apply (ok_norm w e I EO _ _ _ _ E3). intros y Ly. apply (ok_done w e EO), (setname_good kG invG); auto.
    - apply (ok_norm w e I EO _ _ _ _ E4). intros y Ly. apply (ok_done w e EO), (setname_good kP invP); auto.
    - apply (ok_hdr w e I EO). intros x hd Hh. destruct (clone_header_spec w x hd I Hh) as (rs & gs & ps & _ & _ & _ & -> & I').
      apply (ok_new_hdr w e EO _ 0); [exact I'|apply Ext_cloned|]. intros _. unfold cloned; simpl. rewrite app_length; simpl; lia.
    - apply (ok_hdr w e I EO). intros x hd Hh. rewrite Hh. unfold encode_binary, marshal_text.
      destruct (listed_objs w x hd I Hh) as (rs & gs & ps & -> & -> & ->).
      match goal with |- context [decode_binary _ _ w ?b] => destruct (decode_binary_good parse_time parse_uri w b I) as (w' & c & -> & I' & X') end.
      destruct X' as (X' & Xr). simpl in X', Xr. rewrite app_length in X'. simpl in X'.
      apply (ok_new_hdr w e EO); [exact I'|unfold Ext; lia|lia].
    - apply (ok_norm w e I EO _ _ _ _ E1). intros x Lx.
      destruct (unmarshal_text_good parse_time parse_uri w x t I Lx) as (w' & c & -> & I' & X').
      apply ok_intro; [exact I'|]. apply expose_ok; auto. eapply EnvOK_ext; eauto.
    - destruct (norm_all hs (e_h e)) as [[|x [|y rest]]|] eqn:N; try (apply ok_skip; auto).
      + apply ok_intro; [exact I|]. repeat split; simpl; auto. apply lt_snoc; auto.
        apply E1. eapply norm_all_In; eauto. left; reflexivity.
      + destruct (merge_headers_spec w x (y :: rest) I) as (w' & c & links & -> & I' & X' & L' & _).
        { apply E1. eapply norm_all_In; eauto. left; reflexivity. }
        { intros s Hs. apply E1. eapply norm_all_In; eauto. right; exact Hs. }
        apply ok_new_hdr; auto.
  Qed.

  (** a history: the operations are applied one after the other (error results included) *)
  Fixpoint c07_exec (w : world) (e : env) (ops : list c07op) : outcome (world * env) :=
    match ops with
    | [] => Ok (w, e)
    | op :: t =>
      match c07_step parse_time parse_uri w e op with
      | Ok (w', e', _, _) => c07_exec w' e' t
      | Err c => Err c | Panic n => Panic n | Stuck => Stuck
      end
    end.

  Lemma c07_exec_total : forall ops w e, WInv w -> EnvOK w e ->
    exists w' e', c07_exec w e ops = Ok (w', e') /\ WInv w' /\ EnvOK w' e'.
  Proof.
    induction ops as [|op t IH]; intros w e I EO; simpl.
    - eauto.
    - destruct (c07_step_total w e op I EO) as (w1 & e1 & c & l & R & I1 & EO1). rewrite R. apply IH; assumption.
  Qed.
End Step.

Lemma WInv_world0 : WInv world0.
Proof.
  assert (K : forall P, @KInv P [] []).
  { intro P. split. intros h0 t0 H0; destruct h0; discriminate. intros r0 o0 h0 H0; destruct r0; discriminate. }
  unfold WInv, world0; simpl. auto.
Qed.
Lemma EnvOK_0 : EnvOK world0 env0.
Proof. repeat split; intros x []. Qed.

Definition is_merge (op : c07op) : bool := match op with OMerge _ => true | _ => false end.

Lemma header_inv_all_histories : forall parse_time parse_uri ops,
  match c07_exec parse_time parse_uri world0 env0 ops with
  | Ok (w, e) => WInv w
  | Panic _ => exists op, In op ops /\ is_merge op = true
  | _ => False
  end.
Proof.
  intros pt pu ops. destruct (c07_exec_total pt pu ops world0 env0 WInv_world0 EnvOK_0) as (w & e & -> & I & _). exact I.
Qed.

(** what WInv says, spelled out for one kind of item *)
Definition HInvK {P} (h : nat) (st : list (obj P)) (t : tbl) : Prop :=
  (forall i r, nth_error (t_items t) i = Some r ->
     exists o, nth_error st r = Some o /\ o_owner o = Some h /\ o_id o = Z.of_nat i) /\
  (forall i j r r' o o', nth_error (t_items t) i = Some r -> nth_error (t_items t) j = Some r' ->
     nth_error st r = Some o -> nth_error st r' = Some o' -> o_name o = o_name o' -> i = j) /\
  (forall k v, mget k (t_seen t) = Some v <->
     exists i r o, nth_error (t_items t) i = Some r /\ nth_error st r = Some o /\ o_name o = k /\ v = Z.of_nat i).

Lemma TInv_HInvK : forall {P} h (st : list (obj P)) t, TInv h st t -> HInvK h st t.
Proof.
  intros P h st t I. split; [apply (ti_obj _ _ _ I)|]. split; [|apply (ti_seen _ _ _ I)].
  intros i j r r' o o' Hi Hj Ho Ho' E. eapply TInv_uniq; eauto.
Qed.
