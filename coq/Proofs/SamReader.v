(** C06 — sam.Reader.Read returns exactly one result per line of the input. *)
From Coq Require Import ZArith List Bool Lia.
From Hts Require Import Base.Prim Model.SamText Model.SamSpec Proofs.SamBytes.
Import ListNotations.
Open Scope Z_scope.

(** A line: no LF inside, and (after its terminator is removed) no trailing CR. *)
Definition line_ok (l : list Z) : Prop := free 10 l /\ last_is_cr l = false.

(** Only the last line may be unterminated, and then it is not empty. *)
Fixpoint lines_ok (ls : list (list Z * eol)) : Prop :=
  match ls with
  | [] => True
  | (l, e) :: t =>
      line_ok l /\ lines_ok t /\
      match t with [] => (e = ENONE -> l <> []) | _ => e <> ENONE end
  end.

Lemma read_line_lf : forall l rest, free 10 l -> read_line (l ++ 10 :: rest) = (l, Some rest).
Proof.
  induction l as [|c l IH]; intros rest H; simpl.
  - reflexivity.
  - apply free_cons in H. destruct H as [H1 H2].
    destruct (c =? 10) eqn:E; [apply Z.eqb_eq in E; contradiction|].
    rewrite IH by assumption. reflexivity.
Qed.

Lemma read_line_end : forall l, free 10 l -> read_line l = (l, None).
Proof.
  induction l as [|c l IH]; intro H; simpl; auto.
  apply free_cons in H. destruct H as [H1 H2].
  destruct (c =? 10) eqn:E; [apply Z.eqb_eq in E; contradiction|].
  rewrite IH by assumption. reflexivity.
Qed.

Lemma last_is_cr_snoc : forall l, last_is_cr (l ++ [13]) = true.
Proof. intro l. unfold last_is_cr. rewrite rev_app_distr. reflexivity. Qed.

Lemma strip_cr_snoc : forall l, strip_cr (l ++ [13]) = l.
Proof. intro l. unfold strip_cr. rewrite last_is_cr_snoc. apply removelast_last. Qed.

Lemma strip_cr_id : forall l, last_is_cr l = false -> strip_cr l = l.
Proof. intros l H. unfold strip_cr. rewrite H. reflexivity. Qed.

Section Reader.
  Variable parse_f32 : list Z -> option Z.
  Variable h : header.

  Lemma reader_all_nil : forall fuel, reader_all parse_f32 (S fuel) h [] = [].
  Proof. reflexivity. Qed.

  Lemma reader_all_lines : forall ls fuel,
    lines_ok ls -> (length (join_lines ls) < fuel)%nat ->
    reader_all parse_f32 fuel h (join_lines ls) = map (fun le => parse_record parse_f32 h (fst le)) ls.
  Proof.
    induction ls as [|[l e] t IH]; intros fuel Hok Hlen.
    - destruct fuel; [inversion Hlen|]. reflexivity.
    - destruct fuel as [|f]; [inversion Hlen|].
      destruct Hok as [[Hfree Hcr] [Hok Hlast]].
      cbn [join_lines] in *. cbn [map fst].
      destruct e; cbn [eol_bytes] in *.
      + cbn [reader_all]. unfold reader_read.
        change (l ++ [10] ++ join_lines t) with (l ++ 10 :: join_lines t).
        rewrite read_line_lf by assumption. rewrite strip_cr_id by assumption.
        f_equal. apply IH; auto.
        rewrite !app_length in Hlen. simpl in Hlen. lia.
      + cbn [reader_all]. unfold reader_read.
        replace (l ++ [13; 10] ++ join_lines t) with ((l ++ [13]) ++ 10 :: join_lines t)
          by (rewrite <- app_assoc; reflexivity).
        rewrite read_line_lf.
        2:{ apply free_app. split; [assumption|]. apply free_cons. split; [lia|apply free_nil]. }
        rewrite strip_cr_snoc.
        f_equal. apply IH; auto.
        rewrite !app_length in Hlen. simpl in Hlen. lia.
      + destruct t as [|p t']; [|exfalso; apply Hlast; reflexivity].
        specialize (Hlast eq_refl).
        cbn [join_lines] in *. rewrite !app_nil_r in *.
        cbn [reader_all]. unfold reader_read.
        rewrite read_line_end by assumption.
        destruct l as [|c l']; [congruence|].
        rewrite strip_cr_id by assumption.
        destruct f as [|f']; [simpl in Hlen; lia|]. reflexivity.
  Qed.
End Reader.
