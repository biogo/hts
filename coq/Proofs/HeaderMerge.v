(** C07 — MergeHeaders: it returns, keeps the invariant, and every source
    reference is linked to a reference the merged header owns and lists, with
    the same name and length. *)
From Coq Require Import ZArith List Bool Lia.
From Hts Require Import Base.Prim Model.Header Proofs.HeaderBase Proofs.HeaderInv Proofs.HeaderWorld.
Import ListNotations.
Open Scope Z_scope.

Definition valid_refs (w : world) (l : list nat) : Prop := forall x, In x l -> (x < length (w_r w))%nat.

Lemma valid_refs_ext : forall w w' l, Ext w w' -> valid_refs w l -> valid_refs w' l.
Proof. intros w w' l (_ & X & _) V x Hx. specialize (V x Hx). lia. Qed.

Lemma items_valid_R : forall w h hd, WInv w -> nth_error (w_h w) h = Some hd -> valid_refs w (t_items (h_R hd)).
Proof. intros w h hd I Hh x. exact (lens_valid kR invR w h hd x I Hh). Qed.

Lemma find_equal_spec : forall items w o, valid_refs w items ->
  exists r, find_equal w o items = Ok r /\
    forall x, r = Some x -> In x items /\ exists hr, nth_error (w_r w) x = Some hr /\ equal_refs o hr = true.
Proof.
  induction items as [|x l IH]; intros w o V; simpl.
  - exists None. split; auto. discriminate.
  - destruct (nth_error_lt _ _ (V x (or_introl eq_refl))) as (hr & Hr). rewrite Hr.
    destruct (equal_refs o hr) eqn:E.
    + exists (Some x). split; [reflexivity|]. intros y Ey. inversion Ey; subst. eauto.
    + destruct (IH w o) as (r & R & Hin). { intros y Hy; apply V; right; assumption. }
      exists r. split; [exact R|]. intros y Ey. destruct (Hin y Ey). auto.
Qed.

(** header [hm] lists a reference named [n] of length [l] *)
Definition Listed (w : world) (hm : nat) (n : str) (l : Z) : Prop :=
  exists hd os o, nth_error (w_h w) hm = Some hd /\ objs (w_r w) (t_items (h_R hd)) = Some os /\ In o os /\
    o_name o = n /\ rp_len (o_pay o) = l.

Definition SameNL (w w' : world) : Prop := forall x o, nth_error (w_r w) x = Some o ->
  exists o', nth_error (w_r w') x = Some o' /\ o_name o' = o_name o /\ rp_len (o_pay o') = rp_len (o_pay o).

(** what the steps of a merge keep: names and lengths of reference objects,
    the (name, length) pairs the merged header lists, all other headers *)
Definition Mono (hm : nat) (w w' : world) : Prop :=
  SameNL w w' /\ (forall n l, Listed w hm n l -> Listed w' hm n l) /\
  (forall s, s <> hm -> nth_error (w_h w') s = nth_error (w_h w) s).

Lemma Mono_refl : forall hm w, Mono hm w w.
Proof. intros. split; [|split]; auto. intros x o H; eauto. Qed.
Lemma Mono_trans : forall hm a b c, Mono hm a b -> Mono hm b c -> Mono hm a c.
Proof.
  intros hm a b c (S1 & L1 & H1) (S2 & L2 & H2). split; [|split]; auto.
  - intros x o Ho. destruct (S1 _ _ Ho) as (o1 & Ho1 & N1 & Le1). destruct (S2 _ _ Ho1) as (o2 & Ho2 & N2 & Le2).
    exists o2. split; auto. split; congruence.
  - intros s Hs. rewrite H2, H1; auto.
Qed.

Lemma Mono_new_ref : forall hm w n p, Mono hm w (new_ref w n p).
Proof.
  intros. split; [|split]; auto.
  - intros x o Ho. exists o. split; auto. simpl. rewrite nth_error_app1; auto. apply nth_error_Some; congruence.
  - intros n0 l (hd & os & o & Hh & Ho & H). exists hd, os, o. split; [exact Hh|]. split; [apply objs_app_st; exact Ho|exact H].
Qed.

Lemma add_reference_mono : forall w hm r w' e, WInv w -> add_reference w hm r = Ok (w', e) ->
  Mono hm w w' /\ (e = 0 -> forall o, nth_error (w_r w) r = Some o -> Listed w' hm (o_name o) (rp_len (o_pay o))).
Proof.
  intros w hm r w' e I. unfold add_reference.
  destruct (nth_error (w_h w) hm) as [hd|] eqn:Hh; [|discriminate].
  destruct (nth_error (w_r w) r) as [o|] eqn:Ho; [|discriminate].
  assert (TI : TInv hm (w_r w) (h_R hd)) by exact (lens_TInv kR invR w hm hd I Hh).
  destruct (TInv_objs _ _ _ TI) as (os & Hos).
  assert (Lh := nth_error_valid _ _ _ Hh). assert (Lr := nth_error_valid _ _ _ Ho).
  (* header [hm] gets store and table: enough that objects keep name and length and that every listed object has a
     listed successor with its name and length *)
  assert (STEP : forall st' t' os',
            (forall x ox, nth_error (w_r w) x = Some ox ->
               exists o', nth_error st' x = Some o' /\ o_name o' = o_name ox /\ rp_len (o_pay o') = rp_len (o_pay ox)) ->
            objs st' (t_items t') = Some os' ->
            (forall ox, In ox os -> exists o', In o' os' /\ o_name o' = o_name ox /\ rp_len (o_pay o') = rp_len (o_pay ox)) ->
            Mono hm w (put_hdr (set_r w st') hm (set_R hd t'))).
  { intros st' t' os' HS HO HL. split; [exact HS|]. split.
    - intros n l (hd0 & os0 & ox & Hh0 & Ho0 & Hin & <- & <-). rewrite Hh in Hh0. inversion Hh0; subst hd0.
      rewrite Hos in Ho0. inversion Ho0; subst os0. destruct (HL ox Hin) as (o' & Hin' & N & L).
      exists (set_R hd t'), os', o'. split; [apply nth_put_hdr; exact Lh|]. auto.
    - intros s Hs. simpl. apply nth_error_upd_ne. auto. }
  assert (SAME : forall x ox, nth_error (w_r w) x = Some ox ->
            exists o', nth_error (w_r w) x = Some o' /\ o_name o' = o_name ox /\ rp_len (o_pay o') = rp_len (o_pay ox)) by eauto.
  destruct (mget (o_name o) (t_seen (h_R hd))) as [dupID|] eqn:M.
  - apply (ti_seen _ _ _ TI) in M. destruct M as (d & erh & er & Hd & Her & Hn & ->). rewrite idx_of_nat, Hd, Her.
    assert (Hde : nth_error os d = Some er) by (apply (objs_nth _ _ _ Hos); eauto).
    destruct (equal_refs er o) eqn:EQ.
    { intro H; inversion H; subst. split; [apply Mono_refl|]. intros _ o' Ho'. inversion Ho'; subst o'.
      apply equal_refs_name in EQ. destruct EQ as (EN & EL). exists hd, os, er. split; auto. split; auto. split; [eapply nth_error_In; eauto|auto]. }
    destruct (equal_refs o (bare_ref (-1) (o_name er) (rp_len (o_pay er)))) eqn:EB; simpl.
    2:{ intro H; inversion H; subst. split; [apply Mono_refl|]. discriminate. }
    destruct (owned o) eqn:OW. { intro H; inversion H; subst. split; [apply Mono_refl|]. discriminate. }
    unfold install_over. rewrite Nat2Z.id. intro H; inversion H; subst w' e; clear H.
    apply equal_refs_name in EB. simpl in EB. destruct EB as (EN & EL).
    assert (HnO : o_owner o = None) by (unfold owned in OW; destruct (o_owner o); congruence).
    set (new := with_ident (inherit o er) (Some hm) (Z.of_nat d)).
    assert (HO : objs (upd (upd (w_r w) r new) erh (with_ident er None (-1))) (upd (t_items (h_R hd)) d r) = Some (upd os d new)).
    { apply objs_install; auto; [eapply unowned_unlisted; eauto|eapply TInv_NoDup; eauto]. }
    assert (Hnew : In new (upd os d new)) by (apply nth_error_In with (n := d); apply nth_error_upd_eq; eapply nth_error_valid; eauto).
    split.
    + apply (STEP _ (mkTbl _ _) (upd os d new)); [|exact HO|].
      * intros x ox Hx. destruct (Nat.eq_dec x erh) as [->|NE1].
        { rewrite Her in Hx. inversion Hx; subst ox. rewrite nth_error_upd_eq by (rewrite upd_length; eapply nth_error_valid; eauto). eauto. }
        rewrite nth_error_upd_ne by auto. destruct (Nat.eq_dec x r) as [->|NE2]; [|rewrite nth_error_upd_ne by auto; eauto].
        rewrite Ho in Hx. inversion Hx; subst ox. rewrite nth_error_upd_eq by exact Lr. eauto.
      * intros ox Hin. apply In_nth_error in Hin. destruct Hin as (j & Hj). destruct (Nat.eq_dec j d) as [->|NE].
        -- exists new. split; [exact Hnew|]. rewrite Hde in Hj. inversion Hj; subst ox. simpl. split; congruence.
        -- exists ox. split; [apply nth_error_In with (n := j); rewrite nth_error_upd_ne; auto|auto].
    + intros _ o' Ho'. inversion Ho'; subst o'. eexists _, _, new. split; [apply nth_put_hdr; exact Lh|]. split; [exact HO|]. simpl. auto.
  - destruct (add_fresh eUsedRef hm (w_r w) (h_R hd) r o) as [[st' t'] e'] eqn:A.
    intro H; inversion H; subst w' e'; clear H. unfold add_fresh in A.
    destruct (owned o || (0 <=? o_id o)) eqn:G; inversion A; subst st' t' e; clear A.
    + split; [|discriminate]. apply (STEP _ _ os); eauto.
    + apply orb_false_iff in G. destruct G as (G1 & G2).
      assert (HnO : o_owner o = None) by (unfold owned in G1; destruct (o_owner o); congruence).
      set (new := with_ident o (Some hm) (zlen (t_items (h_R hd)))).
      assert (HO : objs (upd (w_r w) r new) (t_items (h_R hd) ++ [r]) = Some (os ++ [new])).
      { apply objs_app; [rewrite objs_upd_other by (eapply unowned_unlisted; eauto); exact Hos|]. simpl. rewrite nth_error_upd_eq by exact Lr. reflexivity. }
      split.
      * apply (STEP _ (mkTbl _ _) (os ++ [new])); [|exact HO|intros ox Hin; exists ox; split; [apply in_or_app; left; exact Hin|auto]].
        intros x ox Hx. destruct (Nat.eq_dec x r) as [->|NE]; [|rewrite nth_error_upd_ne by auto; eauto].
        rewrite Ho in Hx. inversion Hx; subst ox. rewrite nth_error_upd_eq by exact Lr. eauto.
      * intros _ o' Ho'. inversion Ho'; subst o'. eexists _, _, new. split; [apply nth_put_hdr; exact Lh|]. split; [exact HO|].
        split; [apply in_or_app; right; left; reflexivity|simpl; auto].
Qed.

(** a link: a valid reference handle whose object has the wanted name and
    length, which the merged header lists *)
Definition LinkOK (w : world) (hm : nat) (n : str) (l : Z) (x : nat) : Prop :=
  (exists ox, nth_error (w_r w) x = Some ox /\ o_name ox = n /\ rp_len (o_pay ox) = l) /\ Listed w hm n l.

Lemma LinkOK_mono : forall hm w w' n l x, Mono hm w w' -> LinkOK w hm n l x -> LinkOK w' hm n l x.
Proof.
  intros hm w w' n l x (S & L & _) ((ox & Hx & Hn & Hl) & Li). split; [|auto].
  destruct (S _ _ Hx) as (o' & Ho' & N' & L'). exists o'. split; auto. split; congruence.
Qed.

Definition src_ok (w w' : world) (hm : nat) (r x : nat) : Prop :=
  exists o, nth_error (w_r w) r = Some o /\ LinkOK w' hm (o_name o) (rp_len (o_pay o)) x.

Lemma src_ok_back : forall hm w w2 w' l ls, Mono hm w w2 -> valid_refs w l ->
  Forall2 (src_ok w2 w' hm) l ls -> Forall2 (src_ok w w' hm) l ls.
Proof.
  intros hm w w2 w' l ls (SN & _) V F. induction F as [|r x l ls H F IH]; constructor.
  - destruct H as (o2 & Ho2 & LK). destruct (nth_error_lt _ _ (V r (or_introl eq_refl))) as (o & Ho).
    destruct (SN _ _ Ho) as (o2' & Ho2' & N & L). rewrite Ho2 in Ho2'. inversion Ho2'; subst o2'.
    exists o. split; auto. rewrite <- N, <- L. exact LK.
  - apply IH. intros y Hy. apply V. right. exact Hy.
Qed.

Lemma merge_refs_spec : forall srcrefs w hm, WInv w -> (hm < length (w_h w))%nat -> valid_refs w srcrefs ->
  exists w' e ls, merge_refs w hm srcrefs = Ok (w', e, ls) /\ WInv w' /\ Ext w w' /\
    Mono hm w w' /\ (e = 0 -> Forall2 (src_ok w w' hm) srcrefs ls).
Proof.
  (* per source: clone it, add the clone to [hm], link to it or to the equal reference [hm] lists; [Mono] keeps the links made so far *)
  induction srcrefs as [|r l IH]; intros w hm I Lh V; simpl.
  - exists w, 0, []. split; [reflexivity|]. split; [exact I|]. split; [apply Ext_refl|]. split; [apply Mono_refl|]. constructor.
  - unfold clone_ref. destruct (nth_error_lt _ _ (V r (or_introl eq_refl))) as (o & Ho). rewrite Ho.
    destruct (alloc_good kR invR w (mkObj None (-1) (o_name o) (o_pay o)) I eq_refl) as (I1 & X1).
    destruct (add_reference_good (new_ref w (o_name o) (o_pay o)) hm (length (w_r w)) I1) as (w2 & e2 & R & I2 & X2).
    { exact Lh. } { simpl. rewrite app_length; simpl; lia. }
    rewrite R.
    destruct (add_reference_mono _ _ _ _ _ I1 R) as (M12 & LI).
    assert (M02 : Mono hm w w2) by (eapply Mono_trans; [apply Mono_new_ref|exact M12]).
    assert (X02 : Ext w w2) by (eapply Ext_trans; eauto).
    destruct (negb (e2 =? 0)) eqn:E2.
    { exists w2, e2, []. split; [reflexivity|]. split; [exact I2|]. split; [exact X02|]. split; [exact M02|]. intro; subst; discriminate. }
    apply negb_false_iff in E2. apply Z.eqb_eq in E2.
    assert (Hc1 : nth_error (w_r (new_ref w (o_name o) (o_pay o))) (length (w_r w)) = Some (mkObj None (-1) (o_name o) (o_pay o))) by (simpl; apply nth_error_app_last).
    specialize (LI E2 _ Hc1). simpl in LI.
    destruct (proj1 M12 _ _ Hc1) as (oc2 & Hc2 & Nc2 & Lc2). simpl in Nc2, Lc2.
    assert (LKc : LinkOK w2 hm (o_name o) (rp_len (o_pay o)) (length (w_r w))) by (split; [exists oc2; auto|exact LI]).
    assert (Lh2 : (hm < length (w_h w2))%nat) by (destruct X02; lia).
    match goal with |- context [match ?LNK with Ok _ => _ | Err e' => Err e' | Panic n => Panic n | Stuck => Stuck end] =>
      assert (LK : exists x, LNK = Ok x /\ LinkOK w2 hm (o_name o) (rp_len (o_pay o)) x) end.
    { destruct (owner_is _ _ _). { eexists; split; [reflexivity|exact LKc]. }
      rewrite Hc2. destruct (nth_error_lt _ _ Lh2) as (hd2 & Hh2). rewrite Hh2.
      destruct (find_equal_spec (t_items (h_R hd2)) w2 oc2 (items_valid_R _ _ _ I2 Hh2)) as (fr & FR & Fin). rewrite FR.
      destruct fr as [x|]; eexists; (split; [reflexivity|]); [|exact LKc].
      destruct (Fin x eq_refl) as (_ & hr & Hx & EQ). apply equal_refs_name in EQ. destruct EQ as (EN & EL).
      split; [|exact LI]. exists hr. split; auto. split; congruence. }
    destruct LK as (x & -> & LK).
    destruct (IH w2 hm I2 Lh2) as (w3 & e3 & ls & R3 & I3 & X3 & M23 & F3).
    { apply (valid_refs_ext w w2 l X02). intros y Hy; apply V; right; exact Hy. }
    rewrite R3. exists w3, e3, (x :: ls). split; [reflexivity|]. split; [exact I3|]. split; [eapply Ext_trans; eauto|].
    split; [eapply Mono_trans; eauto|]. intro E0. constructor.
    + exists o. split; auto. eapply LinkOK_mono; eauto.
    + eapply src_ok_back; eauto. intros y Hy; apply V; right; exact Hy.
Qed.

Definition srcs_ok (w w' : world) (hm : nat) (s : nat) (ls : list nat) : Prop :=
  exists hs, nth_error (w_h w) s = Some hs /\ Forall2 (src_ok w w' hm) (t_items (h_R hs)) ls.

Lemma src_ok_fwd : forall hm w w1 w' l ls, Mono hm w1 w' -> Forall2 (src_ok w w1 hm) l ls -> Forall2 (src_ok w w' hm) l ls.
Proof.
  intros hm w w1 w' l ls M F. induction F as [|r x l ls H F IH]; constructor; auto.
  destruct H as (o & Ho & LK). exists o. split; auto. eapply LinkOK_mono; eauto.
Qed.

Lemma srcs_ok_back : forall hm w w1 w' srcs lss, Mono hm w w1 -> WInv w -> (forall s, In s srcs -> s <> hm) ->
  Forall2 (srcs_ok w1 w' hm) srcs lss -> Forall2 (srcs_ok w w' hm) srcs lss.
Proof.
  intros hm w w1 w' srcs lss M I V F. induction F as [|s ls l lss H F IH]; constructor.
  - destruct H as (hs & Hs & FF). rewrite (proj2 (proj2 M)) in Hs by (apply V; left; reflexivity). exists hs. split; auto.
    eapply src_ok_back; eauto. eapply items_valid_R; eauto.
  - apply IH. intros y Hy. apply V. right; exact Hy.
Qed.

Lemma merge_srcs_spec : forall srcs w hm, WInv w -> (hm < length (w_h w))%nat ->
  (forall s, In s srcs -> (s < length (w_h w))%nat /\ s <> hm) ->
  exists w' e lss, merge_srcs w hm srcs = Ok (w', e, lss) /\ WInv w' /\ Ext w w' /\
    Mono hm w w' /\ (e = 0 -> Forall2 (srcs_ok w w' hm) srcs lss).
Proof.
  induction srcs as [|s l IH]; intros w hm I Lh V; simpl.
  - exists w, 0, []. split; [reflexivity|]. split; [exact I|]. split; [apply Ext_refl|]. split; [apply Mono_refl|]. constructor.
  - destruct (V s (or_introl eq_refl)) as (Ls & NEs). destruct (nth_error_lt _ _ Ls) as (hs & Hs). rewrite Hs.
    destruct (merge_refs_spec (t_items (h_R hs)) w hm I Lh (items_valid_R _ _ _ I Hs)) as (w1 & e1 & links & R & I1 & X1 & M01 & F1). rewrite R.
    destruct (negb (e1 =? 0)) eqn:E1.
    { exists w1, e1, []. split; [reflexivity|]. split; [exact I1|]. split; [exact X1|]. split; [exact M01|]. intro; subst; discriminate. }
    apply negb_false_iff in E1. apply Z.eqb_eq in E1. specialize (F1 E1).
    destruct (IH w1 hm I1) as (w2 & e2 & ls2 & R2 & I2 & X2 & M12 & F2). { destruct X1; lia. }
    { intros y Hy. destruct (V y (or_intror Hy)). split; auto. destruct X1; lia. }
    rewrite R2. exists w2, e2, (links :: ls2). split; [reflexivity|]. split; [exact I2|]. split; [eapply Ext_trans; eauto|].
    split; [eapply Mono_trans; eauto|]. intro E0. constructor.
    + exists hs. split; auto. eapply src_ok_fwd; eauto.
    + apply (srcs_ok_back hm w w1); auto. intros y Hy. apply (V y). right; exact Hy.
Qed.

(** a resolved link: owned and listed by the merged header, same name and length as the source *)
Definition link_good (w w' : world) (hm : nat) (r y : nat) : Prop :=
  exists o oy hd, nth_error (w_r w) r = Some o /\ nth_error (w_r w') y = Some oy /\
    o_owner oy = Some hm /\ nth_error (w_h w') hm = Some hd /\ 0 <= o_id oy /\
    nth_error (t_items (h_R hd)) (Z.to_nat (o_id oy)) = Some y /\
    o_name oy = o_name o /\ rp_len (o_pay oy) = rp_len (o_pay o).

Lemma resolve_link_spec : forall w w' hm r x, WInv w' -> src_ok w w' hm r x ->
  exists y, resolve_link w' hm x = Ok y /\ link_good w w' hm r y.
Proof.
  intros w w' hm r x I (o & Ho & ((ox & Hx & Hn & Hl) & (hd & os & oz & Hh & Hos & Hin & Hnz & Hlz))).
  apply In_nth_error in Hin. destruct Hin as (i & Hin). apply (objs_nth _ _ _ Hos) in Hin. destruct Hin as (z & Hi & Hz).
  assert (M : mget (o_name o) (t_seen (h_R hd)) = Some (Z.of_nat i)).
  { apply (ti_seen _ _ _ (lens_TInv kR invR w' hm hd I Hh)). exists i, z, oz. auto. }
  unfold resolve_link, owner_is. rewrite Hx.
  assert (KR := proj1 I). assert (Ht : nth_error (map h_R (w_h w')) hm = Some (h_R hd)) by (rewrite nth_error_map, Hh; reflexivity).
  assert (TI := proj1 KR _ _ Ht).
  assert (G : link_good w w' hm r z).
  { destruct (ti_obj _ _ _ TI _ _ Hi) as (oz' & Hz' & Hwz & Hidz). rewrite Hz in Hz'. inversion Hz'; subst oz'.
    exists o, oz, hd. rewrite Hidz, Nat2Z.id. repeat split; auto; try lia; congruence. }
  (* a link owned by the merged header stands; any other is looked up by name, which finds [z] *)
  destruct (o_owner ox) as [h'|] eqn:Hw; [destruct (Nat.eqb h' hm) eqn:E|]; [|rewrite Hh, Hn, M, idx_of_nat, Hi; eauto..].
  apply Nat.eqb_eq in E. subst h'. exists x. split; auto.
  destruct (proj2 KR _ _ _ Hx Hw) as (t & Ht' & Hl' & Hp'). rewrite Ht in Ht'. inversion Ht'; subst t.
  exists o, ox, hd. repeat split; auto.
Qed.

Lemma omap_resolve : forall w w' hm l ls, WInv w' -> Forall2 (src_ok w w' hm) l ls ->
  exists ys, omap (resolve_link w' hm) ls = Ok ys /\ Forall2 (link_good w w' hm) l ys.
Proof.
  intros w w' hm l ls I F. induction F as [|r x l ls H F IH]; simpl.
  - exists []. split; auto.
  - destruct (resolve_link_spec _ _ _ _ _ I H) as (y & R & G). rewrite R. destruct IH as (ys & -> & FF).
    exists (y :: ys). split; auto.
Qed.

Definition links_good (w w' : world) (hm : nat) (s : nat) (ys : list nat) : Prop :=
  exists hs, nth_error (w_h w) s = Some hs /\ Forall2 (link_good w w' hm) (t_items (h_R hs)) ys.

Lemma omap_resolve_all : forall w w' hm srcs lss, WInv w' -> Forall2 (srcs_ok w w' hm) srcs lss ->
  exists yss, omap (omap (resolve_link w' hm)) lss = Ok yss /\ Forall2 (links_good w w' hm) srcs yss.
Proof.
  intros w w' hm srcs lss I F. induction F as [|s ls srcs lss H F IH]; simpl.
  - exists []. split; auto.
  - destruct H as (hs & Hs & FF). destruct (omap_resolve _ _ _ _ _ I FF) as (ys & -> & G). destruct IH as (yss & -> & GG).
    exists (ys :: yss). split; auto. constructor; auto. exists hs. auto.
Qed.

Lemma Mono_cloned : forall w hd rs gs ps hd', Mono (length (w_h w)) w (put_hdr (cloned w hd rs gs ps) (length (w_h w)) hd').
Proof.
  intros. split; [|split].
  - intros x o Ho. exists o. simpl. rewrite nth_error_app1; [auto|eapply nth_error_valid; eauto].
  - intros n l (hd0 & os & o & Hh & _). apply nth_error_valid in Hh. lia.
  - intros s Hs. simpl. rewrite nth_error_upd_ne by auto. destruct (Nat.lt_ge_cases s (length (w_h w))) as [L|L].
    + apply nth_error_app1. exact L.
    + rewrite (proj2 (nth_error_None (w_h w) s) L). apply nth_error_None. rewrite app_length. simpl. lia.
Qed.

Lemma merge_headers_spec : forall w s0 srcs, WInv w -> (s0 < length (w_h w))%nat -> (forall s, In s srcs -> (s < length (w_h w))%nat) ->
  exists w' e links, merge_headers w s0 srcs = Ok (w', e, links) /\ WInv w' /\ Ext w w' /\ (length (w_h w) < length (w_h w'))%nat /\
    (e = 0 -> Forall2 (links_good w w' (length (w_h w))) (s0 :: srcs) links).
Proof.
  intros w s0 srcs I L0 V. unfold merge_headers. destruct (nth_error_lt _ _ L0) as (hd0 & Hh0).
  destruct (clone_header_spec w s0 hd0 I Hh0) as (rs & gs & ps & Hr & _ & _ & -> & I1).
  set (hm := length (w_h w)) in *. set (w1 := cloned w hd0 rs gs ps) in *.
  assert (Lh1 : (hm < length (w_h w1))%nat) by (unfold w1, cloned; simpl; rewrite app_length; simpl; lia).
  assert (Hh : nth_error (w_h w1) hm = Some (last (w_h w1) hd0)) by (unfold w1, cloned, hm; simpl; rewrite last_last; apply nth_error_app_last).
  rewrite Hh. set (hd := last (w_h w1) hd0) in *. set (hd2 := set_hd hd (h_vn hd) 0 0 (h_other hd)).
  set (w2 := put_hdr w1 hm hd2).
  assert (I2 : WInv w2) by (eapply WInv_put_same; eauto).
  assert (Lh2 : (hm < length (w_h w2))%nat) by (unfold w2; simpl; rewrite upd_length; exact Lh1).
  assert (X02 : Ext w w2) by (eapply Ext_trans; [apply Ext_cloned|apply Ext_put]).
  assert (V2 : forall s, In s srcs -> (s < length (w_h w2))%nat /\ s <> hm) by (intros s Hs; specialize (V s Hs); unfold hm; lia).
  destruct (merge_srcs_spec srcs w2 hm I2 Lh2 V2) as (w3 & e & ls & R3 & I3 & X3 & M23 & F3). rewrite R3.
  assert (X03 : Ext w w3) by (eapply Ext_trans; eauto).
  assert (L3 : (hm < length (w_h w3))%nat) by (destruct X3; lia).
  destruct (negb (e =? 0)) eqn:E0.
  { exists w3, e, []. split; auto. split; auto. split; auto. split; auto. intro; subst; discriminate. }
  apply negb_false_iff in E0. apply Z.eqb_eq in E0. specialize (F3 E0).
  (* the first source: its references were copied by Clone, in order *)
  assert (F0 : srcs_ok w w3 hm s0 (t_items (h_R hd))).
  { exists hd0. split; [exact Hh0|]. unfold hd, w1, cloned; simpl. rewrite last_last. cbn [h_R t_items].
    rewrite (objs_length _ _ _ Hr). apply Forall2_seq. intros i x Hi.
    destruct (nth_error_lt rs i) as (o & Hoi); [rewrite (objs_length _ _ _ Hr); eapply nth_error_valid; eauto|].
    assert (Hx : nth_error (w_r w) x = Some o) by (destruct (proj1 (objs_nth _ _ _ Hr i o) Hoi) as (x' & Hx' & E); congruence).
    exists o. split; [exact Hx|]. eapply LinkOK_mono; [exact M23|].
    assert (Hc : nth_error (w_r w2) (length (w_r w) + i) = Some (copy_of hm o)).
    { unfold w2, w1, cloned; simpl. rewrite nth_error_app2 by lia. replace (length (w_r w) + i - length (w_r w))%nat with i by lia.
      rewrite nth_error_map, Hoi. reflexivity. }
    split; [exists (copy_of hm o); auto|].
    exists hd2, (map (copy_of hm) rs), (copy_of hm o). split; [apply nth_put_hdr; exact Lh1|].
    unfold hd2, hd, w2, w1, cloned; simpl. rewrite last_last. cbn [h_R t_items].
    split; [rewrite <- (map_length (copy_of hm) rs); apply objs_seq|]. split; [apply in_map; eapply nth_error_In; eauto|auto]. }
  assert (F3' : Forall2 (srcs_ok w w3 hm) srcs ls).
  { apply (srcs_ok_back hm w w2); auto; [apply Mono_cloned|]. intros s Hs. apply (V2 s Hs). }
  destruct (omap_resolve_all w w3 hm (s0 :: srcs) (t_items (h_R hd) :: ls) I3) as (yss & OM & GG).
  { constructor; auto. }
  rewrite OM. exists w3, 0, yss. subst e. split; [reflexivity|]. split; [exact I3|]. split; [exact X03|]. split; [exact L3|]. intros _. exact GG.
Qed.
