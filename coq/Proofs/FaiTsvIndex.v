(** C19: the index NewIndex builds for a well-formed file survives
    WriteTo / ReadFrom unchanged. *)
From Coq Require Import ZArith Lia List Bool Permutation.
From Hts Require Import Base.Prim Base.WrList Model.Fai Proofs.FaiBase Proofs.FaiIndex Proofs.FaiTsv.
Open Scope Z_scope.

Lemma entries_names fin rs : forall off, map r_name (entries fin off rs) = map s_name rs.
Proof.
  induction rs as [|r t IH]; intros off; [reflexivity|].
  rewrite entries_cons. cbn [map]. rewrite IH, entry_name. reflexivity.
Qed.

Lemma nodup_names_NoDup rs : nodup_names rs = true -> NoDup (map s_name rs).
Proof.
  induction rs as [|r t IH]; intros H; [constructor|].
  destruct (nodup_names_cons _ _ H) as [Hdiff Hnd]. cbn [map]. constructor; [|apply IH; assumption].
  intros Hin. apply in_map_iff in Hin as (x & Hx & Hin).
  specialize (Hdiff x Hin). rewrite Hx, bytes_eqb_refl in Hdiff. discriminate.
Qed.

(** [within lo hi e]: the entry points into bytes lo+1 .. hi of the file, its
    numbers are bounded by [hi], and the line of its last base starts at most
    two bytes after [hi] (a last line of full width counts as one more line). *)
Definition within (lo hi : Z) (e : frec) : Prop :=
  lo + 1 <= r_start e <= hi /\ 0 <= r_len e <= hi /\ 0 <= r_bases e <= hi /\ 0 <= r_bytes e <= hi /\
  (r_bases e = 0 /\ r_len e = 0 \/
   1 <= r_bases e <= r_bytes e /\ r_start e + r_len e / r_bases e * r_bytes e <= hi + 2).

Lemma within_mono lo hi lo' hi' e : lo' <= lo -> hi <= hi' -> within lo hi e -> within lo' hi' e.
Proof. unfold within. lia. Qed.

(** The entry of a body in numbers: header of [hl] bytes, [k] full lines of
    [w] bases, a last line of [m], terminators of [t] bytes ([s] after the
    last line), [bl] bytes of blank lines.  The last base sits on line [k], or
    on line [k+1] column 0 when [m = w]. *)
Lemma within_body name off hl k w m t s bl Y :
  0 <= off -> 1 <= hl -> 1 <= m <= w -> 1 <= t <= 2 -> 0 <= s <= t -> 0 <= bl ->
  (k = 0 /\ w = m /\ Y = w + s \/ 1 <= k /\ Y = w + t) ->
  within off (off + (hl + (k * (w + t) + (m + s) + bl))) (mkRec name (k * w + m) (off + hl) w Y).
Proof.
  intros Hoff Hhl Hm Ht Hs Hbl HY. unfold within. cbn [r_len r_start r_bases r_bytes].
  assert (Hdiv : (k * w + m) / w = k + (if m =? w then 1 else 0)).
  { rewrite Z.div_add_l by lia.
    destruct (Z.eqb_spec m w) as [->|]; [rewrite Z_div_same_full|rewrite Z.div_small]; lia. }
  rewrite Hdiv. destruct HY as [(-> & -> & ->)|(Hk & ->)].
  - rewrite Z.eqb_refl. lia.
  - assert (w <= k * w /\ t <= k * t) by nia. destruct (Z.eqb_spec m w); lia.
Qed.

Lemma within_entry nl off r : wf_rec nl r = true -> 0 <= off ->
  within off (off + zlen (render_rec nl r)) (entry nl off r).
Proof.
  intros Hwf Hoff. pose proof (term_zlen_pos (s_crlf r)) as Ht.
  pose proof (zlen_nonneg (blanks (s_blanks r))) as Hb.
  unfold entry, render_rec. destruct (is_empty r) eqn:He.
  { unfold within. cbn [r_len r_start r_bases r_bytes]. rewrite !zlen_app', zlen_cons. unfold tlen.
    pose proof (zlen_nonneg (s_name r ++ s_desc r)).
    destruct nl; cbv iota; rewrite ?(@zlen_nil Z); lia. }
  destruct (wf_rec_parts _ _ Hwf He) as (_ & _ & _ & Hf & Hl & _).
  pose proof (full_widths _ _ Hf) as Hw.
  unfold render_body, tlen.
  rewrite !zlen_app', zlen_concat_bases, (zlen_concat_full _ _ Hw), (zlen_concat_term _ _ (s_crlf r) Hw).
  assert (Hh : 1 <= zlen (render_header r)).
  { unfold render_header. rewrite zlen_cons. pose proof (zlen_nonneg (s_name r ++ s_desc r ++ term (s_crlf r))). lia. }
  assert (Htl : zlen (term (s_crlf r)) <= 2) by (destruct (s_crlf r); cbv; congruence).
  apply within_body; try lia.
  - destruct nl; cbv iota; rewrite ?(@zlen_nil Z); lia.
  - unfold width, first_line. destruct (s_full r) as [|l0 fl]; [left|right; rewrite zlen_cons; pose proof (zlen_nonneg fl); lia].
    repeat split. destruct nl; cbv iota; rewrite ?(@zlen_nil Z); reflexivity.
Qed.

Lemma entries_props rs : forall fin off,
  wf_recs fin rs = true -> 0 <= off ->
  inc_starts (entries fin off rs) = true /\
  Forall (within off (off + zlen (render_recs fin rs))) (entries fin off rs).
Proof.
  induction rs as [|r t IH]; intros fin off Hwf Hoff.
  - split; [reflexivity|constructor].
  - rewrite wf_recs_cons in Hwf. apply andb_true_iff in Hwf as [Hwr Hwt].
    rewrite entries_cons, render_recs_cons, zlen_app'.
    pose proof (within_entry _ off r Hwr Hoff) as HB.
    pose proof (zlen_nonneg (render_rec true r)) as Hr0.
    pose proof (zlen_nonneg (render_recs fin t)) as Ht0.
    destruct (IH fin (off + zlen (render_rec true r)) Hwt ltac:(lia)) as [Hinc Hall].
    destruct t as [|r' t']; [split; [reflexivity|]; constructor; [|constructor]; revert HB; apply within_mono; lia|].
    split.
    + cbn [inc_starts]. rewrite entries_cons in *. apply andb_true_iff. split; [|exact Hinc].
      inversion Hall as [|? ? Hy _]; subst. apply Z.ltb_lt. destruct HB, Hy. lia.
    + constructor; [revert HB; apply within_mono; lia|].
      eapply Forall_impl; [|exact Hall]. intros e. apply within_mono; lia.
Qed.

Lemma namech_plain c : namech c = true -> plainch c = true.
Proof.
  unfold namech, plainch. intros H. bprop.
  apply andb_true_iff; split; apply negb_true_iff, Z.eqb_neq; lia.
Qed.

Lemma wf_recs_names fin rs : wf_recs fin rs = true ->
  Forall (fun r => forallb namech (s_name r) = true) rs.
Proof.
  induction rs as [|r t IH]; [constructor|]. rewrite wf_recs_cons. intros H.
  apply andb_true_iff in H as [Hr Ht]. constructor; [apply (wf_rec_head _ _ Hr) | auto].
Qed.

Lemma geometry_ok_zero r :
  r_len r = 0 -> r_bases r = 0 -> 0 <= r_start r -> 0 <= r_bytes r -> geometry_ok r = true.
Proof.
  intros HL HB HS HY. unfold geometry_ok. rewrite HL, HB.
  destruct (Z.ltb_spec (r_start r) 0); [lia|]. destruct (Z.ltb_spec (r_bytes r) 0); [lia|]. reflexivity.
Qed.

Lemma geometry_ok_intro r :
  0 <= r_len r -> 0 <= r_start r -> 1 <= r_bases r <= r_bytes r ->
  r_start r + r_len r / r_bases r * r_bytes r + r_bases r <= 2 ^ 63 - 1 ->
  geometry_ok r = true.
Proof.
  intros HL HS HB Hroom. unfold geometry_ok.
  pose proof (Z.div_pos (r_len r) (r_bases r) HL ltac:(lia)) as Hq0.
  assert (Hprod : 0 <= r_len r / r_bases r * r_bytes r) by nia.
  destruct (Z.ltb_spec (r_len r) 0); [lia|]. destruct (Z.ltb_spec (r_start r) 0); [lia|].
  destruct (Z.ltb_spec (r_bases r) 0); [lia|]. destruct (Z.eqb_spec (r_bases r) 0); [lia|].
  cbn [orb andb negb]. destruct (Z.ltb_spec (r_bytes r) (r_bases r)); [lia|].
  cbv zeta. destruct (Z.ltb_spec (2 ^ 63 - 1 - r_bases r) (r_start r)); [lia|]. cbn [orb].
  rewrite !Z.quot_div_nonneg by lia.
  destruct (Z.ltb_spec ((2 ^ 63 - 1 - r_bases r - r_start r) / r_bytes r) (r_len r / r_bases r)) as [Hlt|]; [|reflexivity].
  exfalso. assert (r_len r / r_bases r <= (2 ^ 63 - 1 - r_bases r - r_start r) / r_bytes r); [|lia].
  apply Z.div_le_lower_bound; lia.
Qed.

Theorem tsv_roundtrip_index f :
  wf f = true -> 2 * zlen (render f) + 2 < 2 ^ 63 ->
  readfrom (writeto (index_of f)) = Ok (index_of f).
Proof.
  intros Hwf Hsize. pose proof Hwf as Hwf'. unfold wf in Hwf'. bprop.
  pose proof (zlen_nonneg (blanks (f_lead f))) as Hl0.
  destruct (entries_props (f_recs f) (f_final_nl f) (zlen (blanks (f_lead f))) ltac:(assumption) Hl0) as [Hinc Hall].
  fold (index_of f) in Hinc, Hall.
  unfold render in Hsize. rewrite zlen_app' in Hsize.
  destruct (tsv_roundtrip (index_of f)) as [Hrt _].
  - unfold index_of. rewrite entries_names. apply nodup_names_NoDup. assumption.
  - assert (Hplain : Forall (fun e => forallb plainch (r_name e) = true) (index_of f)).
    { apply (Forall_map r_name (fun n => forallb plainch n = true)). unfold index_of. rewrite entries_names.
      apply (Forall_map s_name (fun n => forallb plainch n = true)).
      eapply Forall_impl; [|eapply wf_recs_names; eassumption]. intros r. apply forallb_impl, namech_plain. }
    apply Forall_forall. intros e He.
    rewrite Forall_forall in Hall, Hplain. specialize (Hall e He). specialize (Hplain e He).
    destruct Hall as (Hs & Hl1 & Hb1 & Hy1 & Hgeo).
    unfold good_rec, int64. split; [assumption|]. repeat (split; [lia|]).
    destruct Hgeo as [[HB0 HL0]|[HB1 Hroom]]; [apply geometry_ok_zero | apply geometry_ok_intro]; lia.
  - rewrite Hrt. rewrite sort_sorted by assumption. reflexivity.
Qed.
