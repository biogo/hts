(** C11 — how the decoder models are shown never to panic or hang.
    [post o P]: the modelled call returned a value that satisfies [P], or an
    error. [safe o] is [post o (fun _ => True)] up to conversion, so the rules
    below apply to [safe] goals as they stand, and totality of a decoder and
    what holds of the value it returns come out of one walk over the text of its
    model: [post_chk] (or [post_inb], [post_slice], [post_make]) at a checked
    operation, [post_bind] at a sequencing, [post_take] or a reader's own [post]
    fact at a read, the induction hypothesis at the recursive call of a fuelled loop. *)
From Coq Require Import ZArith Lia List Bool.
From Hts Require Import Base.Prim Base.DecBase.
From Hts Require Export Base.Bits Base.BytesLE.
Open Scope Z_scope.

Definition post {A} (o : outcome A) (P : A -> Prop) : Prop :=
  match o with Ok a => P a | Err _ => True | _ => False end.

Lemma post_safe {A} (o : outcome A) P : post o P -> safe o.
Proof. destruct o; simpl; auto. Qed.

Lemma post_ok {A} (o : outcome A) P a : post o P -> o = Ok a -> P a.
Proof. intros H ->. exact H. Qed.

Lemma post_split {A} (o : outcome A) P : post o P -> safe o /\ forall a, o = Ok a -> P a.
Proof. intros H. split; [exact (post_safe o P H)|intros a; exact (post_ok o P a H)]. Qed.

Lemma post_weaken {A} (o : outcome A) (Q P : A -> Prop) : post o Q -> (forall a, Q a -> P a) -> post o P.
Proof. destruct o; simpl; auto. Qed.

Lemma post_ret {A} (a : A) (P : A -> Prop) : P a -> post (Ok a) P.
Proof. exact (fun H => H). Qed.

Lemma post_bind {A B} (o : outcome A) (f : A -> outcome B) Q P :
  post o Q -> (forall a, Q a -> post (f a) P) -> post (obind o f) P.
Proof. destruct o; simpl; auto. Qed.

(** The shape [x <- o ;; let '(a, b) := x in ...] of a read that returns a value and the new state. *)
Lemma post_bind2 {A B C} (o : outcome (A * B)) (f : A -> B -> outcome C) Q P :
  post o Q -> (forall a b, Q (a, b) -> post (f a b) P) ->
  post (x <- o ;; let '(a, b) := x in f a b) P.
Proof. destruct o as [[a b]| | |]; simpl; auto. Qed.

Lemma post_chk {A} (c : bool) (k : outcome A) P : c = true -> post k P -> post (chk c k) P.
Proof. intros ->. auto. Qed.

Arguments post_safe {A o P}.
Arguments post_ok {A o P a}.
Arguments post_split {A o P}.
Arguments post_weaken {A o Q P}.
Arguments post_bind {A B o f Q P}.
Arguments post_bind2 {A B C o f Q P}.

(** [lia] decides a check written with [<=?], [<?], [=?], [&&], [||], [negb]: a raw
    check is [apply post_chk; [lia|]]. *)
Lemma slice_ok_true l lo hi : 0 <= lo <= hi -> hi <= zlen l -> slice_ok l lo hi = true.
Proof. unfold slice_ok. lia. Qed.

Lemma post_inb {A B} (l : list A) i (k : outcome B) P : 0 <= i < zlen l -> post k P -> post (chk (inb l i) k) P.
Proof. intros H. apply post_chk, inb_true, H. Qed.

Lemma post_slice {B} l lo hi (k : outcome B) P :
  0 <= lo <= hi -> hi <= zlen l -> post k P -> post (chk (slice_ok l lo hi) k) P.
Proof. intros H1 H2. apply post_chk, slice_ok_true; assumption. Qed.

Lemma post_make {B} n (k : outcome B) P : 0 <= n -> post k P -> post (chk (make_ok n) k) P.
Proof. intros H. apply post_chk, Z.leb_le, H. Qed.

Lemma zlen_sub l lo hi : 0 <= lo <= hi -> hi <= zlen l -> zlen (sub l lo hi) = hi - lo.
Proof. intros H1 H2. unfold sub. rewrite zlen_firstn, zlen_skipn, !Z2Nat.id by lia. lia. Qed.

Lemma all_bytes_getz l : all_bytes l = true -> forall i, 0 <= i < zlen l -> 0 <= getz l i < 256.
Proof.
  intros H i Hi. apply is_byte_iff. unfold all_bytes in H. rewrite forallb_forall in H.
  apply H, nth_In. unfold zlen in Hi. lia.
Qed.

Lemma all_bytes_sub l lo hi : all_bytes l = true -> all_bytes (sub l lo hi) = true.
Proof. intros H. apply all_bytes_firstn, all_bytes_skipn, H. Qed.

Lemma nth_firstn_lt {A} : forall (n i : nat) (l : list A) d, (i < n)%nat -> nth i (firstn n l) d = nth i l d.
Proof.
  induction n; intros i l d H; [lia|]. destruct l; [destruct i; reflexivity|].
  destruct i; simpl; [reflexivity|apply IHn; lia].
Qed.

Lemma nth_skipn {A} : forall (n i : nat) (l : list A) d, nth i (skipn n l) d = nth (n + i) l d.
Proof. induction n; intros i l d; [reflexivity|]. destruct l; simpl; [destruct i; reflexivity|apply IHn]. Qed.

Lemma skipn_skipn {A} : forall (m n : nat) (l : list A), skipn m (skipn n l) = skipn (n + m) l.
Proof. induction n; intros l; [reflexivity|]. destruct l; [apply skipn_nil|apply IHn]. Qed.

Lemma getz_sub l lo hi k : 0 <= lo -> 0 <= k < hi - lo -> getz (sub l lo hi) k = getz l (lo + k).
Proof.
  intros H1 H3. unfold sub, getz.
  rewrite nth_firstn_lt, nth_skipn, Z2Nat.inj_add by (try apply Z2Nat.inj_lt; lia). reflexivity.
Qed.

Lemma sub_sub l lo hi a b : 0 <= lo -> 0 <= a <= b -> b <= hi - lo ->
  sub (sub l lo hi) a b = sub l (lo + a) (lo + b).
Proof.
  intros H1 [Ha Hab] H3. unfold sub. replace (lo + b - (lo + a)) with (b - a) by lia.
  rewrite skipn_firstn_comm, firstn_firstn, skipn_skipn, <- Z2Nat.inj_add, <- Z2Nat.inj_sub by assumption.
  rewrite Nat.min_l; [reflexivity|]. apply Z2Nat.inj_le; lia.
Qed.

(** A property of every entry of a table and its index, checked in one pass over the table. *)
Fixpoint forallbi (P : Z -> Z -> bool) (i : Z) (l : list Z) : bool :=
  match l with [] => true | x :: r => P i x && forallbi P (i + 1) r end.

Lemma forallbi_getz P l : forall i k, forallbi P i l = true -> 0 <= k < zlen l -> P (i + k) (getz l k) = true.
Proof.
  induction l as [|x r IH]; intros i k H Hk; [change (zlen (@nil Z)) with 0 in Hk; lia|].
  rewrite zlen_cons in Hk. apply andb_true_iff in H as [Hx Hr].
  destruct (Z.eq_dec k 0) as [->|]; [rewrite Z.add_0_r; exact Hx|].
  replace (i + k) with (i + 1 + (k - 1)) by lia. replace (getz (x :: r) k) with (getz r (k - 1)); [apply IH; [exact Hr|lia]|].
  unfold getz. replace (Z.to_nat k) with (S (Z.to_nat (k - 1))) by lia. reflexivity.
Qed.

(** [le_bytes] is the BAM codec model's [le_get] under another name, so the
    facts of Base/BytesLE.v hold of it by conversion. *)
Lemma le_bytes_range l : all_bytes l = true -> 0 <= le_bytes l < 256 ^ zlen l.
Proof. exact (le_get_range l). Qed.

Lemma shiftr_1 x : Z.shiftr x 1 = x / 2.
Proof. exact (shiftr_div x 1 ltac:(lia)). Qed.
Lemma land_1 x : Z.land x 1 = x mod 2.
Proof. exact (land_ones_mod x 1 ltac:(lia)). Qed.

Lemma take_spec n s b s' : take n s = Some (b, s') ->
  zlen b = n /\ zlen s' + n = zlen s /\ (all_bytes s = true -> all_bytes b = true /\ all_bytes s' = true).
Proof.
  intros E. pose proof (take_len n s b s' E) as L. unfold take in E.
  destruct ((0 <=? n) && (n <=? zlen s)); [|discriminate]. injection E as <- <-.
  split; [lia|]. split; [lia|]. intros H. split; [apply all_bytes_firstn|apply all_bytes_skipn]; exact H.
Qed.

(** A read of [n] bytes in the text of a model: [d] is what a short read gives. *)
Lemma post_take {B} n s (d : outcome B) (f : list Z -> list Z -> outcome B) P :
  post d P ->
  (forall b s', zlen b = n -> zlen s' + n = zlen s -> (all_bytes s = true -> all_bytes b = true /\ all_bytes s' = true) ->
     post (f b s') P) ->
  post (match take n s with Some (b, s') => f b s' | None => d end) P.
Proof.
  intros Hd Hf. destruct (take n s) as [[b s']|] eqn:E; [|exact Hd].
  apply take_spec in E as (Lb & L & Hb). exact (Hf b s' Lb L Hb).
Qed.

Lemma rd_u_ok n s :
  post (rd_u n s) (fun '(v, s') => zlen s' + n = zlen s /\ (all_bytes s = true -> 0 <= v /\ all_bytes s' = true)).
Proof.
  apply post_take; [exact I|]. intros b s' _ L B.
  split; [exact L|]. intros H. destruct (B H) as [Bb Bs]. split; [apply le_bytes_range, Bb|exact Bs].
Qed.

Lemma rd_i32_ok s :
  post (rd_i32 s) (fun '(v, s') => - 2 ^ 31 <= v < 2 ^ 31 /\ zlen s' + 4 = zlen s /\ (all_bytes s = true -> all_bytes s' = true)).
Proof.
  apply post_take; [exact I|]. intros b s' _ L B. split; [apply s32_range|]. split; [exact L|apply B].
Qed.

(** The fuel the models give a loop over a stream: more than its length. *)
Lemma zlen_lt_fuel {A} (l : list A) : zlen l < Z.of_nat (S (length l)).
Proof. unfold zlen. lia. Qed.
