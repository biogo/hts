(** What the output of the writer is, for C01, C08, C12: from the framing
    lemmas (Proofs/Bgzf.v), the sequential invariant (Proofs/Writer.v) and the
    pipeline invariant (Proofs/WriterConc.v). *)
From Coq Require Import ZArith Lia List Bool.
From Hts Require Import Base.Prim Base.WrList Generated Model.Bgzf Model.Writer Model.WriterConc
  Proofs.Bgzf Proofs.Writer Proofs.WriterConc.
Import ListNotations.
Open Scope Z_scope.

(** The back-patch extracted from the Go source hits the BC subfield. *)
Lemma gen_patch_at_12 : patch_at_12 bgzf_wr_patch_mode bgzf_wr_patch_guard.
Proof.
  unfold patch_at_12, bgzf_wr_patch_mode, bgzf_wr_patch_guard, patch_pos. intros pre x0 x1 rest H.
  rewrite <- H. rewrite skipn_zlen_app. reflexivity.
Qed.

(** The refusal test extracted from the Go source is `size >= MaxBlockSize`
    (gen/ emits [false] for any other comparison). *)
Lemma gen_overflow_check : bgzf_wr_overflow_check = true.
Proof. reflexivity. Qed.

(** The first-occurrence search of the original code lands in MTIME when
    ModTime = 0x24342 s: offsets 8/9 (XFL, OS) get the size, BSIZE stays 0. *)
Definition mtime_24342 : gzhdr := {| h_mtime := 148290; h_os := 255; h_extra := []; h_name := []; h_comment := [] |}.

Lemma first_index_hits_mtime deflate crc32 lvl p :
  patch_pos PatchFirstIndex true (raw_member deflate crc32 lvl mtime_24342 p) = Some 4.
Proof. reflexivity. Qed.

Lemma compress_bound_fits :
  exists v, bgzf_compressBound bgzf_BlockSize = Ok v /\ v <= bgzf_MaxBlockSize.
Proof. eexists. split; [reflexivity|]. vm_compute. discriminate. Qed.

Lemma has_eof_app_magic x : has_eof (x ++ bgzf_magicBlock) = true.
Proof.
  unfold has_eof. rewrite zlen_app'. pose proof (zlen_nonneg x).
  replace (zlen bgzf_magicBlock <=? zlen x + zlen bgzf_magicBlock) with true by (symmetry; apply Z.leb_le; lia).
  rewrite app_length. replace (length x + length bgzf_magicBlock - length bgzf_magicBlock)%nat with (length x) by lia.
  rewrite skipn_app, Nat.sub_diag, skipn_all. cbn [skipn app]. apply zeqb_refl.
Qed.

Lemma prefix_firstn {A} (d l : list A) : prefix_of d l -> firstn (length d) l = d /\ (length d <= length l)%nat.
Proof. intros [t ->]. rewrite firstn_app, Nat.sub_diag, firstn_all, app_length. cbn. rewrite app_nil_r. split; [reflexivity|lia]. Qed.

Lemma prefix_of_full {A} (d l : list A) : prefix_of d l -> zlen l <= zlen d -> d = l.
Proof.
  intros [t ->] H. rewrite zlen_app' in H. pose proof (zlen_nonneg t).
  assert (t = []) by (apply zlen_0_nil; lia). subst. rewrite app_nil_r. reflexivity.
Qed.

(** What is assumed of DEFLATE and CRC-32 (validated against compress/flate and
    hash/crc32 at run time, harness mode "laws"). *)
Definition codec_laws (deflate : Z -> list Z -> list Z) (inflate : list Z -> option (list Z * list Z))
           (crc32 : list Z -> Z) : Prop :=
  (forall l d rest, inflate (deflate l d ++ rest) = Some (d, rest))
  /\ (forall l d, zlen (deflate l d) <= zlen d + zlen d / 2^12 + zlen d / 2^14 + zlen d / 2^25 + 13)
  /\ (forall rest, inflate (3 :: 0 :: rest) = Some ([], rest))
  /\ crc32 [] = 0.

(** Two more facts about the compressor, needed only for "marker => closed":
    every DEFLATE stream has at least two bytes, and the encoding of the empty
    payload does not end in 03 00 (the tail of the marker's stream).  Both are
    checked against compress/flate at every level on every run. *)
Definition codec_laws_eof (deflate : Z -> list Z -> list Z) : Prop :=
  (forall l d, 2 <= zlen (deflate l d))
  /\ (forall l, skipn (length (deflate l []) - 2) (deflate l []) <> [3; 0]).

(** Legal for compress/gzip and leaving room for a full block. *)
Definition hdr_ok (h : gzhdr) : Prop := hdr_legal h /\ hdr_small h.

Lemma default_hdr_ok : hdr_ok default_hdr.
Proof. split; [reflexivity|]. unfold hdr_small, hdr_len. cbn. lia. Qed.

Lemma mtime_24342_ok : hdr_ok mtime_24342.
Proof. split; [reflexivity|]. unfold hdr_small, hdr_len. cbn. lia. Qed.

Definition wr_out deflate crc32 lvl h (s : sst) : list Z :=
  seq_out deflate crc32 bgzf_wr_patch_mode bgzf_wr_patch_guard bgzf_wr_overflow_check lvl h s.
Definition wr_conc deflate crc32 lvl h wc script sched : cst :=
  run_conc deflate crc32 bgzf_wr_patch_mode bgzf_wr_patch_guard bgzf_wr_overflow_check lvl h no_fault wc script sched.

Definition quiescent (st : cst) : Prop := x_queue st = [] /\ x_held st = None.

Lemma quiescent_pending st : quiescent st -> pending st = [].
Proof. intros [Hq Hh]. unfold pending, held_pending. rewrite Hq, Hh. destruct (x_epc st); reflexivity. Qed.

Section Wf.
  Variable inflate : list Z -> option (list Z * list Z).
  Variable crc32 : list Z -> Z.

  Definition member_wf (m p : list Z) : Prop :=
    zlen p <= 65280 /\ zlen m <= 65536
    /\ firstn 4 (skipn 12 m) = [66; 67; 2; 0]
    /\ getz m 16 + 256 * getz m 17 = zlen m - 1
    /\ forall r, gunzip_member inflate crc32 (m ++ r) = Some (p, r).
End Wf.

Section Thms.
  Variables (deflate : Z -> list Z -> list Z) (inflate : list Z -> option (list Z * list Z)) (crc32 : list Z -> Z).
  Hypothesis laws : codec_laws deflate inflate crc32.
  Variables (lvl : Z) (h : gzhdr).
  Hypothesis ok : hdr_ok h.

  Let inflate_deflate := proj1 laws.
  Let deflate_bound := proj1 (proj2 laws).
  Let inflate_empty := proj1 (proj2 (proj2 laws)).
  Let crc32_nil := proj2 (proj2 (proj2 laws)).
  Let Hl := proj1 ok.
  Let Hs := proj2 ok.

  Local Notation Mb := (member_of deflate crc32 lvl h).
  Local Notation marker e := (if e then [bgzf_magicBlock] else []).
  Local Notation chunks := (seq_chunks deflate crc32 bgzf_wr_patch_mode bgzf_wr_patch_guard bgzf_wr_overflow_check lvl h).

  Definition stream (l : list (list Z)) (e : bool) : list Z := concat (map Mb l) ++ (if e then bgzf_magicBlock else []).

  Lemma concat_marker l (e : bool) : concat (map Mb l ++ marker e) = stream l e.
  Proof. unfold stream. rewrite concat_app. destruct e; cbn [concat]; rewrite ?app_nil_r; reflexivity. Qed.

  Lemma walk_members (one : list Z -> option (list Z * list Z)) l (e : bool) :
    Forall small l ->
    (forall p r, small p -> one (Mb p ++ r) = Some (p, r)) ->
    (forall r, one (bgzf_magicBlock ++ r) = Some ([], r)) ->
    walk one (S (length (stream l e))) (stream l e) = Some (concat l).
  Proof.
    intros Hsm Hone Hmag. unfold stream.
    assert (Hlen : (length (map Mb l) <= length (concat (map Mb l)))%nat).
    { apply length_concat_ge. apply Forall_forall. intros m Hm. apply in_map_iff in Hm. destruct Hm as [p [<- _]].
      apply member_of_nonempty. }
    rewrite <- (app_nil_r (concat l)).
    apply walk_concat; [| rewrite app_length; lia |].
    - clear Hlen. induction Hsm; cbn; constructor; auto. split; [apply member_of_nonempty|]. intros r. apply Hone. assumption.
    - destruct e.
      + rewrite app_length. change (length bgzf_magicBlock) with 28%nat.
        remember (S (length (concat (map Mb l)) + 28) - length (map Mb l))%nat as f eqn:Hf.
        destruct f as [|[|f]]; try lia. cbn [walk isnil bgzf_magicBlock].
        rewrite <- (app_nil_r bgzf_magicBlock). unfold bgzf_magicBlock at 1. rewrite Hmag. reflexivity.
      + rewrite app_nil_r. apply walk_nil. lia.
  Qed.

  Lemma read_all_stream l e : Forall small l -> read_all inflate crc32 (stream l e) = Some (concat l).
  Proof.
    intros H. unfold read_all. apply walk_members; [assumption| |].
    - intros p r Hp. apply member_of_bgzf; assumption.
    - apply bgzf_magic; assumption.
  Qed.

  Lemma gunzip_multi_stream l e : Forall small l -> gunzip_multi inflate crc32 (stream l e) = Some (concat l).
  Proof.
    intros H. unfold gunzip_multi. apply walk_members; [assumption| |].
    - intros p r Hp. apply member_of_gunzip; assumption.
    - apply gunzip_magic; assumption.
  Qed.

  Lemma members_wf l : Forall small l -> Forall2 (member_wf inflate crc32) (map Mb l) l.
  Proof.
    induction 1 as [|p l Hp _ IH]; cbn; constructor; [|exact IH].
    destruct (member_of_fields deflate crc32 deflate_bound lvl h p Hs Hp) as (F1 & F2 & F3).
    unfold member_wf. repeat split; auto. intros r. apply member_of_gunzip; assumption.
  Qed.

  Lemma has_eof_stream l e : codec_laws_eof deflate -> Forall small l -> has_eof (stream l e) = e.
  Proof.
    intros [E1 E2] Hsm. unfold stream. destruct e; [apply has_eof_app_magic|]. rewrite app_nil_r.
    exact (members_no_eof deflate crc32 E1 E2 lvl h _ Hsm).
  Qed.

  Lemma wr_chunks W s : SInv W s -> chunks s = map Mb (s_sub s) ++ marker (s_eof s).
  Proof.
    intros I. unfold seq_chunks. f_equal. apply map_ext_Forall.
    eapply Forall_impl; [|apply (si_sub _ _ I)]. intros p Hp. unfold memb.
    rewrite (write_block_ok deflate crc32 deflate_bound _ _ _ lvl h p gen_patch_at_12 Hl Hs Hp). reflexivity.
  Qed.

  Lemma wr_out_stream W s : SInv W s -> wr_out deflate crc32 lvl h s = stream (s_sub s) (s_eof s).
  Proof. intros I. unfold wr_out, seq_out. rewrite (wr_chunks _ _ I). apply concat_marker. Qed.

  Lemma run_conc_FInv fault wc script sched :
    FInv deflate crc32 lvl h script
      (run_conc deflate crc32 bgzf_wr_patch_mode bgzf_wr_patch_guard bgzf_wr_overflow_check lvl h fault wc script sched).
  Proof. apply run_conc_any; auto using gen_patch_at_12. Qed.

  Lemma wr_conc_CInv wc script sched : CInv deflate crc32 lvl h script (wr_conc deflate crc32 lvl h wc script sched).
  Proof. apply run_conc_inv; auto using gen_patch_at_12. Qed.

  Lemma eof_quiescent script st : CInv deflate crc32 lvl h script st -> s_eof (x_api st) = true -> quiescent st.
  Proof.
    intros I He. pose proof (ci_eof _ _ _ _ _ _ I He) as Hx.
    destruct (ci_exit _ _ _ _ _ _ I Hx) as [Hq _]. pose proof (ci_held _ _ _ _ _ _ I) as Hh. rewrite Hx in Hh.
    split; assumption.
  Qed.

  (** Concurrency is invisible whenever the pipeline is empty: the chunks
      delivered are those of the sequential writer in the caller's state. *)
  Theorem quiescent_refines script st :
    CInv deflate crc32 lvl h script st -> quiescent st -> x_out st = chunks (x_api st).
  Proof.
    intros I Hq. destruct (CInv_emitted _ _ _ _ _ _ I) as (done & _ & O & _ & _ & _ & E).
    rewrite (wr_chunks _ _ (api_inv _ _ _ _ _ _ I)), <- E by (apply quiescent_pending; assumption). exact O.
  Qed.

  Lemma finished_api script st n :
    CInv deflate crc32 lvl h script st -> cdone st = true -> sdone (siter n (sinit script)) = true ->
    x_api st = siter n (sinit script).
  Proof.
    intros I D Dn. destruct (ci_orbit _ _ _ _ _ _ I) as [m Hm]. unfold cdone in D. rewrite Hm in *.
    apply siter_done_unique; assumption.
  Qed.

  Theorem close_complete wc script sched :
    let st := wr_conc deflate crc32 lvl h wc script sched in
    s_eof (x_api st) = true ->
    x_out st = map (member_of deflate crc32 lvl h) (s_sub (x_api st)) ++ [bgzf_magicBlock]
    /\ concat (s_sub (x_api st)) = written script
    /\ gunzip_multi inflate crc32 (out_bytes st) = Some (written script)
    /\ has_eof (out_bytes st) = true.
  Proof.
    intros st He. pose proof (wr_conc_CInv wc script sched) as I. fold st in I.
    pose proof (api_inv _ _ _ _ _ _ I) as SI.
    pose proof (quiescent_refines _ _ I (eof_quiescent _ _ I He)) as O. rewrite (wr_chunks _ _ SI), He in O.
    destruct (eof_complete _ _ SI He) as [_ E]. unfold out_bytes. rewrite O, (concat_marker _ true).
    split; [reflexivity|]. split; [exact E|]. split; [|apply has_eof_app_magic].
    rewrite <- E. apply gunzip_multi_stream, (si_sub _ _ SI).
  Qed.

  (** A script without Close that ends in Flush; Wait (bam.NewWriter runs
      Write header; Flush; Wait): when the caller is through, everything
      written is in the stream. *)
  Theorem flush_wait_complete wc script sched :
    fw_script script = true ->
    let st := wr_conc deflate crc32 lvl h wc script sched in
    cdone st = true -> gunzip_multi inflate crc32 (out_bytes st) = Some (written script).
  Proof.
    intros Hfw st Hd. pose proof (wr_conc_CInv wc script sched) as I. fold st in I.
    destruct (CInv_emitted _ _ _ _ _ _ I) as (done & _ & O & Sm & Pd & Du & _).
    destruct (ci_orbit _ _ _ _ _ _ I) as [m Hm]. unfold cdone in Hd. rewrite Hm in *.
    destruct (fw_finished script m Hfw Hd) as [Hdur <-]. rewrite Hdur in Du.
    unfold out_bytes. rewrite O, concat_marker, <- (prefix_of_full _ _ Pd Du). apply gunzip_multi_stream, Sm.
  Qed.
End Thms.

