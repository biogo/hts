(** C11 — proofs: ParseAux with the value safety of its results,
    Record.UnmarshalSAM as a whole, the BAM reader top level. *)
From Coq Require Import ZArith Lia List Bool.
From Hts Require Import Base.Prim Base.DecBase Generated Model.DecText Model.DecBam Model.DecSam
  Proofs.DecLemmas Proofs.DecText Proofs.DecBam.
Open Scope Z_scope.

(** [le_enc] is the BAM codec model's [le_put] under another name. *)
Lemma le_enc_len w v : zlen (le_enc w v) = Z.of_nat w.
Proof. exact (zlen_le_put w v). Qed.

Lemma le_bytes_le_enc w : forall v, 0 <= v < 256 ^ Z.of_nat w -> le_bytes (le_enc w v) = v.
Proof. exact (le_get_put_small w). Qed.

Lemma b_elems_len lib st w nf : post (b_elems lib st w nf) (fun es => zlen es = Z.of_nat w * zlen nf).
Proof.
  induction nf as [|s t IH]; simpl; [apply post_ret; rewrite (@zlen_nil Z), (@zlen_nil (list Z)); lia|].
  destruct (al_elem lib st s) as [v|]; [|exact I].
  apply (post_bind IH). intros r Hr. apply post_ret. rewrite zlen_app, le_enc_len, Hr, zlen_cons. lia.
Qed.

Lemma zlen_split_on sep l : 1 <= zlen (DecText.split_on sep l) <= zlen l + 1.
Proof.
  induction l as [|x t IH]; [cbn; lia|]. cbn [DecText.split_on]. rewrite (zlen_cons x t).
  destruct (x =? sep); [rewrite zlen_cons; lia|].
  destruct (DecText.split_on sep t) as [|h r]; [rewrite zlen_nil in IH; lia|]. rewrite zlen_cons in *. lia.
Qed.

(** The two shapes in which ParseAux and NewAux build a value. *)
Lemma aux_wf_cons t0 t1 ty p : 0 <= ty < 256 -> ty <> 66 -> fixed_width ty <= zlen p -> aux_wf (t0 :: t1 :: ty :: p).
Proof.
  intros Hty N Hw. pose proof (zlen_nonneg p).
  apply aux_wf_fixed; change (getz (t0 :: t1 :: ty :: p) 2) with ty; rewrite ?zlen_cons; lia.
Qed.

Lemma aux_wf_cons_array t0 t1 st n es :
  0 <= n < 2 ^ 31 -> (forall w, elem_width st = Some w -> n * Z.of_nat w <= zlen es) ->
  aux_wf ([t0; t1; 66; st] ++ le_enc 4 n ++ es).
Proof.
  intros Hn Hw. set (a := [t0; t1; 66; st] ++ le_enc 4 n ++ es).
  assert (zlen a = 8 + zlen es) as Hl by (unfold a; rewrite !zlen_app, le_enc_len; change (zlen [t0; t1; 66; st]) with 4; lia).
  assert (s32 (le_bytes (sub a 4 8)) = n) as Hc.
  { change (sub a 4 8) with (le_enc 4 n). rewrite le_bytes_le_enc, s32_small; lia. }
  pose proof (zlen_nonneg es). apply aux_wf_array; rewrite ?Hc; [lia|reflexivity|lia|].
  intros w E. specialize (Hw w E). lia.
Qed.

(** NewAux picks the narrowest integer type that holds the value. *)
Lemma new_aux_int_ok t0 t1 v : post (new_aux_int t0 t1 v) aux_wf.
Proof.
  unfold new_aux_int. destruct (v <? 0).
  - destruct (-128 <=? v); [apply aux_wf_cons; [lia|lia|apply Z.le_refl]|].
    destruct (-32768 <=? v); [apply aux_wf_cons; [lia|lia|rewrite le_enc_len; apply Z.le_refl]|].
    destruct (-2147483648 <=? v); [apply aux_wf_cons; [lia|lia|rewrite le_enc_len; apply Z.le_refl]|exact I].
  - destruct (v <=? 255); [apply aux_wf_cons; [lia|lia|apply Z.le_refl]|].
    destruct (v <=? 65535); [apply aux_wf_cons; [lia|lia|rewrite le_enc_len; apply Z.le_refl]|].
    destruct (v <=? 4294967295); [apply aux_wf_cons; [lia|lia|rewrite le_enc_len; apply Z.le_refl]|exact I].
Qed.

(** Totality and value safety of ParseAux in one pass. The bound on the text is
    for the element count of a B array, which is stored as int32; that the text
    consists of bytes is not needed. *)
Lemma parse_aux_ok lib text : post (parse_aux lib text) (fun a => zlen text < 2 ^ 31 -> aux_wf a).
Proof.
  unfold parse_aux. destruct (Z.ltb_spec (zlen text) 5); [exact I|].
  apply post_inb; [lia|]. destruct (negb (getz text 2 =? 58)); [exact I|].
  apply post_inb; [lia|]. destruct (negb (getz text 4 =? 58)); [exact I|].
  apply post_slice; [lia|lia|]. cbv zeta. apply post_inb; [lia|]. apply post_inb; [lia|]. apply post_inb; [lia|].
  set (txt := sub text 5 (zlen text)). assert (zlen txt = zlen text - 5) as Ht by (unfold txt; rewrite zlen_sub; lia).
  generalize (getz text 0) (getz text 1). intros t0 t1.
  destruct (getz text 3 =? 65).
  { destruct (Z.eqb_spec (zlen txt) 1); [|exact I]. apply post_inb; [lia|]. intros _. apply aux_wf_cons; [lia|lia|apply Z.le_refl]. }
  destruct (getz text 3 =? 105).
  { destruct (al_atoi lib txt) as [v|]; [|exact I]. apply (post_weaken (new_aux_int_ok t0 t1 v)). auto. }
  destruct (getz text 3 =? 102).
  { destruct (al_float lib txt) as [v|]; [|exact I]. intros _. apply aux_wf_cons; [lia|lia|rewrite le_enc_len; apply Z.le_refl]. }
  destruct (getz text 3 =? 90); [intros _; apply aux_wf_cons; [lia|lia|apply zlen_nonneg]|].
  destruct (getz text 3 =? 72).
  { apply post_make; [apply Z.div_pos; lia|].
    apply (post_bind (hex_decode_safe (S (length txt)) txt (zlen txt / 2) 0 ltac:(lia) ltac:(lia) ltac:(lia))).
    intros b _ _. apply aux_wf_cons; [lia|lia|apply zlen_nonneg]. }
  destruct (getz text 3 =? 66); [|exact I].
  (* before the fix the B branch indexed txt[1] without a length check; with the
     minimum length 5 an empty value reaches txt[0], hence the len(txt) == 0 test *)
  destruct (Z.eqb_spec (zlen txt) 0); [exact I|].
  apply (post_bind (Q := fun nf => zlen nf <= zlen txt)).
  { destruct (Z.ltb_spec 1 (zlen txt)); [|apply post_ret; rewrite zlen_nil; lia].
    apply post_inb; [lia|]. destruct (negb (getz txt 1 =? 44)); [exact I|].
    apply post_slice; [lia|lia|]. apply post_ret.
    pose proof (zlen_split_on 44 (sub txt 2 (zlen txt))) as Hs. rewrite zlen_sub in Hs by lia. lia. }
  intros nf Hnf. pose proof (zlen_nonneg nf). apply post_inb; [lia|]. cbv zeta.
  destruct (elem_width (getz txt 0)) as [w|] eqn:Ew; [|exact I].
  apply post_make; [lia|].
  apply (post_bind (b_elems_len lib _ w nf)). intros es Hes Hsz.
  apply aux_wf_cons_array; [lia|]. intros w' E. rewrite Ew in E. injection E as <-. lia.
Qed.

Lemma parse_aux_B_short_would_panic : inb [99] 1 = false.
Proof. reflexivity. Qed.

Lemma split_on_props sep l : all_bytes l = true ->
  forall x, In x (DecText.split_on sep l) -> all_bytes x = true /\ zlen x <= zlen l.
Proof.
  induction l as [|c t IH]; intros Hb x Hx.
  - destruct Hx as [<-|[]]. split; [reflexivity|lia].
  - apply all_bytes_cons in Hb as [Hc Ht]. specialize (IH Ht). cbn [DecText.split_on] in Hx.
    rewrite zlen_cons. pose proof (zlen_nonneg t).
    destruct (c =? sep).
    + destruct Hx as [<-|Hx]; [split; [reflexivity|rewrite zlen_nil; lia]|]. destruct (IH x Hx). split; [assumption|lia].
    + destruct (DecText.split_on sep t) as [|h r].
      * destruct Hx as [<-|[]]. split; [apply all_bytes_cons; split; [lia|reflexivity]|rewrite zlen_cons, zlen_nil; lia].
      * destruct Hx as [<-|Hx]; [|destruct (IH x (or_intror Hx)); split; [assumption|lia]].
        destruct (IH h (or_introl eq_refl)). split; [apply all_bytes_cons; split; assumption|rewrite zlen_cons; lia].
Qed.

(** contract: n16Table is indexed by a byte; ns[i>>1] is stored at odd i and
    stays inside the (len(s)+1)>>1 doublets. *)
Lemma contract_loop_safe n s : forall i, all_bytes s = true -> 0 <= i ->
  i + zlen s <= 2 * n -> safe (contract_loop n i s).
Proof.
  induction s as [|b t IH]; intros i Hb Hi Hn; [exact I|]. cbn [contract_loop].
  apply all_bytes_cons in Hb as [Hbb Hbt]. rewrite zlen_cons in Hn. pose proof (zlen_nonneg t).
  apply post_inb; [change (zlen sam_n16Table) with 256; lia|].
  apply (post_bind (Q := fun _ => True)); [|intros _ _; apply IH; [exact Hbt|lia|lia]].
  destruct (Z.land i 1 =? 0); [exact I|]. apply post_chk; [rewrite shiftr_1; Z.div_mod_to_equations; lia|exact I].
Qed.

Lemma contract_ok s : all_bytes s = true -> post (contract s) (fun n => n = Z.shiftr (zlen s + 1) 1).
Proof.
  intros Hb. unfold contract. cbv zeta. pose proof (zlen_nonneg s). rewrite shiftr_1.
  assert (zlen s <= 2 * ((zlen s + 1) / 2)) as Hn by (Z.div_mod_to_equations; lia).
  apply post_make; [lia|].
  apply (post_bind (contract_loop_safe _ s 0 Hb ltac:(lia) Hn)). intros _ _.
  destruct (negb (Z.land (zlen s) 1 =? 0)) eqn:E; [|reflexivity].
  apply post_chk; [|reflexivity]. rewrite land_1 in E. Z.div_mod_to_equations. lia.
Qed.

Lemma aux_fields_ok lib fs :
  post (aux_fields lib fs) (fun aa => (forall x, In x fs -> zlen x < 2 ^ 31) -> Forall aux_wf aa).
Proof.
  induction fs as [|f t IH]; cbn [aux_fields]; [constructor|].
  apply (post_bind (parse_aux_ok lib f)). intros a Ha. apply (post_bind IH). intros r Hr Hf.
  constructor; [apply Ha, Hf; left; reflexivity|exact (Hr (fun x Hx => Hf x (or_intror Hx)))].
Qed.

(** What UnmarshalSAM guarantees about a record it returns. *)
Definition srec_wf (r : DecSam.srec) : Prop :=
  0 <= s_lseq r /\ (s_lseq r = 0 \/ Z.shiftr (s_lseq r - 1) 1 < s_nseq r) /\ Forall aux_wf (s_aux r).

Lemma srec_accessors_safe r : srec_wf r -> safe (srec_accessors r).
Proof.
  intros (H0 & Hs & Ha). unfold srec_accessors. destruct (all_aux_safe_ok _ Ha) as [A1 A2].
  apply (post_bind (record_end_safe _ _ _)). intros _ _.
  apply (post_bind (cigar_is_valid_safe _ _)). intros _ _.
  apply (post_bind (lengths_loop_safe _ _ _)). intros _ _.
  apply (post_bind (Q := fun _ => True)); [apply post_make; [exact H0|]; destruct (_ || _) eqn:E; [exact I|lia]|].
  intros _ _. apply (post_bind A1). intros _ _. exact A2.
Qed.

Lemma unmarshal_sam_ok lib b : all_bytes b = true -> post (unmarshal_sam lib b) (fun r => zlen b < 2 ^ 31 -> srec_wf r).
Proof.
  intros Hb. unfold unmarshal_sam. set (f := DecText.split_on 9 b).
  destruct (Z.ltb_spec (zlen f) 11); [exact I|]. cbv zeta.
  assert (forall k, 0 <= k < zlen f -> all_bytes (nth (Z.to_nat k) f []) = true) as Hfld.
  { intros k Hk. apply (split_on_props 9 b Hb), nth_In. unfold zlen, f in Hk. lia. }
  apply post_inb; [lia|]. apply post_inb; [lia|]. destruct (sl_flags lib _) as [flags|]; [|exact I].
  apply post_inb; [lia|]. destruct (negb (sl_ref lib _)); [exact I|].
  apply post_inb; [lia|]. destruct (sl_atoi lib _) as [pos|]; [|exact I].
  apply post_inb; [lia|]. destruct (sl_mapq lib _) as [mq|]; [|exact I].
  apply post_inb; [lia|]. apply (post_bind (parse_cigar_safe _)). intros cigar _.
  apply post_inb; [lia|]. destruct (negb _ && negb _); [exact I|].
  apply post_inb; [lia|]. destruct (sl_atoi lib _) as [mp|]; [|exact I].
  apply post_inb; [lia|]. destruct (sl_atoi lib _) as [tl|]; [|exact I].
  apply post_inb; [lia|].
  specialize (Hfld 9 ltac:(lia)). set (sq := nth (Z.to_nat 9) f []) in *. pose proof (zlen_nonneg sq).
  (* SEQ: l bases packed into (l+1)>>1 doublets, so Seq.Expand's ns.Seq[i>>1] is in range *)
  apply (post_bind (Q := fun '(l, n) => 0 <= l /\ (l = 0 \/ Z.shiftr (l - 1) 1 < n))).
  { destruct (negb (zeqb sq star)); [|split; [lia|left; reflexivity]].
    apply (post_bind (contract_ok sq Hfld)). intros n ->.
    assert (zlen sq = 0 \/ Z.shiftr (zlen sq - 1) 1 < Z.shiftr (zlen sq + 1) 1) as Hgeo by (rewrite !shiftr_1; Z.div_mod_to_equations; lia).
    destruct (negb (zlen cigar =? 0)); [|split; [lia|exact Hgeo]].
    apply (post_bind (cigar_is_valid_safe cigar (zlen sq))). intros [|] _; [split; [lia|exact Hgeo]|exact I]. }
  intros [lseq nseq] [Hl0 Hgeo]. apply post_inb; [lia|].
  apply (post_bind (Q := fun _ => True)).
  { destruct (negb (zeqb _ star)); [exact I|]. destruct (negb (lseq =? 0)); [|exact I]. apply post_make; [lia|exact I]. }
  intros nqual _. destruct (negb (nqual =? 0) && negb (nqual =? lseq)); [exact I|].
  apply (post_bind (Q := fun aux => zlen b < 2 ^ 31 -> Forall aux_wf aux)); [|intros aux Ha Hsz; repeat split; auto].
  destruct (Z.ltb_spec 11 (zlen f)); [|constructor].
  apply post_make; [lia|]. apply post_chk; [unfold from_ok; lia|].
  apply (post_weaken (aux_fields_ok _ _)). intros aux Ha Hsz. apply Ha. intros x Hx.
  assert (In x f) as Hxf by (rewrite <- (firstn_skipn 11 f); apply in_or_app; right; exact Hx).
  destruct (split_on_props 9 b Hb x Hxf). lia.
Qed.

Lemma bam_header_ok lib refs_ok s : all_bytes s = true ->
  post (bam_header lib refs_ok s) (fun '(_, rest) => all_bytes rest = true).
Proof.
  intros Hb. apply post_take; [exact I|]. intros magic s1 _ _ B1. destruct (B1 Hb) as [_ Hb1].
  destruct (negb (zeqb magic bamMagic)); [exact I|].
  apply (post_bind2 (rd_i32_ok s1)). intros lText s2 (_ & _ & B2).
  destruct (Z.ltb_spec lText 0); [exact I|]. apply post_make; [lia|].
  apply post_take; [exact I|]. intros text s3 _ _ B3.
  apply (post_bind (unmarshal_header_text_safe lib text)). intros _ _.
  apply (post_bind2 (rd_i32_ok s3)). intros nRef s4 (_ & _ & B4).
  destruct (nRef <? 0); [exact I|].
  apply (post_bind (ref_records_ok _ s4 0 nRef (zlen_lt_fuel s4))). intros [rs s5] B5.
  destruct refs_ok; [|exact I]. apply post_ret, B5, B4, B3, B2, Hb1.
Qed.

(** Every round of the Read loop consumes the four byte length. *)
Lemma bam_read_loop_ok omit nrefs fuel : forall s, all_bytes s = true -> zlen s < Z.of_nat fuel ->
  post (bam_read_loop s omit nrefs fuel) (Forall rec_wf).
Proof.
  induction fuel as [|f IH]; intros s Hb Hf; [unfold zlen in Hf; lia|].
  cbn [bam_read_loop]. apply post_take; [constructor|]. intros b4 s1 _ L1 B1. destruct (B1 Hb) as [_ Hb1]. cbv zeta.
  pose proof (s32_range (le_bytes b4)) as Hr. set (size := s32 (le_bytes b4)) in *.
  destruct (size =? 0); [constructor|]. destruct (Z.ltb_spec size 0); [constructor|]. apply post_make; [lia|].
  apply post_take; [constructor|]. intros data s2 Ld L2 B2. destruct (B2 Hb1) as [Hbd Hb2].
  pose proof (bam_record_ok data omit nrefs Hbd) as R.
  destruct (bam_record data omit nrefs) as [r| | |]; try contradiction; [|constructor].
  apply (post_bind (IH s2 Hb2 ltac:(lia))). intros rest Hrest. constructor; [apply R; lia|exact Hrest].
Qed.

Lemma bam_reader_ok lib refs_ok omit s : all_bytes s = true -> post (bam_reader lib refs_ok omit s) (Forall rec_wf).
Proof.
  intros Hb. unfold bam_reader. apply (post_bind (bam_header_ok lib refs_ok s Hb)). intros [nrefs rest] Hr.
  apply bam_read_loop_ok; [exact Hr|apply zlen_lt_fuel].
Qed.
