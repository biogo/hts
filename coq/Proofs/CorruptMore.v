(** C10 — HasEOF at a cut, the BAM record layer, truncation over both layers. *)
From Coq Require Import ZArith List Bool Lia.
From Hts Require Import Base.Prim Base.WrList Generated Model.Corrupt Proofs.Corrupt.
From Hts Require Import Model.BamFrame.
Import ListNotations.
Open Scope Z_scope.

Lemma zlist_eqb_eq : forall a b, zlist_eqb a b = true -> a = b.
Proof.
  induction a as [|x a IH]; destruct b as [|y b]; simpl; intros H; try discriminate; auto.
  apply andb_prop in H. destruct H as [H1 H2]. apply Z.eqb_eq in H1. subst. f_equal. auto.
Qed.

Lemma has_eof_suffix : forall bs, has_eof bs = 1 -> exists p, bs = p ++ bgzf_magicBlock.
Proof.
  intros bs H. unfold has_eof in H. destruct (Nat.ltb (length bs) 28); [discriminate|].
  destruct (zlist_eqb (skipn (length bs - 28) bs) bgzf_magicBlock) eqn:E; [|discriminate].
  apply zlist_eqb_eq in E. exists (firstn (length bs - 28) bs). rewrite <- E. symmetry. apply firstn_skipn.
Qed.

Lemma app_tail4 : forall (a b : list Z) x1 x2 x3 x4 y1 y2 y3 y4,
  a ++ [x1; x2; x3; x4] = b ++ [y1; y2; y3; y4] -> x1 = y1 /\ x2 = y2 /\ x3 = y3 /\ x4 = y4.
Proof.
  intros a b x1 x2 x3 x4 y1 y2 y3 y4 H.
  change (a ++ [x1; x2; x3; x4]) with (a ++ [x1] ++ [x2] ++ [x3] ++ [x4]) in H.
  change (b ++ [y1; y2; y3; y4]) with (b ++ [y1] ++ [y2] ++ [y3] ++ [y4]) in H.
  rewrite !app_assoc in H.
  apply app_inj_tail in H. destruct H as [H ?].
  apply app_inj_tail in H. destruct H as [H ?].
  apply app_inj_tail in H. destruct H as [H ?].
  apply app_inj_tail in H. destruct H as [H ?]. auto.
Qed.

Section Laws2.
Variable inflate : list Z -> option (list Z * list Z).
Variable crc32 : list Z -> Z.
Variable deflate : list Z -> list Z.
Hypothesis inflate_deflate : forall d r, inflate (deflate d ++ r) = Some (d, r).

Notation mk := (mk_member crc32 deflate).
Notation strm := (stream crc32 deflate).
Notation wfd := (wf crc32 deflate).

(** A member of a non-empty block never ends like the EOF marker: its last four
    bytes are the (non-zero) length, the marker's are zero. *)
Lemma nonempty_member_not_marker_tail : forall pre d, wfd d -> d <> [] -> has_eof (pre ++ mk d) <> 1.
Proof.
  intros pre d [Hc [Hl Hb]] Hd H. apply has_eof_suffix in H. destruct H as [p H].
  unfold mk_member, body, trailer in H. unfold le32b at 2 in H.
  change bgzf_magicBlock with ([31; 139; 8; 4; 0; 0; 0; 0; 0; 255; 6; 0; 66; 67; 2; 0; 27; 0; 3; 0; 0; 0; 0; 0] ++ [0; 0; 0; 0]) in H.
  rewrite !app_assoc in H.
  apply app_tail4 in H. destruct H as [H1 [H2 [H3 H4]]].
  assert (Hz := zlen_nonneg d). unfold bgzf_MaxBlockSize in Hl.
  apply Hd, zlen_0_nil. rewrite <- (le32_le32b (zlen d)) by lia. unfold le32b. rewrite H1, H2, H3, H4. reflexivity.
Qed.

Lemma has_eof_boundary : forall ds j, Forall wfd ds -> Forall (fun d => d <> []) ds ->
  has_eof (strm (firstn j ds)) <> 1.
Proof.
  intros ds j W NE.
  destruct (firstn j ds) as [|x l] eqn:E using rev_ind.
  - unfold stream. simpl. unfold has_eof. simpl. discriminate.
  - clear IHl. rewrite stream_app. unfold stream at 2. simpl. rewrite app_nil_r.
    assert (In x ds). { rewrite <- (firstn_skipn j ds). rewrite E. apply in_or_app. left. apply in_or_app. right. left. reflexivity. }
    rewrite Forall_forall in W, NE. apply nonempty_member_not_marker_tail; auto.
Qed.

Definition rec_bytes (r : list Z) : list Z := le32b (zlen r) ++ r.
Definition flat (rs : list (list Z)) : list Z := concat (map rec_bytes rs).
Definition okrec (r : list Z) : Prop := 0 < zlen r < 2147483648.

Lemma flat_cons : forall r rs, flat (r :: rs) = rec_bytes r ++ flat rs.
Proof. reflexivity. Qed.

Lemma bam_rec_ok : forall strict f r rest, okrec r ->
  bam_recs strict (S f) (rec_bytes r ++ rest) =
  let '(rs, ok) := bam_recs strict f rest in (r :: rs, ok).
Proof.
  intros strict f r rest [H0 H1]. unfold rec_bytes. unfold le32b. cbn [app bam_recs]. fold (le32b (zlen r)).
  rewrite le32_le32b by lia.
  destruct (zlen r =? 0) eqn:E1; [apply Z.eqb_eq in E1; lia|].
  destruct (2147483648 <=? zlen r) eqn:E2; [apply Z.leb_le in E2; lia|].
  rewrite zlen_app'. pose proof (zlen_nonneg rest).
  destruct (zlen r + zlen rest =? 0) eqn:E3; [apply Z.eqb_eq in E3; lia|]. cbn [andb].
  destruct (zlen r + zlen rest <? zlen r) eqn:E4; [apply Z.ltb_lt in E4; lia|].
  rewrite firstn_zlen_app, skipn_zlen_app. reflexivity.
Qed.

Lemma bam_rec_cut : forall f r (m : nat), okrec r -> (0 < m < length (rec_bytes r))%nat ->
  bam_recs true (S f) (firstn m (rec_bytes r)) = ([], false).
Proof.
  intros f r m [H0 H1] Hm. unfold rec_bytes, le32b in *. cbn [app length] in Hm.
  destruct m as [|[|[|[|m]]]]; try lia; try reflexivity.
  cbn [app firstn bam_recs]. fold (le32b (zlen r)).
  rewrite le32_le32b by lia.
  destruct (zlen r =? 0) eqn:E1; [apply Z.eqb_eq in E1; lia|].
  destruct (2147483648 <=? zlen r) eqn:E2; [apply Z.leb_le in E2; lia|].
  cbn [negb andb]. rewrite andb_false_r.
  assert (L : zlen (firstn m r) = Z.of_nat m). { unfold zlen. rewrite firstn_length_le; lia. }
  rewrite L. destruct (Z.of_nat m <? zlen r) eqn:E4; [reflexivity|]. apply Z.ltb_ge in E4. unfold zlen in *. lia.
Qed.

Lemma bam_truncation_gen : forall rs (m fuel : nat), Forall okrec rs -> (length rs < fuel)%nat ->
  exists k, (k <= length rs)%nat /\
    fst (bam_recs true fuel (firstn m (flat rs))) = firstn k rs /\
    (length (flat (firstn k rs)) <= m)%nat /\
    (snd (bam_recs true fuel (firstn m (flat rs))) = true -> (m <= length (flat rs))%nat -> m = length (flat (firstn k rs))).
Proof.
  apply (cut_units _ _ rec_bytes okrec (bam_recs true) (fun rs => rs) cons).
  - reflexivity.
  - reflexivity.
  - exact (bam_rec_ok true).
  - exact bam_rec_cut.
Qed.

Lemma concat_firstn : forall (l : list (list Z)) j, concat (firstn j l) = firstn (length (concat (firstn j l))) (concat l).
Proof.
  intros l j. rewrite <- (firstn_skipn j l) at 3. rewrite concat_app.
  rewrite firstn_app, Nat.sub_diag, firstn_all. simpl. symmetry. apply app_nil_r.
Qed.

Lemma stream_firstn : forall l j, firstn (length (strm (firstn j l))) (strm l) = strm (firstn j l).
Proof. intros l j. unfold stream. rewrite <- firstn_map. symmetry. apply concat_firstn. Qed.

Lemma truncation_full : forall ds rs (n fuel fuel2 : nat),
  Forall wfd ds -> Forall (fun d => d <> []) ds -> wfd [] ->
  (length ds + 1 < fuel)%nat -> Forall okrec rs -> concat ds = flat rs -> (length rs < fuel2)%nat ->
  (n < length (strm (ds ++ [[]])))%nat ->
  let L := read_stream inflate crc32 true fuel (firstn n (strm (ds ++ [[]]))) in
  let B := bam_recs true fuel2 (fst L) in
  exists j k, (j <= length ds)%nat /\
    fst L = concat (firstn j ds) /\ (length (strm (firstn j ds)) <= n)%nat /\
    fst B = firstn k rs /\
    (snd L = true -> n = length (strm (firstn j ds)) /\ has_eof (firstn n (strm (ds ++ [[]]))) <> 1) /\
    (snd L && snd B = true -> length (fst L) = length (flat (firstn k rs))).
Proof.
  intros ds rs n fuel fuel2 W NE W0 F R C F2 Hn L B.
  assert (W' : Forall wfd (ds ++ [[]])) by (apply Forall_app; split; [exact W | constructor; [exact W0 | constructor]]).
  destruct (truncation_gen inflate crc32 deflate inflate_deflate (ds ++ [[]]) n fuel W' ltac:(rewrite app_length; simpl; lia)) as [j [Hj [Hd [Hle Hok]]]].
  fold L in Hd, Hok.
  assert (Hj' : (j <= length ds)%nat).
  { rewrite app_length in Hj. simpl in Hj. destruct (Nat.eq_dec j (length ds + 1)) as [E|E]; [|lia].
    exfalso. subst j. rewrite firstn_all2 in Hle by (rewrite app_length; simpl; lia). lia. }
  rewrite firstn_app_lt in Hd, Hle, Hok by exact Hj'.
  (* the BAM layer sees a prefix of the record stream *)
  assert (P : fst L = firstn (length (fst L)) (flat rs)).
  { rewrite Hd. rewrite <- C. apply concat_firstn. }
  destruct (bam_truncation_gen rs (length (fst L)) fuel2 R F2) as [k [Hk [Hb [Hble Hbok]]]].
  rewrite <- P in Hb, Hbok. fold B in Hb, Hbok.
  exists j, k. repeat split; auto.
  - apply Hok; [assumption | lia].
  - specialize (Hok H ltac:(lia)).
    assert (X : firstn (length (strm (firstn j ds))) (strm (ds ++ [[]])) = strm (firstn j ds)).
    { rewrite <- (firstn_app_lt _ ds [[]] j Hj'). apply stream_firstn. }
    rewrite Hok at 1. rewrite X. apply has_eof_boundary; assumption.
  - intros H. apply andb_prop in H. destruct H as [_ H]. apply Hbok; [exact H|].
    rewrite Hd. rewrite <- C. rewrite (concat_firstn ds j). rewrite firstn_length. lia.
Qed.

End Laws2.

From Hts Require Model.Bgzf Model.HasEof.

Lemma zeqb_zlist_eqb : forall a b, Model.Bgzf.zeqb a b = zlist_eqb a b.
Proof. induction a as [|x a IH]; destruct b as [|y b]; simpl; auto; try (rewrite IH; reflexivity). Qed.

Lemma not_marker_ends : forall bs, Corrupt.has_eof bs <> 1 -> Model.HasEof.ends_with_marker bs = false.
Proof.
  intros bs H. unfold Model.HasEof.ends_with_marker.
  destruct (zlen bgzf_magicBlock <=? zlen bs) eqn:E; [|reflexivity]. cbn [andb].
  apply Z.leb_le in E. change (zlen bgzf_magicBlock) with 28 in *.
  unfold Corrupt.has_eof in H.
  destruct (Nat.ltb (length bs) 28) eqn:L; [apply Nat.ltb_lt in L; unfold zlen in E; lia|].
  replace (Z.to_nat (zlen bs - 28)) with (length bs - 28)%nat by (unfold zlen; lia).
  rewrite zeqb_zlist_eqb. destruct (zlist_eqb (skipn (length bs - 28) bs) bgzf_magicBlock); [exfalso; apply H; reflexivity | reflexivity].
Qed.
