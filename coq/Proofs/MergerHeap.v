(** C18 — the transcription of container/heap (Model/Merger.v, [GoHeap]), for
    any element type and any comparison that may panic.  What a successful
    [down]/[up] does is stated once, as the relations [sift_down]/[sift_up]
    over the child relation of the implicit tree; Pop and Push are read off
    in those terms.  Then: every successful operation preserves the bag, and
    no operation panics or runs out of fuel when the comparison is total on
    the elements. *)
From Coq Require Import List Bool Lia Permutation PeanoNat.
From Hts Require Import Base.Prim Base.Bits Model.Merger.
Import ListNotations.
Local Open Scope nat_scope.

Section Arr.
  Context {A : Type} (d : A).
  Notation "l @ i" := (nth i l d) (at level 9, i at level 9).

  (** writing [x] at [i] trades it for the element that was there *)
  Lemma upd_nat_perm : forall (l : list A) i x, i < length l -> Permutation (x :: l) (l@i :: upd_nat l i x).
  Proof.
    induction l as [| a l IH]; intros [| i] x Hi; simpl in *; try lia; [apply perm_swap |].
    eapply perm_trans; [apply perm_swap |]. eapply perm_trans; [apply perm_skip, (IH i); lia | apply perm_swap].
  Qed.

  Lemma length_hswap : forall (l : list A) i j, length (hswap d l i j) = length l.
  Proof. intros. unfold hswap. now rewrite !length_upd_nat. Qed.

  Lemma swap_j : forall (l : list A) i j, j < length l -> (hswap d l i j)@j = l@i.
  Proof. intros. unfold hswap. now rewrite nth_upd_nat_same by now rewrite length_upd_nat. Qed.

  Lemma swap_i : forall (l : list A) i j, i < length l -> (hswap d l i j)@i = l@j.
  Proof.
    intros l i j Hi. destruct (Nat.eq_dec j i) as [-> | Hne].
    - now apply swap_j.
    - unfold hswap. now rewrite nth_upd_nat_other, nth_upd_nat_same.
  Qed.

  Lemma hswap_keep : forall (l : list A) i j k, k <> i -> k <> j -> (hswap d l i j)@k = l@k.
  Proof. intros. unfold hswap. now rewrite !nth_upd_nat_other by auto. Qed.

  Lemma hswap_perm : forall (l : list A) i j,
      i < length l -> j < length l -> Permutation l (hswap d l i j).
  Proof.
    intros l i j Hi Hj. unfold hswap. set (l1 := upd_nat l i l@j).
    assert (E : l1@j = l@j).
    { destruct (Nat.eq_dec i j) as [<- |]; [now apply nth_upd_nat_same | now apply nth_upd_nat_other]. }
    apply Permutation_cons_inv with (a := l@j). rewrite <- E at 2.
    eapply perm_trans; [apply upd_nat_perm, Hi |]. apply upd_nat_perm. unfold l1. now rewrite length_upd_nat.
  Qed.

  Lemma last_split : forall (l : list A) n, length l = S n -> l = firstn n l ++ [l@n].
  Proof.
    induction l as [| a l IH]; intros n H; simpl in H; [discriminate |].
    destruct n; simpl.
    - destruct l; [reflexivity | discriminate].
    - f_equal. apply IH. lia.
  Qed.

  Variable cmp : A -> A -> outcome bool.

  Definition child (p k : nat) : Prop := k = 2 * p + 1 \/ k = 2 * p + 2.

  (** the only places where the division of heap.go's [(j - 1) / 2] and
      [n/2 - 1] is looked into *)
  Lemma parent_child : forall j, j = 0 /\ (j - 1) / 2 = 0 \/ child ((j - 1) / 2) j.
  Proof.
    intros j. unfold child. pose proof (Nat.div_mod_eq (j - 1) 2).
    pose proof (Nat.mod_upper_bound (j - 1) 2). destruct j; [now left | right; lia].
  Qed.

  Lemma half_leaf : forall n p, n / 2 <= p -> n <= 2 * p + 1.
  Proof.
    intros n p. pose proof (Nat.div_mod_eq n 2). pose proof (Nat.mod_upper_bound n 2). lia.
  Qed.

  (** [j] is the child of [i] inside [0, n) that [down] picks: [cmp] puts it
      before the other one *)
  Definition first_child (l : list A) (n i j : nat) : Prop :=
    child i j /\ j < n /\
    forall k, child i k -> k < n -> k <> j -> cmp l@j l@k = Ok true \/ cmp l@k l@j = Ok false.

  Inductive sift_down (n : nat) : list A -> nat -> list A -> Prop :=
  | sd_leaf : forall l i, n <= 2 * i + 1 -> sift_down n l i l
  | sd_stop : forall l i j, first_child l n i j -> cmp l@j l@i = Ok false -> sift_down n l i l
  | sd_swap : forall l i j l', first_child l n i j -> cmp l@j l@i = Ok true ->
      sift_down n (hswap d l i j) j l' -> sift_down n l i l'.

  Inductive sift_up : list A -> nat -> list A -> Prop :=
  | su_root : forall l, sift_up l 0 l
  | su_stop : forall l i j, child i j -> cmp l@j l@i = Ok false -> sift_up l j l
  | su_swap : forall l i j l', child i j -> cmp l@j l@i = Ok true ->
      sift_up (hswap d l i j) i l' -> sift_up l j l'.

  Lemma down_sift : forall fuel l i n l', down d cmp fuel l i n = Ok l' -> sift_down n l i l'.
  Proof.
    induction fuel as [| f IH]; intros l i n l' H; [discriminate |].
    cbn [down] in H. destruct (Nat.leb_spec n (2 * i + 1)) as [E1 | E1].
    - inversion H; subst. now apply sd_leaf.
    - destruct (if 2 * i + 1 + 1 <? n then _ else _) as [b | | |] eqn:Hb; cbn [obind] in H; try discriminate.
      set (j := if b then 2 * i + 1 + 1 else 2 * i + 1) in *.
      assert (Hj : first_child l n i j).
      { unfold first_child, child, j. destruct (Nat.ltb_spec (2 * i + 1 + 1) n) as [E2 | E2].
        - destruct b; (split; [lia | split; [lia |]]); intros k Hk Hkn Hne; [left | right].
          + replace k with (2 * i + 1) by lia. exact Hb.
          + replace k with (2 * i + 1 + 1) by lia. exact Hb.
        - inversion Hb; subst b. split; [lia | split; [lia | intros; lia]]. }
      unfold hless in H. destruct (cmp l@j l@i) as [[] | | |] eqn:Hc; cbn [obind] in H; try discriminate.
      + eapply sd_swap; eauto.
      + inversion H; subst. eapply sd_stop; eauto.
  Qed.

  Lemma up_sift : forall fuel l j l', up d cmp fuel l j = Ok l' -> sift_up l j l'.
  Proof.
    induction fuel as [| f IH]; intros l j l' H; [discriminate |].
    cbn [up] in H. destruct (parent_child j) as [[-> E] | Hc].
    - rewrite E in H. inversion H; subst. constructor.
    - set (i := (j - 1) / 2) in *. assert (E : (i =? j) = false) by (apply Nat.eqb_neq; unfold child in Hc; lia).
      rewrite E in H. unfold hless in H.
      destruct (cmp l@j l@i) as [[] | | |] eqn:Hcmp; cbn [obind] in H; try discriminate.
      + eapply su_swap; eauto.
      + inversion H; subst. eapply su_stop; eauto.
  Qed.

  Lemma sift_down_bag : forall n l i l',
      sift_down n l i l' -> n <= length l ->
      Permutation l l' /\ forall k, n <= k -> l'@k = l@k.
  Proof.
    induction 1 as [| | l i j l' [Hc [Hj _]] _ _ IH]; intros Hn; auto.
    destruct IH as [HP Hk]; [now rewrite length_hswap |].
    assert (i < j) by (unfold child in Hc; lia).
    split.
    - eapply Permutation_trans; [| exact HP]. apply hswap_perm; lia.
    - intros k Hk'. rewrite Hk by assumption. apply hswap_keep; lia.
  Qed.

  Lemma sift_up_bag : forall l j l', sift_up l j l' -> j < length l -> Permutation l l'.
  Proof.
    induction 1 as [| | l i j l' Hc _ _ IH]; intros Hj; auto.
    assert (i < j) by (unfold child in Hc; lia).
    eapply Permutation_trans; [| apply IH; rewrite length_hswap; lia]. apply hswap_perm; lia.
  Qed.

  Lemma hpop_cons : forall a t,
      hpop d cmp (a :: t) =
      obind (down d cmp (S (S (length t))) (hswap d (a :: t) 0 (length t)) 0 (length t))
            (fun l' => Ok (l'@(length t), firstn (length t) l')).
  Proof. intros. unfold hpop. now replace (length (a :: t) - 1) with (length t) by (simpl; lia). Qed.

  (** Pop swaps the root to the end and sifts the new root down the rest;
      Push appends and sifts up from the end *)
  Lemma hpop_sift : forall a t x q',
      hpop d cmp (a :: t) = Ok (x, q') ->
      x = a /\ sift_down (length t) (hswap d (a :: t) 0 (length t)) 0 (q' ++ [a]).
  Proof.
    intros a t x q' H. rewrite hpop_cons in H. set (n := length t) in *.
    destruct (down d cmp (S (S n)) (hswap d (a :: t) 0 n) 0 n) as [l' | | |] eqn:Hd;
      cbn [obind] in H; try discriminate.
    inversion H; subst x q'; clear H. apply down_sift in Hd.
    destruct (sift_down_bag _ _ _ _ Hd) as [HP Hk]; [rewrite length_hswap; simpl; lia |].
    assert (Hl : length l' = S n) by (now rewrite <- (Permutation_length HP), length_hswap).
    assert (Ea : l'@n = a) by (rewrite Hk, swap_j by (simpl; lia); reflexivity).
    rewrite (last_split l' n Hl), Ea in Hd. now rewrite Ea.
  Qed.

  Lemma hpush_sift : forall l x l', hpush d cmp l x = Ok l' -> sift_up (l ++ [x]) (length l) l'.
  Proof.
    intros l x l' H. unfold hpush in H. rewrite app_length in H. cbn [length] in H.
    replace (length l + 1 - 1) with (length l) in H by lia. eapply up_sift; eauto.
  Qed.

  Lemma init_from_bag : forall cnt l n l', n <= length l -> init_from d cmp cnt l n = Ok l' -> Permutation l l'.
  Proof.
    induction cnt as [| c IH]; intros l n l' Hn H; cbn [init_from] in H.
    - inversion H; subst; auto.
    - destruct (down d cmp (S n) l c n) as [l1 | | |] eqn:Hd; cbn [obind] in H; try discriminate.
      apply down_sift, sift_down_bag in Hd; [| assumption]. destruct Hd as [HP _].
      apply IH in H; [| now rewrite <- (Permutation_length HP)]. eapply Permutation_trans; eauto.
  Qed.

  Lemma hinit_bag : forall l l', hinit d cmp l = Ok l' -> Permutation l l'.
  Proof. intros l l' H. eapply init_from_bag; [| exact H]. auto. Qed.

  Lemma hpush_bag : forall l x l', hpush d cmp l x = Ok l' -> Permutation (x :: l) l'.
  Proof.
    intros l x l' H. apply hpush_sift, sift_up_bag in H; [| rewrite app_length; simpl; lia].
    eapply Permutation_trans; [apply Permutation_cons_append | exact H].
  Qed.

  Lemma hpop_bag : forall l x l', hpop d cmp l = Ok (x, l') -> Permutation l (x :: l').
  Proof.
    intros [| a t] x l' H; [discriminate |]. apply hpop_sift in H. destruct H as [-> H].
    apply sift_down_bag in H; [| rewrite length_hswap; simpl; lia]. destruct H as [HP _].
    eapply Permutation_trans; [| eapply Permutation_trans; [exact HP | apply Permutation_sym, Permutation_cons_append]].
    apply hswap_perm; simpl; lia.
  Qed.

  Definition total_on (l : list A) : Prop := forall a b, In a l -> In b l -> exists c, cmp a b = Ok c.

  Lemma total_on_perm : forall l l', Permutation l l' -> total_on l -> total_on l'.
  Proof.
    intros l l' HP H a b Ha Hb. apply Permutation_sym in HP.
    apply H; eapply Permutation_in; eauto.
  Qed.

  Lemma hless_ok : forall l i j, total_on l -> i < length l -> j < length l -> exists c, hless d cmp l i j = Ok c.
  Proof. intros. unfold hless. apply H; now apply nth_In. Qed.

  Lemma down_ok : forall fuel l i n,
      n <= length l -> total_on l -> n - i < fuel -> exists l', down d cmp fuel l i n = Ok l'.
  Proof.
    induction fuel as [| f IH]; intros l i n Hn Ht Hf; [lia |].
    cbn [down]. destruct (Nat.leb_spec n (2 * i + 1)) as [E1 | E1]; [eauto |].
    assert (Hb : exists b, (if 2 * i + 1 + 1 <? n then hless d cmp l (2 * i + 1 + 1) (2 * i + 1) else Ok false) = Ok b
                           /\ (if b then 2 * i + 1 + 1 else 2 * i + 1) < n).
    { destruct (Nat.ltb_spec (2 * i + 1 + 1) n) as [E2 | E2]; [| exists false; split; [reflexivity | lia]].
      destruct (hless_ok l (2 * i + 1 + 1) (2 * i + 1) Ht) as [b Hb]; try lia.
      exists b. split; [exact Hb | destruct b; lia]. }
    destruct Hb as [b [Hb Hj]]. rewrite Hb. cbn [obind].
    set (j := if b then 2 * i + 1 + 1 else 2 * i + 1) in *.
    assert (i < j) by (unfold j; destruct b; lia).
    destruct (hless_ok l j i Ht) as [[] Hc]; try lia; rewrite Hc; cbn [obind]; [| eauto].
    apply IH; [rewrite length_hswap; lia | | lia].
    eapply total_on_perm; [apply hswap_perm; lia | exact Ht].
  Qed.

  Lemma up_ok : forall fuel l j,
      j < length l -> total_on l -> j < fuel -> exists l', up d cmp fuel l j = Ok l'.
  Proof.
    induction fuel as [| f IH]; intros l j Hj Ht Hf; [lia |].
    cbn [up]. destruct (parent_child j) as [[-> E] | Hc]; [rewrite E; simpl; eauto |].
    set (i := (j - 1) / 2) in *. assert (i < j) by (unfold child in Hc; lia).
    replace (i =? j) with false by (symmetry; apply Nat.eqb_neq; lia).
    destruct (hless_ok l j i Ht) as [[] Hcmp]; try lia; rewrite Hcmp; cbn [obind]; [| eauto].
    apply IH; [rewrite length_hswap; lia | | lia].
    eapply total_on_perm; [apply hswap_perm; lia | exact Ht].
  Qed.

  Lemma init_from_ok : forall cnt l n,
      n <= length l -> total_on l -> exists l', init_from d cmp cnt l n = Ok l'.
  Proof.
    induction cnt as [| c IH]; intros l n Hn Ht; cbn [init_from]; [eauto |].
    destruct (down_ok (S n) l c n Hn Ht) as [l1 H1]; [lia |]. rewrite H1. cbn [obind].
    apply down_sift, sift_down_bag in H1; [| assumption]. destruct H1 as [HP _].
    apply IH; [now rewrite <- (Permutation_length HP) | eapply total_on_perm; eauto].
  Qed.

  Lemma hinit_ok : forall l, total_on l -> exists l', hinit d cmp l = Ok l'.
  Proof. intros. apply init_from_ok; auto. Qed.

  Lemma hpush_ok : forall l x, total_on (x :: l) -> exists l', hpush d cmp l x = Ok l'.
  Proof.
    intros l x Ht. apply up_ok; [rewrite app_length; simpl; lia | | lia].
    eapply total_on_perm; [apply Permutation_cons_append | exact Ht].
  Qed.

  Lemma hpop_ok : forall l, l <> [] -> total_on l -> exists x l', hpop d cmp l = Ok (x, l').
  Proof.
    intros [| a t] Hne Ht; [contradiction |]. rewrite hpop_cons.
    destruct (down_ok (S (S (length t))) (hswap d (a :: t) 0 (length t)) 0 (length t)) as [l' H];
      [rewrite length_hswap; simpl; lia | | lia | rewrite H; simpl; eauto].
    eapply total_on_perm; [apply hswap_perm; simpl; lia | exact Ht].
  Qed.
End Arr.

(** Heap order, for a [cmp] between a preorder [le] and its strict part.
    [le] need only be transitive through [good] elements: the order on readers
    is trivial on one without a head. *)
Section HeapOrd.
  Context {A : Type} (d : A) (cmp : A -> A -> outcome bool).
  Variable le : A -> A -> Prop.
  Variable good : A -> Prop.
  Hypothesis le_trans : forall a b c, good b -> le a b -> le b c -> le a c.
  Hypothesis cmp_true : forall a b, cmp a b = Ok true -> le a b.
  Hypothesis cmp_false : forall a b, cmp a b = Ok false -> le b a.
  Notation "l @ i" := (nth i l d) (at level 9, i at level 9).

  (** every edge inside [0, n) whose parent is at least c is in order *)
  Definition hp_from (l : list A) (n c : nat) : Prop :=
    forall p k, child p k -> k < n -> c <= p -> le l@p l@k.

  (** ... except the edges below i; the parent of i is below the children of i *)
  Definition hp_down (l : list A) (n i c : nat) : Prop :=
    (forall p k, child p k -> k < n -> c <= p -> p <> i -> le l@p l@k) /\
    (forall g k, child g i -> child i k -> k < n -> c <= g -> le l@g l@k).

  (** ... except the edge above j; the parent of j is below the children of j *)
  Definition hp_up (l : list A) (n j : nat) : Prop :=
    (forall p k, child p k -> k < n -> k <> j -> le l@p l@k) /\
    (forall g k, child g j -> child j k -> k < n -> le l@g l@k).

  Lemma good_nth : forall l k, Forall good l -> k < length l -> good l@k.
  Proof. intros l k H Hk. rewrite Forall_forall in H. apply H. now apply nth_In. Qed.

  Lemma first_child_le : forall l n i j,
      first_child d cmp l n i j -> forall k, child i k -> k < n -> k <> j -> le l@j l@k.
  Proof. intros l n i j (_ & _ & H) k Hk Hn Hne. destruct (H k Hk Hn Hne); auto. Qed.

  Lemma sift_down_order : forall n c l i l',
      sift_down d cmp n l i l' -> n <= length l -> Forall good l -> c <= i ->
      hp_down l n i c -> hp_from l' n c.
  Proof.
    induction 1 as [l i Hleaf | l i j Hfc Hc | l i j l' Hfc Hc _ IH]; intros Hn Hg Hci [Hedges Hskip].
    - intros p k Hpk Hk Hcp. apply Hedges; auto. unfold child in Hpk; lia.
    - apply cmp_false in Hc. pose proof (first_child_le _ _ _ _ Hfc) as Hmin. destruct Hfc as (Hij & Hj & _).
      intros p k Hpk Hk Hcp. destruct (Nat.eq_dec p i) as [-> | Hpi]; [| now apply Hedges].
      destruct (Nat.eq_dec k j) as [-> | Hkj]; [exact Hc |].
      apply (le_trans _ l@j); auto. apply good_nth; [assumption | lia].
    - apply cmp_true in Hc. pose proof (first_child_le _ _ _ _ Hfc) as Hmin. destruct Hfc as (Hij & Hj & _).
      assert (Li : i < length l) by (unfold child in Hij; lia). assert (Lj : j < length l) by lia.
      apply IH; [now rewrite length_hswap | | unfold child in Hij; lia |].
      { eapply Permutation_Forall; [apply hswap_perm |]; eassumption. }
      split.
      + intros p k Hpk Hk Hcp Hpj. destruct (Nat.eq_dec p i) as [-> | Hpi].
        * rewrite swap_i by assumption. destruct (Nat.eq_dec k j) as [-> | Hkj]; [now rewrite swap_j |].
          rewrite hswap_keep by (unfold child in Hij, Hpk; lia). now apply Hmin.
        * rewrite (hswap_keep d l i j p) by assumption. destruct (Nat.eq_dec k i) as [-> | Hki].
          -- rewrite swap_i by assumption. now apply Hskip.
          -- rewrite hswap_keep by (unfold child in Hij, Hpk; lia). now apply Hedges.
      + intros g k Hgj Hjk Hk Hcg. assert (g = i) by (unfold child in Hij, Hgj; lia). subst g.
        rewrite swap_i by assumption. rewrite hswap_keep by (unfold child in Hij, Hjk; lia).
        apply Hedges; auto; unfold child in Hij; lia.
  Qed.

  Lemma sift_up_order : forall n l j l',
      sift_up d cmp l j l' -> j < n -> n <= length l -> Forall good l ->
      hp_up l n j -> hp_from l' n 0.
  Proof.
    induction 1 as [l | l i j Hij Hc | l i j l' Hij Hc _ IH]; intros Hj Hn Hg [Hedges Hskip].
    - intros p k Hpk Hk _. apply Hedges; auto. unfold child in Hpk; lia.
    - apply cmp_false in Hc. intros p k Hpk Hk _.
      destruct (Nat.eq_dec k j) as [-> | Hkj]; [| now apply Hedges].
      replace p with i by (unfold child in Hij, Hpk; lia). exact Hc.
    - apply cmp_true in Hc.
      assert (Li : i < length l) by (unfold child in Hij; lia). assert (Lj : j < length l) by lia.
      assert (Gi : good l@i) by now apply good_nth.
      apply IH; [unfold child in Hij; lia | now rewrite length_hswap | |].
      { eapply Permutation_Forall; [apply hswap_perm |]; eassumption. }
      split.
      + intros p k Hpk Hk Hki. destruct (Nat.eq_dec k j) as [-> | Hkj].
        * replace p with i by (unfold child in Hij, Hpk; lia). now rewrite swap_i, swap_j.
        * rewrite (hswap_keep d l i j k) by assumption. destruct (Nat.eq_dec p j) as [-> | Hpj].
          -- rewrite swap_j by assumption. now apply Hskip.
          -- destruct (Nat.eq_dec p i) as [-> | Hpi].
             ++ rewrite swap_i by assumption. apply (le_trans _ l@i); auto.
             ++ rewrite hswap_keep by assumption. now apply Hedges.
      + intros g k Hgi Hik Hk. rewrite (hswap_keep d l i j g) by (unfold child in Hij, Hgi; lia).
        assert (Hgi' : le l@g l@i) by (apply Hedges; auto; unfold child in Hij, Hgi; lia).
        destruct (Nat.eq_dec k j) as [-> | Hkj]; [now rewrite swap_j |].
        rewrite hswap_keep by (unfold child in Hij, Hik; lia). apply (le_trans _ l@i); auto.
  Qed.

  Lemma init_order : forall cnt l n l',
      n <= length l -> Forall good l ->
      init_from d cmp cnt l n = Ok l' -> hp_from l n cnt -> hp_from l' n 0.
  Proof.
    induction cnt as [| c IH]; intros l n l' Hn Hg H Hinv; cbn [init_from] in H.
    - inversion H; subst; assumption.
    - destruct (down d cmp (S n) l c n) as [l1 | | |] eqn:Hd; cbn [obind] in H; try discriminate.
      apply down_sift in Hd. destruct (sift_down_bag _ _ _ _ _ _ Hd Hn) as [HP _].
      apply (IH l1 n l'); [now rewrite <- (Permutation_length HP) | eapply Permutation_Forall; eauto | exact H |].
      eapply sift_down_order; eauto. split.
      + intros p k Hpk Hk Hcp Hne. apply Hinv; auto; lia.
      + intros g k Hgc. unfold child in Hgc. lia.
  Qed.

  Lemma root_min : forall l n, n <= length l -> Forall good l -> hp_from l n 0 ->
      forall k, 0 < k < n -> le l@0 l@k.
  Proof.
    intros l n Hn Hg Hh k. induction k as [k IHk] using lt_wf_ind. intros Hk.
    destruct (parent_child k) as [[-> _] | Hp]; [lia |]. set (p := (k - 1) / 2) in *.
    destruct (Nat.eq_dec p 0) as [-> | E]; [apply Hh; auto; lia |].
    apply (le_trans _ l@p); [apply good_nth | apply IHk | apply Hh]; auto; unfold child in Hp; lia.
  Qed.

  Definition heap (q : list A) : Prop := hp_from q (length q) 0 /\ Forall good q.

  Lemma hinit_heap : forall l l', Forall good l -> hinit d cmp l = Ok l' -> heap l'.
  Proof.
    intros l l' Hg H. pose proof (hinit_bag d cmp _ _ H) as HP.
    split; [| eapply Permutation_Forall; eauto].
    rewrite <- (Permutation_length HP). eapply init_order; eauto.
    intros p k Hpk Hk Hc. apply half_leaf in Hc. unfold child in Hpk; lia.
  Qed.

  Lemma hpush_heap : forall q x q', heap q -> good x -> hpush d cmp q x = Ok q' -> heap q'.
  Proof.
    intros q x q' [Hh Hg] Hx H. pose proof (hpush_bag d cmp _ _ _ H) as HP.
    split; [| eapply Permutation_Forall; [exact HP | now constructor]].
    rewrite <- (Permutation_length HP). cbn [length]. apply hpush_sift in H.
    eapply sift_up_order; [exact H | lia | rewrite app_length; simpl; lia | apply Forall_app; auto |].
    split.
    - intros p k Hpk Hk Hne. rewrite !app_nth1 by (unfold child in Hpk; lia). apply Hh; auto; lia.
    - intros g k _ Hjk Hk. unfold child in Hjk. lia.
  Qed.

  Lemma hpop_heap : forall q x q', heap q -> hpop d cmp q = Ok (x, q') -> heap q' /\ Forall (le x) q'.
  Proof.
    intros [| a t] x q' [Hh Hg] H; [discriminate |].
    pose proof (hpop_bag d cmp _ _ _ H) as HP. apply hpop_sift in H. destruct H as [-> H].
    apply Permutation_cons_inv in HP. pose proof (Permutation_length HP) as HL.
    split; [split |].
    - assert (Hh' : hp_from (q' ++ [a]) (length t) 0).
      { eapply sift_down_order; [exact H | rewrite length_hswap; simpl; lia | | lia |].
        - eapply Permutation_Forall; [apply hswap_perm; simpl; lia | exact Hg].
        - split.
          + intros p k Hpk Hk _ Hp0. rewrite !hswap_keep by (unfold child in Hpk; lia).
            apply Hh; auto; simpl; lia.
          + intros g k Hg0. unfold child in Hg0; lia. }
      rewrite <- HL. intros p k Hpk Hk Hc. specialize (Hh' p k Hpk Hk Hc).
      rewrite !app_nth1 in Hh' by (unfold child in Hpk; lia). exact Hh'.
    - eapply Permutation_Forall; [exact HP | now inversion Hg].
    - eapply Permutation_Forall; [exact HP |]. apply Forall_forall. intros y Hy.
      destruct (In_nth _ _ d Hy) as [k [Hk <-]].
      apply (root_min (a :: t) (S (length t)) (le_n _) Hg Hh (S k)). lia.
  Qed.
End HeapOrd.
