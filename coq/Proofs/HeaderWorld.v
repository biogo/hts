(** C07 — the invariant HInv on whole worlds and its preservation by the API
    operations of the model. *)
From Coq Require Import ZArith List Bool Lia.
From Hts Require Import Base.Prim Model.Header Proofs.HeaderBase Proofs.HeaderInv.
Import ListNotations.
Open Scope Z_scope.

(** the HInv of DESIGN.md and of the comments of Props/C07.v *)
Definition WInv (w : world) : Prop :=
  KInv (map h_R (w_h w)) (w_r w) /\ KInv (map h_G (w_h w)) (w_g w) /\ KInv (map h_P (w_h w)) (w_p w).

(** handles valid in [w] stay valid in [w'] *)
Definition Ext (w w' : world) : Prop :=
  (length (w_h w) <= length (w_h w'))%nat /\ (length (w_r w) <= length (w_r w'))%nat /\
  (length (w_g w) <= length (w_g w'))%nat /\ (length (w_p w) <= length (w_p w'))%nat.

Lemma Ext_refl : forall w, Ext w w.
Proof. intro; unfold Ext; lia. Qed.
Lemma Ext_trans : forall a b c, Ext a b -> Ext b c -> Ext a c.
Proof. unfold Ext; intros; lia. Qed.

(** an operation returned (with or without an error value), the invariant holds, nothing disappeared *)
Definition Good (w : world) (x : res) : Prop := exists w' e, x = Ok (w', e) /\ WInv w' /\ Ext w w'.
Definition GoodW (w : world) (x : outcome world) : Prop := exists w', x = Ok w' /\ WInv w' /\ Ext w w'.

Lemma Good_intro : forall w w' e, WInv w' -> Ext w w' -> Good w (Ok (w', e)).
Proof. intros. exists w', e. auto. Qed.
Lemma Good_same : forall w e, WInv w -> Good w (Ok (w, e)).
Proof. intros. apply Good_intro; [assumption|apply Ext_refl]. Qed.
Lemma Good_ext : forall w0 w x, Ext w0 w -> Good w x -> Good w0 x.
Proof. intros w0 w x X (w' & e & R & I & X'). exists w', e. split; [|split]; auto. eapply Ext_trans; eauto. Qed.

Lemma WInv_put_same : forall w h hd hd', WInv w -> nth_error (w_h w) h = Some hd ->
  h_R hd' = h_R hd -> h_G hd' = h_G hd -> h_P hd' = h_P hd -> WInv (put_hdr w h hd').
Proof.
  intros w h hd hd' I Hh ER EG EP. unfold WInv, put_hdr, set_h; simpl.
  rewrite !map_upd, ER, EG, EP, !upd_same by (apply map_nth_error; exact Hh). exact I.
Qed.

Lemma put_hdr_same : forall w h hd, nth_error (w_h w) h = Some hd -> put_hdr w h hd = w.
Proof. intros [hs a b c] h hd H. unfold put_hdr, set_h; simpl in *. rewrite upd_same by assumption. reflexivity. Qed.

Lemma Ext_put : forall w h hd, Ext w (put_hdr w h hd).
Proof. intros. unfold Ext, put_hdr, set_h; simpl. rewrite upd_length. lia. Qed.

(** References, read groups and programs are handled by the same code on
    different fields: a kind of item is given by where its store sits in the
    world and its table in a header. *)
Record lens (P : Type) : Type := mkLens {
  l_st : world -> list (obj P); l_t : hdr -> tbl;
  l_setst : world -> list (obj P) -> world; l_sett : hdr -> tbl -> hdr }.
Arguments l_st {P}. Arguments l_t {P}. Arguments l_setst {P}. Arguments l_sett {P}.

Definition kR : lens refpay := mkLens _ w_r h_R set_r set_R.
Definition kG : lens rgpay := mkLens _ w_g h_G set_g set_G.
Definition kP : lens pgpay := mkLens _ w_p h_P set_p set_P.

(** what the proofs about WInv use of a kind *)
Record LensInv {P} (k : lens P) : Prop := mkLensInv {
  li_K : forall w, WInv w -> KInv (map (l_t k) (w_h w)) (l_st k w);
  li_put : forall w h hd st' t', WInv w -> nth_error (w_h w) h = Some hd ->
    KInv (upd (map (l_t k) (w_h w)) h t') st' -> WInv (put_hdr (l_setst k w st') h (l_sett k hd t'));
  li_st : forall w st', WInv w -> KInv (map (l_t k) (w_h w)) st' -> WInv (l_setst k w st');
  li_ext : forall w st', (length (l_st k w) <= length st')%nat -> Ext w (l_setst k w st') }.

Ltac lens_inv :=
  split;
  [ intros w I; apply I
  | intros w h hd st' t' (KR & KG & KP) Hh K; unfold WInv; simpl; rewrite !map_upd; simpl;
    split; [|split]; first [exact K | rewrite upd_same by (apply map_nth_error; exact Hh); assumption]
  | intros w st' (KR & KG & KP) K; unfold WInv; simpl; auto
  | intros w st' L; unfold Ext; simpl in *; lia ].
Lemma invR : LensInv kR. Proof. lens_inv. Qed.
Lemma invG : LensInv kG. Proof. lens_inv. Qed.
Lemma invP : LensInv kP. Proof. lens_inv. Qed.

Record LensLaws {P} (k : lens P) : Prop := mkLensLaws {
  ll_st : forall w s h hd', l_st k (put_hdr (l_setst k w s) h hd') = s;
  ll_t : forall hd t, l_t k (l_sett k hd t) = t;
  ll_h : forall w s, w_h (l_setst k w s) = w_h w;
  ll_putput : forall w s h hd t s' t',
    put_hdr (l_setst k (put_hdr (l_setst k w s) h (l_sett k hd t)) s') h (l_sett k (l_sett k hd t) t') = put_hdr (l_setst k w s') h (l_sett k hd t');
  ll_same : forall w h hd, nth_error (w_h w) h = Some hd -> put_hdr (l_setst k w (l_st k w)) h (l_sett k hd (l_t k hd)) = w }.

Ltac lens_laws :=
  split; try reflexivity;
  [ intros [hs a b c] s h [v so go ot R G Pp co] t s' t'; unfold put_hdr, set_h; simpl; rewrite upd_upd; reflexivity
  | intros [hs a b c] h [v so go ot R G Pp co] H; unfold put_hdr, set_h; simpl in *; rewrite upd_same by assumption; reflexivity ].
Lemma lawsR : LensLaws kR. Proof. lens_laws. Qed.
Lemma lawsG : LensLaws kG. Proof. lens_laws. Qed.
Lemma lawsP : LensLaws kP. Proof. lens_laws. Qed.

Lemma nth_put_hdr : forall w h hd, (h < length (w_h w))%nat -> nth_error (w_h (put_hdr w h hd)) h = Some hd.
Proof. intros. apply nth_error_upd_eq. assumption. Qed.

Section Kind.
  Context {P : Type} (k : lens P) (LI : LensInv k).

  Lemma lens_tbl : forall w h hd, nth_error (w_h w) h = Some hd -> nth_error (map (l_t k) (w_h w)) h = Some (l_t k hd).
  Proof. intros. apply map_nth_error. assumption. Qed.

  Lemma lens_TInv : forall w h hd, WInv w -> nth_error (w_h w) h = Some hd -> TInv h (l_st k w) (l_t k hd).
  Proof. intros w h hd I Hh. apply (proj1 (li_K k LI w I)). apply lens_tbl. exact Hh. Qed.

  Lemma lens_valid : forall w h hd x, WInv w -> nth_error (w_h w) h = Some hd -> In x (t_items (l_t k hd)) -> (x < length (l_st k w))%nat.
  Proof. intros w h hd x I Hh. apply (TInv_valid h). apply lens_TInv; assumption. Qed.

  Lemma lens_owned : forall w r o h, WInv w -> nth_error (l_st k w) r = Some o -> o_owner o = Some h ->
    exists hd, nth_error (w_h w) h = Some hd /\ nth_error (t_items (l_t k hd)) (Z.to_nat (o_id o)) = Some r.
  Proof.
    intros w r o h I Ho Hw. destruct (proj2 (li_K k LI w I) _ _ _ Ho Hw) as (t & Ht & Hl & _).
    rewrite nth_error_map in Ht. destruct (nth_error (w_h w) h) as [hd|]; [|discriminate]. inversion Ht; subst. eauto.
  Qed.

  Lemma lput_good : forall w h hd st' t' e, WInv w -> nth_error (w_h w) h = Some hd ->
    KInv (upd (map (l_t k) (w_h w)) h t') st' -> (length (l_st k w) <= length st')%nat ->
    Good w (Ok (put_hdr (l_setst k w st') h (l_sett k hd t'), e)).
  Proof.
    intros. apply Good_intro; [apply (li_put k LI); assumption|].
    eapply Ext_trans; [apply (li_ext k LI); eassumption|apply Ext_put].
  Qed.

  Lemma lift3_good : forall w h hd x, WInv w -> nth_error (w_h w) h = Some hd ->
    (exists st' t' e, x = Ok (st', t', e) /\ KInv (upd (map (l_t k) (w_h w)) h t') st' /\ length st' = length (l_st k w)) ->
    Good w (lift3 w h hd (l_setst k) (l_sett k) x).
  Proof. intros w h hd x I Hh (st' & t' & e & -> & K & L). apply lput_good; auto. lia. Qed.

  (** AddReadGroup, AddProgram *)
  Lemma add_good : forall edup eused w h r, WInv w -> (h < length (w_h w))%nat -> (r < length (l_st k w))%nat ->
    Good w match nth_error (w_h w) h with
           | Some hd => lift3 w h hd (l_setst k) (l_sett k) (add_gen edup eused h (l_st k w) (l_t k hd) r)
           | None => Panic pNil
           end.
  Proof.
    intros edup eused w h r I Lh Lr. destruct (nth_error_lt _ _ Lh) as (hd & Hh). rewrite Hh.
    apply lift3_good; auto. unfold add_gen. destruct (nth_error_lt _ _ Lr) as (o & Ho). rewrite Ho.
    assert (K := li_K k LI w I). assert (Ht := lens_tbl w h hd Hh).
    destruct (mget (o_name o) (t_seen (l_t k hd))) eqn:M.
    - exists (l_st k w), (l_t k hd), edup. rewrite upd_same by assumption. auto.
    - destruct (add_fresh eused h (l_st k w) (l_t k hd) r o) as [[st' t'] e] eqn:A. exists st', t', e.
      split; [reflexivity|]. split; [eapply KInv_add_fresh; eauto|eapply add_fresh_length; eauto].
  Qed.

  (** RemoveReference, RemoveReadGroup, RemoveProgram *)
  Lemma remove_good : forall einv w h r, WInv w -> (h < length (w_h w))%nat -> (r < length (l_st k w))%nat ->
    Good w match nth_error (w_h w) h with
           | Some hd => lift3 w h hd (l_setst k) (l_sett k) (remove_gen einv (l_st k w) (l_t k hd) r)
           | None => Panic pNil
           end.
  Proof.
    intros einv w h r I Lh Lr. destruct (nth_error_lt _ _ Lh) as (hd & Hh). rewrite Hh.
    apply lift3_good; auto. apply KInv_remove; [apply (li_K k LI w I)|apply lens_tbl; exact Hh|exact Lr].
  Qed.

  (** Reference.SetName, ReadGroup.SetName, Program.SetUID *)
  Lemma setname_good : forall w r n, WInv w -> (r < length (l_st k w))%nat ->
    Good w (setname_any w (l_st k w) (l_t k) (l_setst k) (l_sett k) r n).
  Proof.
    intros w r n I Lr. unfold setname_any. destruct (nth_error_lt _ _ Lr) as (o & Ho). rewrite Ho.
    assert (K := li_K k LI w I).
    assert (L : (length (l_st k w) <= length (upd (l_st k w) r (with_name o n)))%nat) by (rewrite upd_length; lia).
    destruct (o_owner o) as [h|] eqn:Hw.
    - destruct (lens_owned w r o h I Ho Hw) as (hd & Hh & _). rewrite Hh. unfold setname_owned. destruct (mget n (t_seen (l_t k hd))) eqn:M.
      + destruct (z =? o_id o); apply Good_same; exact I.
      + apply lput_good; auto. eapply KInv_setname; eauto. apply lens_tbl; exact Hh.
    - apply Good_intro; [|apply (li_ext k LI); exact L]. apply (li_st k LI); auto. eapply KInv_unowned_upd; eauto.
  Qed.

  (** New*, Clone of an item, and the allocation of a parsed item *)
  Lemma alloc_good : forall w o, WInv w -> o_owner o = None ->
    WInv (l_setst k w (l_st k w ++ [o])) /\ Ext w (l_setst k w (l_st k w ++ [o])).
  Proof.
    intros w o I Hn. split.
    - apply (li_st k LI); auto. apply KInv_alloc; auto. apply (li_K k LI w I).
    - apply (li_ext k LI). rewrite app_length. lia.
  Qed.

  (** the common tail of readGroupLine and programLine *)
  Lemma install_new_good : forall w h hd o, WInv w -> nth_error (w_h w) h = Some hd ->
    mget (o_name o) (t_seen (l_t k hd)) = None ->
    Good w (let '(st', t') := install_new h (l_st k w) (l_t k hd) o in Ok (put_hdr (l_setst k w st') h (l_sett k hd t'), 0)).
  Proof.
    intros w h hd o I Hh M. unfold install_new.
    destruct (add_fresh 0 h _ _ _ _) as [[st1 t1] e] eqn:A.
    apply lput_good; auto.
    - eapply KInv_add_fresh; [exact (KInv_alloc _ _ (with_ident o None (-1)) (li_K k LI w I) eq_refl)|apply lens_tbl; exact Hh|apply nth_error_app_last|exact M|exact A].
    - apply add_fresh_length in A. rewrite A, app_length. lia.
  Qed.
End Kind.

Lemma listed_objs : forall w h hd, WInv w -> nth_error (w_h w) h = Some hd ->
  exists rs gs ps, objs (w_r w) (t_items (h_R hd)) = Some rs /\ objs (w_g w) (t_items (h_G hd)) = Some gs /\
    objs (w_p w) (t_items (h_P hd)) = Some ps.
Proof.
  intros w h hd I Hh.
  destruct (TInv_objs _ _ _ (lens_TInv kR invR w h hd I Hh)) as (rs & Hr).
  destruct (TInv_objs _ _ _ (lens_TInv kG invG w h hd I Hh)) as (gs & Hg).
  destruct (TInv_objs _ _ _ (lens_TInv kP invP w h hd I Hh)) as (ps & Hp). eauto 7.
Qed.

Lemma equal_refs_name : forall a b, equal_refs a b = true -> o_name a = o_name b /\ rp_len (o_pay a) = rp_len (o_pay b).
Proof.
  intros a b. unfold equal_refs.
  destruct (str_eqb (o_name a) (o_name b)) eqn:E1; [|rewrite !orb_true_r; simpl; rewrite ?orb_true_r; discriminate].
  destruct (rp_len (o_pay a) =? rp_len (o_pay b)) eqn:E2; [|simpl; rewrite !orb_true_r; simpl; discriminate].
  intros _. split; [apply str_eqb_eq; assumption|apply Z.eqb_eq; assumption].
Qed.

Lemma add_reference_good : forall w h r, WInv w -> (h < length (w_h w))%nat -> (r < length (w_r w))%nat ->
  Good w (add_reference w h r).
Proof.
  intros w h r I Lh Lr. unfold add_reference.
  destruct (nth_error_lt _ _ Lh) as (hd & Hh). destruct (nth_error_lt _ _ Lr) as (o & Ho). rewrite Hh, Ho.
  assert (KR : KInv (map h_R (w_h w)) (w_r w)) by apply I.
  assert (Ht : nth_error (map h_R (w_h w)) h = Some (h_R hd)) by exact (lens_tbl kR w h hd Hh).
  destruct (mget (o_name o) (t_seen (h_R hd))) as [dupID|] eqn:M.
  - apply (ti_seen _ _ _ (proj1 KR _ _ Ht)) in M. destruct M as (d & erh & er & Hd & Her & Hn & Hv). subst dupID.
    rewrite idx_of_nat, Hd, Her.
    destruct (equal_refs er o); [apply Good_same; exact I|].
    destruct (equal_refs o (bare_ref (-1) (o_name er) (rp_len (o_pay er)))) eqn:EB; simpl; [|apply Good_same; exact I].
    destruct (owned o) eqn:OW; [apply Good_same; exact I|].
    unfold install_over. rewrite Nat2Z.id. apply (lput_good kR invR); auto; [|simpl; rewrite !upd_length; lia].
    assert (HnO : o_owner o = None) by (unfold owned in OW; destruct (o_owner o); congruence).
    assert (Hnm : o_name (inherit o er) = o_name er) by (apply equal_refs_name in EB; apply EB).
    exact (KInv_install_over _ _ h (h_R hd) d r o erh er (inherit o er) KR Ht Ho HnO Hd Her Hnm).
  - destruct (add_fresh eUsedRef h (w_r w) (h_R hd) r o) as [[st' t'] e] eqn:A.
    apply (lput_good kR invR); auto; [eapply KInv_add_fresh; eauto|]. apply add_fresh_length in A. simpl. lia.
Qed.

(** Header.Clone: the new header lists fresh copies, appended to the stores in order *)
Definition cloned (w : world) (hd : hdr) rs gs ps : world :=
  let hn := length (w_h w) in
  mkW (w_h w ++ [mkHdr (h_vn hd) (h_so hd) (h_go hd) (h_other hd)
                       (mkTbl (seq (length (w_r w)) (length rs)) (t_seen (h_R hd)))
                       (mkTbl (seq (length (w_g w)) (length gs)) (t_seen (h_G hd)))
                       (mkTbl (seq (length (w_p w)) (length ps)) (t_seen (h_P hd))) (h_co hd)])
      (w_r w ++ map (copy_of hn) rs) (w_g w ++ map (copy_of hn) gs) (w_p w ++ map (copy_of hn) ps).

Lemma clone_header_spec : forall w h hd, WInv w -> nth_error (w_h w) h = Some hd ->
  exists rs gs ps, objs (w_r w) (t_items (h_R hd)) = Some rs /\ objs (w_g w) (t_items (h_G hd)) = Some gs /\
    objs (w_p w) (t_items (h_P hd)) = Some ps /\ clone_header w h = Ok (cloned w hd rs gs ps) /\ WInv (cloned w hd rs gs ps).
Proof.
  intros w h hd I Hh. unfold clone_header. rewrite Hh.
  destruct (listed_objs w h hd I Hh) as (rs & gs & ps & Hr & Hg & Hp).
  assert (KR := KInv_clone _ _ h _ rs (li_K kR invR w I) (lens_tbl kR w h hd Hh) Hr).
  assert (KG := KInv_clone _ _ h _ gs (li_K kG invG w I) (lens_tbl kG w h hd Hh) Hg).
  assert (KP := KInv_clone _ _ h _ ps (li_K kP invP w I) (lens_tbl kP w h hd Hh) Hp).
  rewrite map_length in KR, KG, KP.
  exists rs, gs, ps. rewrite (clone_items_spec _ _ _ _ Hr), (clone_items_spec _ _ _ _ Hg), (clone_items_spec _ _ _ _ Hp).
  split; [exact Hr|]. split; [exact Hg|]. split; [exact Hp|]. split; [reflexivity|].
  unfold WInv, cloned; simpl. rewrite !map_app. simpl. auto.
Qed.

Lemma Ext_cloned : forall w hd rs gs ps, Ext w (cloned w hd rs gs ps).
Proof. intros. unfold Ext, cloned; simpl. rewrite !app_length. lia. Qed.
