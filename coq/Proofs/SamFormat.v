(** C06 — MarshalSAM (model) equals the formatter written from SAMv1 1.4/1.5. *)
From Coq Require Import ZArith List Bool Lia.
From Hts Require Import Base.Prim Base.Bits Generated Model.SamText Model.SamSpec Proofs.SamBytes.
Import ListNotations.
Open Scope Z_scope.

Definition int_type_ok (ty v : Z) : Prop :=
  (ty = 99 /\ -128 <= v <= 127) \/ (ty = 67 /\ 0 <= v <= 255) \/
  (ty = 115 /\ -32768 <= v <= 32767) \/ (ty = 83 /\ 0 <= v <= 65535) \/
  (ty = 105 /\ - 2 ^ 31 <= v <= 2 ^ 31 - 1) \/ (ty = 73 /\ 0 <= v <= 2 ^ 32 - 1).
Definition int_type (ty : Z) : Prop :=
  ty = 99 \/ ty = 67 \/ ty = 115 \/ ty = 83 \/ ty = 105 \/ ty = 73.

Lemma int_type_ok_type : forall ty v, int_type_ok ty v -> int_type ty.
Proof. unfold int_type_ok, int_type. intros. tauto. Qed.

(** aux fields expressible in SAM text (SAMv1 1.5) *)
Definition auxv_ok (v : auxv) : Prop :=
  match v with
  | AvA c => 33 <= c <= 126
  | AvInt ty n => int_type_ok ty n
  | AvF _ => True
  | AvZ s => free 9 s
  | AvH b => Forall (fun c => 0 <= c < 256) b
  | AvBI ty vs => int_type ty /\ Forall (int_type_ok ty) vs
  | AvBF _ => True
  end.
Definition aux_ok (a : aux) : Prop :=
  a_t0 a <> 9 /\ a_t1 a <> 9 /\ auxv_ok (a_val a).

Definition name_ok (n : list Z) : Prop := n <> [] /\ n <> [42] /\ n <> [61] /\ free 9 n.
Definition hdr_ok (h : header) : Prop := NoDup (map fst h) /\ Forall name_ok (map fst h).
Definition ref_ok (h : header) (r : option nat) : Prop :=
  match r with None => True | Some i => (i < length h)%nat end.

Definition qual_ok (seqlen : Z) (q : option (list Z)) : Prop :=
  match q with
  | None => True
  | Some l => zlen l = seqlen /\ Forall (fun v => 0 <= v < 256) l /\
              (all_ff l = false -> free 9 (map (fun p => u8 (p + 33)) l) /\ l <> [9])
  end.

(** canonical doublets: as many as the length needs, bytes, and a zero low
    nibble in the last one when the length is odd *)
Definition seq_ok (seqlen : Z) (ds : list Z) : Prop :=
  0 <= seqlen /\ zlen ds = (seqlen + 1) / 2 /\ Forall (fun d => 0 <= d < 256) ds /\
  (seqlen mod 2 = 1 -> (last ds 0) mod 16 = 0).

(** Records expressible in SAM text; [maxop] is 8 for the operations of SAMv1
    (MIDNSHP=X) and 9 when the library's B operation is allowed too. *)
Record valid (maxop : Z) (h : header) (r : samrec) : Prop := {
  v_hdr : hdr_ok h;
  v_name : free 9 (r_name r);
  v_flags : 0 <= r_flags r < 2 ^ 16;
  v_ref : ref_ok h (r_ref r);
  v_mref : ref_ok h (r_mref r);
  v_pos : - 2 ^ 63 <= r_pos r /\ r_pos r + 1 < 2 ^ 63;
  v_mpos : - 2 ^ 63 <= r_mpos r /\ r_mpos r + 1 < 2 ^ 63;
  v_tlen : - 2 ^ 63 <= r_tlen r < 2 ^ 63;
  v_mapq : 0 <= r_mapq r < 256;
  v_cigar : Forall (fun co => 0 <= co < 2 ^ 32 /\ co mod 16 <= maxop) (r_cigar r);
  v_seq : seq_ok (r_seqlen r) (r_seq r);
  v_cigseq : r_cigar r = [] \/ r_seqlen r = 0 \/ cigar_is_valid (r_cigar r) (r_seqlen r) = Ok true;
  v_qual : qual_ok (r_seqlen r) (r_qual r);
  v_aux : Forall aux_ok (r_aux r)
}.

Lemma seq_ok_nil : seq_ok 0 [].
Proof. split; [lia|]. split; [reflexivity|]. split; [constructor|discriminate]. Qed.

Lemma s64_id : forall x, - 2 ^ 63 <= x < 2 ^ 63 -> s64 x = x.
Proof. intros x H. unfold s64, wraps. change (64 - 1) with 63. rewrite Z.mod_small; lia. Qed.

(** Running Sprintf on a format string that is a constant of the source. *)
Ltac run_sprintf := lazy [nth sprintf fpiece Z.eqb Pos.eqb orb option_map].

Lemma fmt_line : forall a ff p c d e f g i j k l,
  fpiece 118 ff = Some p ->
  sprintf sam_MarshalSAM_format [FS a; ff; FS c; FD d; FD e; FS f; FS g; FD i; FD j; FS k; FS l]
  = Some (join 9 [a; p; c; print_Z d; print_Z e; f; g; print_Z i; print_Z j; k; l]).
Proof.
  intros. unfold sam_MarshalSAM_format.
  destruct ff; lazy [fpiece Z.eqb Pos.eqb orb] in H; try discriminate; injection H as <-;
    run_sprintf; cbn [join]; rewrite app_nil_r; reflexivity.
Qed.

Lemma join_cons : forall sep fs f, join sep (f :: fs) = f ++ flat_map (fun g => sep :: g) fs.
Proof.
  induction fs as [|g fs IH]; intros f; [symmetry; apply app_nil_r|].
  change (join sep (f :: g :: fs)) with (f ++ sep :: join sep (g :: fs)). rewrite IH. reflexivity.
Qed.

Lemma join_app : forall sep fs gs, fs <> [] ->
  join sep (fs ++ gs) = join sep fs ++ flat_map (fun g => sep :: g) gs.
Proof.
  intros sep [|f fs] gs H; [congruence|]. cbn [app]. rewrite !join_cons, flat_map_app, app_assoc. reflexivity.
Qed.

Lemma cig_type_mod : forall co, 0 <= co -> cig_type co = co mod 16.
Proof. intros. unfold cig_type. change 15 with (Z.ones 4). rewrite Z.land_ones by lia. reflexivity. Qed.
Lemma cig_len_div : forall co, cig_len co = co / 16.
Proof. intros. unfold cig_len. rewrite Z.shiftr_div_pow2 by lia. reflexivity. Qed.

Lemma cig_type_string_spec : forall t, 0 <= t < 9 ->
  cig_type_string t = [nth (Z.to_nat t) spec_ops 63].
Proof. apply (range_Forall _ 9). repeat constructor. Qed.

Lemma cig_op_string_spec : forall co, 0 <= co -> co mod 16 <= 8 ->
  cig_op_string co = Some (print_Z (co / 16) ++ [nth (Z.to_nat (co mod 16)) spec_ops 63]).
Proof.
  intros co H0 H. unfold cig_op_string. rewrite cig_len_div, cig_type_mod by assumption.
  rewrite cig_type_string_spec by (pose proof (Z.mod_pos_bound co 16); lia).
  unfold sam_CigarOp_formats. run_sprintf. rewrite ?app_nil_r. reflexivity.
Qed.

(** The text of a non-empty CIGAR, as SAMv1 writes it. *)
Definition cigar_text (c : list Z) : list Z :=
  flat_map (fun lo => print_Z (fst lo) ++ [nth (Z.to_nat (snd lo)) spec_ops 63])
           (map (fun co => (co / 16, co mod 16)) c).

Lemma cig_ops_string_spec : forall c,
  Forall (fun co => 0 <= co < 2 ^ 32 /\ co mod 16 <= 8) c -> cig_ops_string c = Some (cigar_text c).
Proof.
  induction c as [|co c IH]; intro H; [reflexivity|].
  inversion H as [|? ? [H1 H2] H3]; subst.
  cbn [cig_ops_string]. rewrite cig_op_string_spec, IH by (assumption || lia). reflexivity.
Qed.

Lemma cigar_string_spec : forall c,
  Forall (fun co => 0 <= co < 2 ^ 32 /\ co mod 16 <= 8) c ->
  cigar_string c = Some (spec_cigar (map (fun co => (co / 16, co mod 16)) c)).
Proof. intros [|co c] H; [reflexivity|]. exact (cig_ops_string_spec (co :: c) H). Qed.

Lemma ref_name_spec : forall h r, ref_ok h r -> ref_name h r = Some (star_or (view_name h r)).
Proof.
  intros h [i|] H; [|reflexivity]. simpl in *.
  destruct (nth_error h i) eqn:E; [reflexivity|]. apply nth_error_None in E. lia.
Qed.

Lemma ref_entry : forall h i, hdr_ok h -> (i < length h)%nat ->
  exists n l, nth_error h i = Some (n, l) /\ view_name h (Some i) = Some n /\ name_ok n.
Proof.
  intros h i [_ F] H. cbn [view_name].
  destruct (nth_error h i) as [[n l]|] eqn:E; [|apply nth_error_None in E; lia].
  exists n, l. split; [reflexivity|split; [reflexivity|]]. rewrite Forall_forall in F. apply F.
  apply in_map_iff. exists (n, l). split; [reflexivity|]. eapply nth_error_In; eauto.
Qed.

Lemma same_name_same_ref : forall h i j n l l', hdr_ok h ->
  nth_error h i = Some (n, l) -> nth_error h j = Some (n, l') -> i = j.
Proof.
  intros h i j n l l' [N _] Ei Ej. apply (proj1 (NoDup_nth_error (map fst h)) N);
    [apply nth_error_Some|]; rewrite !nth_error_map, Ei, ?Ej; [discriminate|reflexivity].
Qed.

(** The RNEXT column: "=" for the record's own reference. *)
Definition rnext_text (h : header) (ref mate : option nat) : list Z :=
  match view_name h mate, view_name h ref with
  | Some m, Some r => if beq m r then [61] else m
  | Some m, None => m
  | None, _ => [42]
  end.

Lemma format_mate_spec : forall h ref mate, hdr_ok h -> ref_ok h ref -> ref_ok h mate ->
  format_mate h ref mate = Some (rnext_text h ref mate).
Proof.
  intros h ref mate Hh Hr Hm. unfold rnext_text, format_mate.
  destruct mate as [j|]; [|reflexivity].
  destruct (ref_entry h j Hh Hm) as (mn & ml & Ej & Vj & _).
  change (ref_name h (Some j)) with (view_name h (Some j)). rewrite Vj.
  destruct ref as [i|]; [|reflexivity].
  destruct (ref_entry h i Hh Hr) as (rn & rl & Ei & -> & _). cbn [oref_eqb].
  destruct (Nat.eqb_spec i j) as [->|N].
  - rewrite Ei in Ej. injection Ej as -> _. rewrite beq_refl. reflexivity.
  - destruct (beq mn rn) eqn:Eb; [|reflexivity].
    apply beq_true_iff in Eb. subst. destruct (N (same_name_same_ref h i j rn rl ml Hh Ei Ej)).
Qed.

Lemma existsb_all_ff : forall q, existsb (fun v => negb (v =? 255)) q = negb (all_ff q).
Proof.
  induction q as [|v q IH]; [reflexivity|]. simpl. rewrite IH. destruct (v =? 255); reflexivity.
Qed.

(** Phred values of the specification: 0..93 (or the field is absent) *)
Definition phred_ok (q : option (list Z)) : Prop :=
  match q with
  | None => True
  | Some l => all_ff l = true \/ Forall (fun v => 0 <= v <= 93) l
  end.

Lemma map_u8_phred : forall l, Forall (fun v => 0 <= v <= 93) l ->
  map (fun p => u8 (p + 33)) l = map (fun p => p + 33) l.
Proof.
  induction 1 as [|v l Hv Hl IH]; [reflexivity|]. simpl. rewrite IH. f_equal.
  unfold u8, wrapu. apply Z.mod_small. lia.
Qed.

Lemma format_qual_spec : forall q, phred_ok q ->
  format_qual (match q with Some l => l | None => [] end) =
  match (match q with None => None | Some l => if all_ff l then None else Some l end) with
  | None => [42]
  | Some l => map (fun p => p + 33) l
  end.
Proof.
  intros [l|] H; [|reflexivity].
  unfold format_qual. rewrite existsb_all_ff. destruct (all_ff l) eqn:E; [reflexivity|].
  cbn [negb]. destruct H as [H|H]; [congruence|]. apply map_u8_phred. assumption.
Qed.

Lemma even_of_nat : forall i, (Z.land (Z.of_nat i) 1 =? 0) = Nat.even i.
Proof.
  intro i. change 1 with (Z.ones 1). rewrite Z.land_ones by lia. change (2 ^ 1) with 2.
  destruct (Nat.even i) eqn:E.
  - apply Nat.even_spec in E. destruct E as [k ->]. apply Z.eqb_eq. dlia.
  - assert (O : Nat.odd i = true) by (rewrite <- Nat.negb_even, E; reflexivity).
    apply Nat.odd_spec in O. destruct O as [k ->]. apply Z.eqb_neq. dlia.
Qed.

Lemma div2_of_nat : forall i, Z.shiftr (Z.of_nat i) 1 = Z.of_nat (Nat.div2 i).
Proof. intro i. rewrite Z.shiftr_div_pow2, Nat.div2_div, Nat2Z.inj_div by lia. reflexivity. Qed.

(** The nybble Expand takes for base [i] out of its doublet [d]. *)
Lemma nibble_of_nat : forall i d, 0 <= d < 256 ->
  let nib := if Z.land (Z.of_nat i) 1 =? 0 then Z.shiftr d 4 else Z.land d 15 in
  nib = (if Nat.even i then d / 16 else d mod 16) /\ 0 <= nib < 16.
Proof.
  intros i d Hd. cbv zeta. change 15 with (Z.ones 4). rewrite even_of_nat, Z.shiftr_div_pow2, Z.land_ones by lia.
  change (2 ^ 4) with 16. split; [reflexivity|destruct (Nat.even i); apply (div16_bounds d 16 Hd)].
Qed.

Lemma expand_from_spec : forall ds len fuel i,
  Forall (fun d => 0 <= d < 256) ds -> (len + 1) / 2 <= zlen ds ->
  Z.of_nat i + Z.of_nat fuel = len ->
  expand_from fuel (Z.of_nat i) len ds = Ok (map (base_at ds) (seq i fuel)).
Proof.
  intros ds len fuel. induction fuel as [|f IH]; intros i Hb Hl Hi; [reflexivity|].
  cbn [expand_from seq map]. rewrite (proj2 (Z.leb_gt len _)), div2_of_nat by lia.
  assert (Hk : (Nat.div2 i < length ds)%nat)
    by (apply Nat2Z.inj_lt; rewrite Nat.div2_div, Nat2Z.inj_div; unfold zlen in Hl; dlia).
  rewrite inb_true by (unfold zlen; lia). unfold getz. rewrite Nat2Z.id.
  set (d := nth (Nat.div2 i) ds 0).
  assert (Hd : 0 <= d < 256) by (rewrite Forall_forall in Hb; apply Hb, nth_In, Hk).
  destruct (nibble_of_nat i d Hd) as [En Hn]. cbv zeta in En, Hn. rewrite En in *.
  rewrite inb_true by exact Hn. unfold chk.
  replace (Z.of_nat i + 1) with (Z.of_nat (S i)) by lia.
  rewrite IH by (auto; lia). reflexivity.
Qed.

Lemma format_seq_spec : forall len ds, seq_ok len ds ->
  format_seq len ds = Ok (match map (base_at ds) (seq 0 (Z.to_nat len)) with [] => [42] | q => q end).
Proof.
  intros len ds (H0 & Hl & Hb & _). unfold format_seq.
  destruct (len =? 0) eqn:E.
  - apply Z.eqb_eq in E. subst. reflexivity.
  - apply Z.eqb_neq in E. unfold expand.
    destruct (len <? 0) eqn:E2; [apply Z.ltb_lt in E2; lia|].
    pose proof (expand_from_spec ds len (Z.to_nat len) 0 Hb ltac:(lia) ltac:(lia)) as X.
    change (Z.of_nat 0) with 0 in X. rewrite X.
    destruct (Z.to_nat len) eqn:E3; [lia|]. reflexivity.
Qed.

Lemma map_opt_map : forall {A B} (f : A -> option B) (g : A -> B) l,
  (forall x, f x = Some (g x)) -> map_opt f l = Some (map g l).
Proof. intros A B f g l H. induction l as [|x l IH]; [reflexivity|]. simpl. rewrite H, IH. reflexivity. Qed.

Section AuxFormat.
  Variable fmt_f32 : Z -> list Z.

  (** The kind letter samAux.String prints (through the generated auxKind
      table) is the TYPE of the specification; a B array's element type is
      printable. *)
  Lemma aux_kind_spec : forall v, auxv_ok v ->
    utf8_byte (aux_kind v) = fst (spec_value fmt_f32 (view_val v)) /\
    match v with AvBI ty _ => utf8_byte ty = [ty] | _ => True end.
  Proof.
    intros [c|ty n|b|s|b|ty vs|vs] H; cbn [auxv_ok] in H; try (split; reflexivity).
    - apply int_type_ok_type in H. destruct H as [-> | [-> | [-> | [-> | [-> | ->]]]]]; split; reflexivity.
    - destruct H as [[-> | [-> | [-> | [-> | [-> | ->]]]]] _]; split; reflexivity.
  Qed.

  Lemma format_aux_spec : forall a, auxv_ok (a_val a) ->
    format_aux fmt_f32 a = Some (spec_opt fmt_f32 ([a_t0 a; a_t1 a], view_val (a_val a))).
  Proof.
    intros [t0 t1 v] H. unfold format_aux, spec_opt.
    cbn [a_t0 a_t1 a_val fst snd] in *. destruct (aux_kind_spec v H) as [K T].
    destruct v as [c|ty n|b|s|b|ty vs|vs]; cbn [auxv_ok view_val spec_value fst snd] in *;
      unfold aux_formats, sam_samAux_formats.
    1-5: run_sprintf; rewrite K, ?app_nil_r; try reflexivity.
    - (* A: the character is printable ASCII *)
      unfold utf8_byte. rewrite (proj2 (Z.ltb_lt c 128)) by lia. reflexivity.
    - rewrite (map_opt_map _ (fun v => 44 :: print_Z v)) by (intro; run_sprintf; rewrite app_nil_r; reflexivity).
      rewrite <- flat_map_concat_map. run_sprintf. rewrite K, T. reflexivity.
    - rewrite (map_opt_map _ (fun v => 44 :: fmt_f32 v)) by (intro; run_sprintf; rewrite app_nil_r; reflexivity).
      rewrite <- flat_map_concat_map. run_sprintf. rewrite K. reflexivity.
  Qed.

  Lemma format_auxes_spec : forall l, Forall aux_ok l ->
    format_auxes fmt_f32 l =
    Some (flat_map (fun g => 9 :: g) (map (spec_opt fmt_f32) (map (fun a => ([a_t0 a; a_t1 a], view_val (a_val a))) l))).
  Proof.
    induction l as [|a l IH]; intro H; [reflexivity|].
    inversion H as [|? ? (_ & _ & Ha) Hl]; subst.
    cbn [format_auxes map flat_map]. rewrite format_aux_spec, IH by assumption.
    unfold sam_MarshalSAM_auxformat. run_sprintf. rewrite app_nil_r. reflexivity.
  Qed.
End AuxFormat.

(** The FLAG field in the two flag formats UnmarshalSAM reads back. *)
Definition flag_text (fl f : Z) : list Z :=
  if fl =? sam_FlagHex then [48; 120] ++ print_hex f else print_Z f.

Lemma format_flags_text : forall fl f, fl = sam_FlagDecimal \/ fl = sam_FlagHex -> 0 <= f ->
  exists ff, format_flags f fl = Ok ff /\ fpiece 118 ff = Some (flag_text fl f).
Proof.
  intros fl f [-> | ->] Hf; [exists (FD f); split; reflexivity|].
  exists (FS ([48; 120] ++ print_hex f)). split; [|reflexivity].
  unfold format_flags, sam_formatFlags_hexformat. run_sprintf.
  rewrite (proj2 (Z.ltb_ge f 0) Hf), app_nil_r. reflexivity.
Qed.

Lemma flag_text_back : forall fl f, 0 <= f < 2 ^ 16 ->
  free 9 (flag_text fl f) /\ go_parse_uint (flag_text fl f) 0 16 = Some f.
Proof.
  intros fl f H. unfold flag_text. destruct (fl =? sam_FlagHex).
  - split; [|apply parse_uint0_hex; assumption].
    apply free_cons. split; [lia|]. apply free_cons. split; [lia|]. apply print_nat_base_free; lia.
  - split; [apply print_Z_free; lia|apply parse_uint0_print; assumption].
Qed.

Theorem format_is_spec : forall fmt_f32 h r fl,
  valid 8 h r -> phred_ok (r_qual r) -> fl = sam_FlagDecimal \/ fl = sam_FlagHex ->
  format_record fmt_f32 h fl r = Ok (spec_format fmt_f32 (flag_text fl (r_flags r)) (view h r)).
Proof.
  intros fmt_f32 h r fl V Hq Hfl. destruct V.
  destruct (format_flags_text fl (r_flags r) Hfl (proj1 v_flags0)) as (ff & Hff & Hp).
  unfold format_record.
  replace ((fl <? sam_FlagDecimal) || (sam_FlagString <? fl)) with false by (destruct Hfl; subst; reflexivity).
  assert (Q : match r_qual r with Some q => negb (zlen q =? r_seqlen r) | None => false end = false).
  { destruct (r_qual r) as [q|]; [|reflexivity]. destruct v_qual0 as [-> _]. rewrite Z.eqb_refl. reflexivity. }
  rewrite Q, Hff, ref_name_spec, cigar_string_spec, format_mate_spec, format_seq_spec by assumption.
  cbn [of_opt obind].
  rewrite (format_qual_spec (r_qual r)), !s64_id, (fmt_line _ _ _ _ _ _ _ _ _ _ _ _ Hp), format_auxes_spec by (assumption || lia).
  cbn [of_opt obind]. unfold spec_format. rewrite join_app by congruence. reflexivity.
Qed.
