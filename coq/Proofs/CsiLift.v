(** C04 for CSI, query side: what Chunks needs survives sort, earlier queries
    and MergeChunks with a covering strategy, and makes the answer complete. *)
From Coq Require Import ZArith Lia List Bool.
From Hts Require Import Base.Prim Model.Index Model.Csi Model.IndexSpec
  Proofs.IndexSort Proofs.Index Proofs.CsiIdx.
Open Scope Z_scope.

Section Lift.
  Variables ms dp : Z.

  Record CQInv (ix : cindex) (done : list irec) : Prop := mkCQInv {
    cq_ms : c_ms ix = ms; cq_dp : c_dp ix = dp;
    cq_sorted : c_sorted ix = true -> Forall (fun r => key_sorted cnum (cbins r)) (c_refs ix);
    cq_nodup : Forall (fun r => NoDup (map cnum (cbins r))) (c_refs ix);
    cq_seen : seen cs_empty_ref (rec_in_cref ms dp) (c_refs ix) done
  }.

  Lemma CInv_CQInv ix done a b c : CInv ms dp ix done a b c -> CQInv ix done.
  Proof.
    intros [Ims Idp _ _ Iuns Irefs Iseen]. constructor; try assumption.
    - rewrite Iuns. discriminate.
    - eapply Forall_impl; [|exact Irefs]. intros r (_ & H). exact H.
  Qed.

  Lemma cs_search_found bs n x :
    key_sorted cnum bs -> NoDup (map cnum bs) -> find_bin cnum bs n = Some x -> cs_search bs n = Some x.
  Proof. exact (search_found cnum (mkCBin 0 0 0 []) bs n x). Qed.

  Lemma CQInv_sort ix done : CQInv ix done -> CQInv (cs_sort ix) done /\ c_sorted (cs_sort ix) = true.
  Proof.
    intros Q. unfold cs_sort. destruct (c_sorted ix) eqn:E; [split; [exact Q|exact E]|].
    split; [|reflexivity]. destruct Q as [Q0 Q0' Q1 Q2 Q3]. constructor; simpl; try assumption.
    - intros _. apply Forall_map, Forall_forall. intros r _. apply ix_isort_sorted.
    - apply Forall_map. eapply Forall_impl; [|exact Q2]. intros r Hnd.
      apply ix_isort_NoDup. rewrite map_map. exact Hnd.
    - apply seen_map; [reflexivity| |exact Q3]. intros i R (x & Hx & Hcov & Hleft).
      exists (cs_sort_bin x). unfold cs_sort_ref. simpl.
      rewrite find_bin_isort, (find_bin_map cnum cs_sort_bin), Hx; [|reflexivity|].
      2:{ rewrite map_map. apply (Forall_nth_d (fun r => NoDup (map cnum (cbins r)))); [exact Q2|apply NoDup_nil]. }
      split; [reflexivity|]. split; [|exact Hleft].
      eapply ix_covers_incl; [|exact Hcov]. intros c Hc. apply ix_isort_in. exact Hc.
  Qed.

  Lemma CQInv_merge s ix done : ix_strategy_covers s -> CQInv ix done -> CQInv (cs_merge s ix) done.
  Proof.
    intros Hs [Q0 Q0' Q1 Q2 Q3].
    set (mb := fun b => mkCBin (cnum b) (cleft b) (crecords b) (s (ix_isort fst (cchunks b)))).
    constructor; simpl; try assumption.
    - intros E. apply Forall_map. eapply Forall_impl; [|exact (Q1 E)]. intros r. apply (key_sorted_map cnum mb). reflexivity.
    - apply Forall_map. eapply Forall_impl; [|exact Q2]. intros r Hnd. simpl. rewrite map_map. exact Hnd.
    - apply seen_map; [reflexivity| |exact Q3]. intros i R (x & Hx & (c & Hc & Hcov) & Hleft).
      destruct (Hs (ix_isort fst (cchunks x)) c) as (c' & Hc' & Hl & Hr').
      + apply key_sorted_begin, ix_isort_sorted.
      + apply ix_isort_in. exact Hc.
      + exists (mb x). unfold cs_merge_ref. simpl. rewrite (find_bin_map cnum mb) by reflexivity. rewrite Hx.
        split; [reflexivity|]. split; [|exact Hleft]. exists c'. split; [exact Hc'|lia].
  Qed.

  Lemma CQInv_query ix done rid beg end_ : CQInv ix done -> CQInv (snd (cs_chunks ix rid beg end_)) done.
  Proof.
    intros Q. unfold cs_chunks.
    destruct ((rid <? 0) || (rid >=? zlen (c_refs ix))); simpl; [exact Q|].
    destruct ((beg <? 0) || (end_ <=? beg) || (beg >=? cs_max ix)); simpl; [exact Q|apply CQInv_sort; exact Q].
  Qed.

  Inductive creach (aux : list Z) (ver : Z) (rs : list irec) : cindex -> Prop :=
  | creach_built ix : cs_fold_add (mkCsi aux ver [] None ms dp false 0) rs = Ok ix -> creach aux ver rs ix
  | creach_sort ix : creach aux ver rs ix -> creach aux ver rs (cs_sort ix)
  | creach_query ix rid beg end_ : creach aux ver rs ix -> creach aux ver rs (snd (cs_chunks ix rid beg end_))
  | creach_merge ix s : ix_strategy_covers s -> creach aux ver rs ix -> creach aux ver rs (cs_merge s ix).

  Lemma creach_CQInv aux ver rs ix :
    ix_wf_from (cs_limit ms dp) (-1) 0 0 rs -> creach aux ver rs ix -> CQInv ix rs.
  Proof.
    intros W Hre. induction Hre as [ix F|ix _ IH|ix rid beg end_ _ IH|ix s Hs _ IH].
    - destruct (csi_built ms dp aux ver rs W) as (ix' & a & b & c & F' & I). rewrite F in F'. injection F' as <-.
      exact (CInv_CQInv _ _ _ _ _ I).
    - apply CQInv_sort; exact IH.
    - apply CQInv_query; exact IH.
    - apply CQInv_merge; assumption.
  Qed.

End Lift.

Theorem csi_complete_in ms dp rs ix :
  0 <= ms -> 0 <= dp <= 10 -> ms + 3 * dp <= 62 ->
  ix_wf_from (cs_limit ms dp) (-1) 0 0 rs -> CQInv ms dp ix rs ->
  forall rid beg end_ r, 0 <= beg < end_ -> end_ <= cs_limit ms dp + 2 ->
    In r rs -> ix_overlaps r rid beg end_ ->
    ix_covers (fst (cs_chunks ix rid beg end_)) r.
Proof.
  intros Hms Hdp Hsum W Q rid beg end_ r Hq Hq2 Hr (Op & Orid & O1 & O2). subst rid.
  destruct (cq_seen _ _ _ _ Q r Hr Op) as (A & _).
  destruct (wf_shape _ _ _ _ _ _ W Hr Op) as (_ & S2 & S3 & S4).
  unfold cs_chunks.
  destruct (q_rid r <? 0) eqn:E1; [lia|].
  destruct (q_rid r >=? zlen (c_refs ix)) eqn:E2; [lia|]. cbn [orb].
  destruct (cs_query_valid ms dp Hms Hdp Hsum ix beg end_ (cq_ms _ _ _ _ Q) (cq_dp _ _ _ _ Q) Hq Hq2) as (V1 & V2).
  rewrite V1, V2. cbn [fst].
  destruct (CQInv_sort _ _ _ _ Q) as ([Q0 Q0' Q1 Q2 Q3] & Es).
  set (ix' := cs_sort ix) in *. rewrite Q0, Q0'.
  destruct (Q3 r Hr Op) as (A' & x & Hx & (c0 & Hc & H1 & H2) & H3).
  set (ref := nth (Z.to_nat (q_rid r)) (c_refs ix') cs_empty_ref) in *.
  exists c0. split; [|split; assumption].
  apply ix_isort_in. unfold cs_candidates. apply in_flat_map.
  exists (cs_reg2bin (q_start r) (q_end r) ms dp). split.
  - apply csi_bin_containment; lia.
  - assert (Href : In ref (c_refs ix')) by (apply nth_In; unfold zlen in A'; lia).
    specialize (Q1 Es). rewrite Forall_forall in Q1, Q2.
    rewrite cs_reg2bin_u32, (cs_search_found _ _ x (Q1 ref Href) (Q2 ref Href) Hx).
    apply filter_In. split; [exact Hc|]. apply Z.gtb_lt. lia.
Qed.
