(** What follows from Itf8.v and Ltf8.v (C20): the round trip through a
    destination of any sufficient length, injectivity of the encodings. *)
From Coq Require Import ZArith Lia List Bool.
From Hts Require Import Base.Prim Generated Model.Itf8Spec Proofs.Varint Proofs.Itf8 Proofs.Ltf8.
Open Scope Z_scope.

Lemma itf8_wire_length v : int32 v -> length (itf8_wire v) = Z.to_nat (itf8_spec_len (v mod 2^32)).
Proof. intros _. rewrite <- (proj1 (itf8_wire_props v)). unfold zlen. rewrite Nat2Z.id. reflexivity. Qed.

Lemma overwrite_props {A} (enc buf : list A) n :
  zlen enc = n -> n <= zlen buf ->
  zlen (enc ++ skipn (Z.to_nat n) buf) = zlen buf /\
  skipn (Z.to_nat n) (enc ++ skipn (Z.to_nat n) buf) = skipn (Z.to_nat n) buf /\
  firstn (Z.to_nat n) (enc ++ skipn (Z.to_nat n) buf) = enc.
Proof.
  intros <- Hl. unfold zlen in *. rewrite Nat2Z.id, skipn_app_exact, firstn_app_exact, app_length, skipn_length.
  repeat split. lia.
Qed.

Lemma itf8_roundtrip_any v buf rest :
  int32 v -> all_bytes rest = true -> itf8_spec_len (v mod 2^32) <= zlen buf ->
  exists out,
    itf8_Encode buf v = Ok (itf8_spec_len (v mod 2^32), out) /\
    zlen out = zlen buf /\
    skipn (Z.to_nat (itf8_spec_len (v mod 2^32))) out = skipn (Z.to_nat (itf8_spec_len (v mod 2^32))) buf /\
    itf8_canon (firstn (Z.to_nat (itf8_spec_len (v mod 2^32))) out) = itf8_spec_encode v /\
    itf8_Decode (firstn (Z.to_nat (itf8_spec_len (v mod 2^32))) out ++ rest) = Ok (v, itf8_spec_len (v mod 2^32), true).
Proof.
  intros Hv Hr Hlen. destruct (itf8_wire_props v) as (Hl & Hb & Hc).
  destruct (overwrite_props (itf8_wire v) buf _ Hl Hlen) as (Ho & Hs & Hf).
  eexists. rewrite itf8_Encode_any, (proj2 (Z.ltb_ge _ _) Hlen), Hf.
  repeat split; try assumption.
  apply itf8_Decode_accepts; assumption.
Qed.

Lemma ltf8_roundtrip_any v buf rest :
  int64 v -> all_bytes rest = true -> ltf8_spec_len (v mod 2^64) <= zlen buf ->
  exists out,
    ltf8_Encode buf v = Ok (ltf8_spec_len (v mod 2^64), out) /\
    zlen out = zlen buf /\
    skipn (Z.to_nat (ltf8_spec_len (v mod 2^64))) out = skipn (Z.to_nat (ltf8_spec_len (v mod 2^64))) buf /\
    firstn (Z.to_nat (ltf8_spec_len (v mod 2^64))) out = ltf8_spec_encode v /\
    ltf8_Decode (firstn (Z.to_nat (ltf8_spec_len (v mod 2^64))) out ++ rest) = Ok (v, ltf8_spec_len (v mod 2^64), true).
Proof.
  intros Hv Hr Hlen. destruct (ltf8_spec_encode_props v) as (Hl & Hb).
  destruct (overwrite_props (ltf8_spec_encode v) buf _ Hl Hlen) as (Ho & Hs & Hf).
  eexists. rewrite ltf8_Encode_any, (proj2 (Z.ltb_ge _ _) Hlen), Hf.
  repeat split; try assumption.
  apply ltf8_Decode_encoded; assumption.
Qed.

Lemma ltf8_encode_injective v w :
  int64 v -> int64 w -> ltf8_spec_encode v = ltf8_spec_encode w -> v = w.
Proof.
  intros Hv Hw E. pose proof (ltf8_spec_roundtrip v [] Hv) as A. pose proof (ltf8_spec_roundtrip w [] Hw) as B.
  rewrite E in A. rewrite A in B. congruence.
Qed.

Lemma itf8_canon_idem enc : itf8_canon (itf8_canon enc) = itf8_canon enc.
Proof.
  destruct enc as [|a [|b [|c [|d [|e [|f r]]]]]]; try reflexivity. cbn [itf8_canon]. rewrite Z.mod_mod by easy. reflexivity.
Qed.

Lemma itf8_encode_injective v w :
  int32 v -> int32 w -> itf8_spec_encode v = itf8_spec_encode w -> v = w.
Proof.
  intros Hv Hw E.
  assert (C : forall x, itf8_canon (itf8_spec_encode x) = itf8_spec_encode x).
  { intros x. rewrite <- (proj2 (proj2 (itf8_wire_props x))). apply itf8_canon_idem. }
  pose proof (itf8_spec_roundtrip v _ [] Hv (C v)) as A. pose proof (itf8_spec_roundtrip w _ [] Hw (C w)) as B.
  rewrite E in A. rewrite A in B. congruence.
Qed.
