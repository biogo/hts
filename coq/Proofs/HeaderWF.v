(** C07 — printable values are preserved: every operation with clean
    arguments keeps all items and all headers of the world well formed. *)
From Coq Require Import ZArith List Bool Lia.
From Hts Require Import Base.Prim Base.WrList Model.Header Model.HeaderRun Proofs.HeaderBase Proofs.HeaderWorld
     Proofs.HeaderHist Proofs.HeaderText Proofs.HeaderNum Proofs.HeaderLoop Proofs.HeaderFields Proofs.HeaderRT Proofs.HeaderBin.
Import ListNotations.
Open Scope Z_scope.

(** splits a goal [A1 /\ ... /\ An] and closes the parts that are hypotheses: the invariants below are
    long conjunctions of which a step changes one or two parts *)
Ltac tower := repeat match goal with |- _ /\ _ => first [assumption | split] end; try solve [assumption | exact Logic.I].

(** the generic identity operations keep a predicate that only looks at name and payload *)
Section GenQ.
  Context {P : Type}.
  Variable Q : obj P -> Prop.
  Hypothesis Q_nv : forall a b : obj P, o_name a = o_name b -> o_pay a = o_pay b -> Q a -> Q b.

  Lemma Q_ident : forall o a b, Q o -> Q (with_ident o a b).
  Proof. intros o a b H. eapply Q_nv; [| |exact H]; reflexivity. Qed.

  Lemma add_fresh_Q : forall eused h st t r o st' t' e, Forall Q st -> Q o ->
    add_fresh eused h st t r o = (st', t', e) -> Forall Q st'.
  Proof.
    intros eused h st t r o st' t' e F Ho A. unfold add_fresh in A. destruct (owned o || (0 <=? o_id o)); inversion A; subst; auto.
    apply Forall_upd; auto. apply Q_ident; auto.
  Qed.

  Lemma add_gen_Q : forall edup eused h st t r st' t' e, Forall Q st ->
    add_gen edup eused h st t r = Ok (st', t', e) -> Forall Q st'.
  Proof.
    intros edup eused h st t r st' t' e F A. unfold add_gen in A. destruct (nth_error st r) as [o|] eqn:Hr; [|discriminate].
    destruct (mget (o_name o) (t_seen t)). { inversion A; subst; auto. }
    inversion A as [A']. apply (add_fresh_Q _ _ _ _ _ _ _ _ _ F (Forall_nth _ _ _ _ F Hr) A').
  Qed.

  Lemma shift_ids_Q : forall l st seen st' seen', Forall Q st -> shift_ids st seen l = Ok (st', seen') -> Forall Q st'.
  Proof.
    induction l as [|r l IH]; intros st seen st' seen' F S; simpl in S.
    - inversion S; subst; auto.
    - destruct (nth_error st r) as [o|] eqn:Hr; [|discriminate]. eapply IH; [|exact S].
      apply Forall_upd; auto. apply Q_ident. eapply Forall_nth; eauto.
  Qed.

  Lemma remove_gen_Q : forall einv st t r st' t' e, Forall Q st -> remove_gen einv st t r = Ok (st', t', e) -> Forall Q st'.
  Proof.
    intros einv st t r st' t' e F R. unfold remove_gen in R. destruct (nth_error st r) as [o|] eqn:Hr; [|discriminate].
    destruct (negb (listed_at (t_items t) (o_id o) r)). { inversion R; subst; auto. }
    match type of R with context [shift_ids ?a ?b ?c] => destruct (shift_ids a b c) as [[st2 seen2]| | |] eqn:S end; try discriminate.
    assert (F2 := shift_ids_Q _ _ _ _ _ F S).
    destruct (nth_error st2 r) as [o2|] eqn:Hr2; [|discriminate]. inversion R; subst.
    apply Forall_upd; auto. apply Q_ident. eapply Forall_nth; eauto.
  Qed.

  Lemma clone_items_Q : forall items hn st st' items', Forall Q st -> clone_items hn st items = Ok (st', items') -> Forall Q st'.
  Proof.
    induction items as [|r l IH]; intros hn st st' items' F C; simpl in C.
    - inversion C; subst; auto.
    - destruct (nth_error st r) as [o|] eqn:Hr; [|discriminate].
      destruct (clone_items hn (st ++ [mkObj (Some hn) (o_id o) (o_name o) (o_pay o)]) l) as [[st2 l2]| | |] eqn:C2; try discriminate.
      inversion C; subst. eapply IH; [|exact C2]. apply Forall_snoc; auto.
      eapply Q_nv; [| |eapply Forall_nth; eauto]; reflexivity.
  Qed.
End GenQ.

Lemma clean_inv : forall c s, clean (c :: s) -> c <> TAB /\ c <> LF /\ c <> CR /\ clean s.
Proof.
  intros c s (A & B & C). repeat split; intro H; [apply A|apply B|apply C|apply A|apply B|apply C]; simpl; auto.
Qed.
Lemma split_field_clean : forall f t v, split_field f = Some (t, v) -> clean f -> tclean t /\ clean v.
Proof.
  intros f t v H C. unfold split_field in H. destruct f as [|a [|b [|c r]]]; try discriminate.
  destruct (c =? COLON); [|discriminate]. inversion H; subst.
  apply clean_inv in C. destruct C as (a1 & a2 & a3 & C). apply clean_inv in C. destruct C as (b1 & b2 & b3 & C).
  apply clean_inv in C. destruct C as (_ & _ & _ & C). split; [apply tclean_const; auto|exact C].
Qed.

Lemma clean_fields : forall fs, Forall clean fs ->
  Forall (fun f => forall t v, split_field f = Some (t, v) -> tclean t /\ clean v) fs.
Proof. intros fs H. eapply Forall_impl; [|exact H]. intros f Cf t v SF. exact (split_field_clean f t v SF Cf). Qed.

Lemma tdist_snoc : forall l t v, tdist l -> (forall tp, In tp l -> tag_eqb (fst tp) t = false) -> tdist (l ++ [(t, v)]).
Proof.
  induction l as [|x l IH]; intros t v D H; simpl.
  - split; auto.
  - destruct D as (D1 & D2). split.
    + unfold mem_tag in *. rewrite map_app, existsb_app. apply orb_false_iff. split; [exact D1|]. simpl. rewrite (H x (or_introl eq_refl)). reflexivity.
    + apply IH; auto. intros tp Hin. apply H. right; exact Hin.
Qed.

(** other tags collected so far: not standard, clean, all in [seen], pairwise distinct *)
Definition oth_inv (K seen : list tag) (l : list tagpair) : Prop :=
  (forall tp, In tp l -> mem_tag (fst tp) K = false /\ tclean (fst tp) /\ clean (snd tp) /\ mem_tag (fst tp) seen = true) /\ tdist l.
Lemma oth_inv_nil : forall K seen, oth_inv K seen [].
Proof. intros. split; [intros tp []|exact Logic.I]. Qed.
Lemma mem_tag_cons : forall x t seen, mem_tag x seen = true -> mem_tag x (t :: seen) = true.
Proof. intros x t seen H. unfold mem_tag in *. cbn [existsb]. rewrite H. apply orb_true_r. Qed.
Lemma oth_inv_seen : forall K seen t l, oth_inv K seen l -> oth_inv K (t :: seen) l.
Proof.
  intros K seen t l (H & D). split; auto. intros tp Hin. destruct (H tp Hin) as (a & b & c & d). auto using mem_tag_cons.
Qed.
Lemma oth_inv_add : forall K seen t v l, oth_inv K seen l -> mem_tag t K = false -> mem_tag t seen = false -> tclean t -> clean v ->
  oth_inv K (t :: seen) (l ++ [(t, v)]).
Proof.
  intros K seen t v l (H & D) HK HS Ct Cv. split.
  - intros tp Hin. apply in_app_or in Hin. destruct Hin as [Hin|[<-|[]]].
    + destruct (H tp Hin) as (a & b & c & d). auto using mem_tag_cons.
    + cbn [fst snd]. tower. unfold mem_tag. cbn [existsb]. rewrite tag_eqb_refl. reflexivity.
  - apply tdist_snoc; auto. intros tp Hin. destruct (H tp Hin) as (_ & _ & _ & d).
    destruct (tag_eqb (fst tp) t) eqn:E; auto. apply tag_eqb_eq in E. rewrite E in d. congruence.
Qed.
Lemma oth_inv_ok : forall K seen l, oth_inv K seen l -> others_ok K l.
Proof. intros K seen l (H & D). split; auto. intros tp Hin. destruct (H tp Hin) as (a & b & c & _). auto. Qed.

Lemma mem_tag_false_intro : forall t K, forallb (fun k => negb (tag_eqb t k)) K = true -> mem_tag t K = false.
Proof.
  intros t K H. unfold mem_tag. induction K as [|k K IH]; simpl in *; auto.
  apply andb_true_iff in H. destruct H as (H1 & H2). apply negb_true_iff in H1. rewrite H1. simpl. auto.
Qed.

(** the field loops build printable items from clean fields: the loop invariant [J] is the item's WF
    predicate, with the other tags all in [seen] and the length known to be valid once LN was seen *)
Section ParseWF.
  Variable pt : str -> option str.
  Variable pu : str -> option str.
  Hypothesis pt_law : forall v d, pt v = Some d -> pt d = Some d /\ clean d.
  Hypothesis pu_law : forall v u, pu v = Some u -> pu u = Some u /\ clean u.

  Definition Jsq (o : obj refpay) (seen : list tag) (fl : bool * bool) : Prop :=
    let p := o_pay o in
    clean (o_name o) /\ (snd fl = true -> valid_len (rp_len p) = true) /\
    (rp_md5 p = [] \/ (length (rp_md5 p) = 16%nat /\ bytes (rp_md5 p))) /\
    clean (rp_as p) /\ clean (rp_sp p) /\
    (forall u, rp_uri p = Some u -> pu u = Some u /\ clean u) /\ oth_inv KR seen (rp_other p).

  Lemma Jsq_step : forall o seen fl t v o' fl', Jsq o seen fl -> mem_tag t seen = false -> tclean t /\ clean v ->
    sq_step pu o fl t v = Ok (o', fl') -> Jsq o' (t :: seen) fl'.
  Proof.
    intros [ow id nm [len md5 as_ sp uri other]] seen [nok lok] t v o' fl' (J1 & J2 & J3 & J4 & J5 & J6 & J7) M (Ct & Cv) S.
    unfold sq_step in S. cbn [o_pay o_name o_owner o_id rp_len rp_md5 rp_as rp_sp rp_uri rp_other fst snd with_name] in *.
    assert (J7' := oth_inv_seen KR seen t other J7).
    (* one goal per tag, in the order of the tests; the numbered steps derive what a branch adds to the invariant,
       then all branches close alike *)
    destruct (tag_eqb t tSN) eqn:E1; [|destruct (tag_eqb t tLN) eqn:E2; [|destruct (tag_eqb t tAS) eqn:E3;
      [|destruct (tag_eqb t tM5) eqn:E4; [|destruct (tag_eqb t tSP) eqn:E5; [|destruct (tag_eqb t tUR) eqn:E6]]]]].
    7:assert (MK : mem_tag t KR = false) by (apply mem_tag_false_intro; simpl; rewrite E1, E2, E3, E4, E5, E6; reflexivity).
    7:assert (J7'' := oth_inv_add KR seen t v other J7 MK M Ct Cv).
    2:destruct (atoi v) as [n|]; [|discriminate]; destruct (valid_len n) eqn:V; [|discriminate].
    4:destruct (32 <? zlen v); [discriminate|]; destruct (hex_decode 0 v []) as [b| | |] eqn:HD; try discriminate;
      destruct (Nat.eqb (length b) 16) eqn:L16; [|discriminate]; apply Nat.eqb_eq in L16;
      assert (Bb : bytes b) by (eapply (hex_decode_bytes (length v)); eauto; constructor).
    6:destruct (pu v) as [u|] eqn:PU; [|discriminate];
      assert (U6 : forall u0, Some u = Some u0 -> pu u0 = Some u0 /\ clean u0) by (intros u0 H; inversion H; subst; exact (pu_law v u0 PU)).
    all: injection S as <- <-; unfold Jsq; cbn [o_pay o_name rp_len rp_md5 rp_as rp_sp rp_uri rp_other fst snd]; tower.
    - intros _; exact V.
    - right; tower.
  Qed.

  Lemma sq_result : forall fs rf nok, Forall clean fs ->
    sq_fields pu (mkObj None 0 [] (mkRef 0 [] [] [] None [])) [] false false fs = Ok (rf, nok, true) -> WFref pu rf.
  Proof.
    intros fs rf nok C H. assert (N := clean_nil).
    destruct (loop_inv _ _ _ (Fsq pu) (sq_step pu) FINsq (Fsq_nil pu) (Fsq_cons pu) _ Jsq Jsq_step fs
                (mkObj None 0 [] (mkRef 0 [] [] [] None [])) [] (false, false) (rf, nok, true) (clean_fields fs C)) as (o' & seen' & fl' & HF & HJ).
    - unfold Jsq; cbn. tower; [discriminate|left; reflexivity|discriminate|apply oth_inv_nil].
    - exact H.
    - unfold FINsq in HF. inversion HF; subst. destruct fl' as [a b]; cbn in *. subst.
      destruct HJ as (J1 & J2 & J3 & J4 & J5 & J6 & J7). unfold WFref. tower; [exact (J2 eq_refl)|exact (oth_inv_ok _ _ _ J7)].
  Qed.

  Definition Jrg (o : obj rgpay) (seen : list tag) (idok : bool) : Prop :=
    let p := o_pay o in
    clean (o_name o) /\ clean (g_cn p) /\ clean (g_ds p) /\
    (forall d, g_dt p = Some d -> pt d = Some d /\ clean d) /\
    clean (g_fo p) /\ clean (g_ks p) /\ clean (g_lb p) /\ clean (g_pg p) /\
    valid_int32 (g_pi p) = true /\
    clean (g_pl p) /\ clean (g_pu p) /\ clean (g_sm p) /\ oth_inv KG seen (g_other p).

  Lemma Jrg_step : forall names o seen fl t v o' fl', Jrg o seen fl -> mem_tag t seen = false -> tclean t /\ clean v ->
    rg_step pt names o fl t v = Ok (o', fl') -> Jrg o' (t :: seen) fl'.
  Proof.
    intros names [ow id nm [cn ds dt fo ks lb pg pi pl pu' sm other]] seen idok t v o' fl'
           (J0 & J1 & J2 & J3 & J4 & J5 & J6 & J7 & J8 & J9 & J10 & J11 & J12) M (Ct & Cv) S.
    unfold rg_step in S. cbn [o_pay o_name o_owner o_id g_cn g_ds g_dt g_fo g_ks g_lb g_pg g_pi g_pl g_pu g_sm g_other with_name] in *.
    assert (J12' := oth_inv_seen KG seen t other J12).
    destruct (tag_eqb t tID) eqn:E1; [|destruct (tag_eqb t tDT) eqn:E2; [|destruct (tag_eqb t tPI) eqn:E3; [|destruct (rg_plain t) eqn:E4]]].
    1:destruct (mget v names); [discriminate|].
    2:destruct (pt v) as [d|] eqn:PT; [|discriminate];
      assert (U : forall d0, Some d = Some d0 -> pt d0 = Some d0 /\ clean d0) by (intros d0 H; inversion H; subst; exact (pt_law v d0 PT)).
    3:destruct (atoi v) as [n|]; [|discriminate]; destruct (valid_int32 n) eqn:V; [|discriminate].
    5:{ assert (MK : mem_tag t KG = false).
        { unfold rg_plain in E4. repeat (apply orb_false_iff in E4; destruct E4 as [E4 ?]).
          apply mem_tag_false_intro. simpl. rewrite E1, E2, E3, E4, H, H0, H1, H2, H3, H4, H5, H6. reflexivity. }
        assert (J12'' := oth_inv_add KG seen t v other J12 MK M Ct Cv). injection S as <- <-. unfold Jrg; cbn. tower. }
    all: injection S as <- <-; unfold Jrg; cbn [o_pay o_name g_cn g_ds g_dt g_fo g_ks g_lb g_pg g_pi g_pl g_pu g_sm g_other rg_set]; tower.
    all: match goal with |- clean (if ?b then _ else _) => destruct b; assumption end.
  Qed.

  Lemma rg_result : forall names fs g, Forall clean fs ->
    rg_fields pt names (mkObj None 0 [] (mkRG [] [] None [] [] [] [] 0 [] [] [] [])) [] false fs = Ok (g, true) -> WFrg pt g.
  Proof.
    intros names fs g C H. assert (N := clean_nil).
    destruct (loop_inv _ _ _ (Frg pt names) (rg_step pt names) FINrg (Frg_nil pt names) (Frg_cons pt names) _ Jrg (Jrg_step names) fs
                (mkObj None 0 [] (mkRG [] [] None [] [] [] [] 0 [] [] [] [])) [] false (g, true) (clean_fields fs C)) as (o' & seen' & fl' & HF & HJ).
    - unfold Jrg; cbn. tower; [discriminate|reflexivity|apply oth_inv_nil].
    - exact H.
    - unfold FINrg in HF. inversion HF; subst.
      destruct HJ as (J0 & J1 & J2 & J3 & J4 & J5 & J6 & J7 & J8 & J9 & J10 & J11 & J12). unfold WFrg. tower. exact (oth_inv_ok _ _ _ J12).
  Qed.

  Definition Jpg (o : obj pgpay) (seen : list tag) (idok : bool) : Prop :=
    let p := o_pay o in
    clean (o_name o) /\ clean (p_pn p) /\ clean (p_cl p) /\ clean (p_pp p) /\ clean (p_vn p) /\ oth_inv KP seen (p_other p).

  Lemma Jpg_step : forall names o seen fl t v o' fl', Jpg o seen fl -> mem_tag t seen = false -> tclean t /\ clean v ->
    pg_step names o fl t v = Ok (o', fl') -> Jpg o' (t :: seen) fl'.
  Proof.
    intros names [ow id nm [pp pn cl vn other]] seen idok t v o' fl' (J0 & J1 & J2 & J3 & J4 & J5) M (Ct & Cv) S.
    unfold pg_step in S. cbn [o_pay o_name o_owner o_id p_pp p_pn p_cl p_vn p_other with_name] in *.
    assert (J5' := oth_inv_seen KP seen t other J5).
    destruct (tag_eqb t tID) eqn:E1; [destruct (mget v names); [discriminate|]|destruct (tag_eqb t tPN) eqn:E2;
      [|destruct (tag_eqb t tCL) eqn:E3; [|destruct (tag_eqb t tPP) eqn:E4; [|destruct (tag_eqb t tVN) eqn:E5]]]].
    6:assert (MK : mem_tag t KP = false) by (apply mem_tag_false_intro; simpl; rewrite E1, E2, E3, E4, E5; reflexivity).
    6:assert (J5'' := oth_inv_add KP seen t v other J5 MK M Ct Cv).
    all: injection S as <- <-; unfold Jpg; cbn; tower.
  Qed.

  Lemma pg_result : forall names fs g, Forall clean fs ->
    pg_fields names (mkObj None 0 [] (mkPG [] [] [] [] [])) [] false fs = Ok (g, true) -> WFpg g.
  Proof.
    intros names fs g C H. assert (N := clean_nil).
    destruct (loop_inv _ _ _ (Fpg names) (pg_step names) FINpg (Fpg_nil names) (Fpg_cons names) _ Jpg (Jpg_step names) fs
                (mkObj None 0 [] (mkPG [] [] [] [] [])) [] false (g, true) (clean_fields fs C)) as (o' & seen' & fl' & HF & HJ).
    - unfold Jpg; cbn. tower. apply oth_inv_nil.
    - exact H.
    - unfold FINpg in HF. inversion HF; subst.
      destruct HJ as (J0 & J1 & J2 & J3 & J4 & J5). unfold WFpg. tower. exact (oth_inv_ok _ _ _ J5).
  Qed.

End ParseWF.

Definition Jhd (hd : hdr) : Prop :=
  clean (h_vn hd) /\ 0 <= h_so hd <= 3 /\ 0 <= h_go hd <= 3 /\
  (forall tp, In tp (h_other hd) -> mem_tag (fst tp) [tVN; tSO; tGO] = false /\ tclean (fst tp) /\ clean (snd tp)) /\
  (forall c, In c (h_co hd) -> lclean c).

Lemma so_parse_range : forall v, 0 <= so_parse v <= 3.
Proof. intro v. unfold so_parse. repeat match goal with |- context [if ?b then _ else _] => destruct b end; lia. Qed.
Lemma go_parse_range : forall v, 0 <= go_parse v <= 3.
Proof. intro v. unfold go_parse. repeat match goal with |- context [if ?b then _ else _] => destruct b end; lia. Qed.

Lemma hd_fields_J : forall fs hd, Forall clean fs -> Jhd hd ->
  Jhd (fst (hd_fields hd fs)) /\ (snd (hd_fields hd fs) = 0 -> is_empty (h_vn (fst (hd_fields hd fs))) = false).
Proof.
  induction fs as [|f l IH]; intros hd C J; cbn [hd_fields].
  - split; [exact J|]. simpl. destruct (is_empty (h_vn hd)); [discriminate|reflexivity].
  - inversion C as [|? ? Cf Cl]; subst. destruct (split_field f) as [[t v]|] eqn:SF; [|split; [exact J|discriminate]].
    destruct (split_field_clean f t v SF Cf) as (Ct & Cv). assert (J' := J). destruct J' as (J1 & J2 & J3 & J4 & J5).
    assert (So := so_parse_range v). assert (Go := go_parse_range v).
    destruct (tag_eqb t tVN) eqn:E1; [|destruct (tag_eqb t tSO) eqn:E2; [|destruct (tag_eqb t tGO) eqn:E3]].
    1-3: match goal with |- context [if negb ?b then _ else _] => destruct (negb b) end; [split; [exact J|discriminate]|].
    all: apply IH; auto; unfold Jhd; cbn [set_hd h_vn h_so h_go h_other h_co]; tower.
    intros tp Hin. apply in_app_or in Hin. destruct Hin as [Hin|[<-|[]]]; [apply J4; exact Hin|].
    cbn [fst snd]. tower. apply mem_tag_false_intro. simpl. rewrite E1, E2, E3. reflexivity.
Qed.

Lemma split_go_pieces : forall sep s cur x c, (forall d, In d cur -> d <> sep) ->
  In x (split_go sep s cur) -> In c x -> (In c s \/ In c cur) /\ c <> sep.
Proof.
  induction s as [|a s IH]; intros cur x c Hc Hx Hin; simpl in Hx.
  - destruct Hx as [<-|[]]. apply in_rev in Hin. split; auto.
  - destruct (a =? sep) eqn:E.
    + destruct Hx as [<-|Hx].
      * apply in_rev in Hin. split; auto.
      * destruct (IH [] x c (fun d H => match H with end) Hx Hin) as ([H|[]] & N). split; auto. left; right; auto.
    + apply Z.eqb_neq in E. destruct (IH (a :: cur) x c) as ([H|[H|H]] & N); auto.
      * intros d [<-|Hd]; auto.
      * split; auto. left; right; auto.
      * subst. split; auto. left; left; auto.
Qed.
Lemma split_clean : forall l, ~ In LF l -> ~ In CR l -> Forall clean (split TAB l).
Proof.
  intros l HL HC. apply Forall_forall. intros x Hx. unfold split in Hx.
  repeat split; intro Hin; destruct (split_go_pieces TAB l [] x _ (fun d H => match H with end) Hx Hin) as ([H|[]] & N); auto.
Qed.
Lemma split_LF_free : forall t l, In l (split LF t) -> ~ In LF l.
Proof. intros t l H Hi. unfold split in H. destruct (split_go_pieces LF t [] l LF (fun d H => match H with end) H Hi) as (_ & N). congruence. Qed.
Lemma split2_go_suffix : forall sep s cur a c, split2_go sep s cur = [a; c] -> forall d, In d c -> In d s.
Proof.
  induction s as [|x s IH]; intros cur a c H d Hd; simpl in H; [discriminate|].
  destruct (x =? sep). { inversion H; subst. right; auto. } right. eapply IH; eauto.
Qed.
Lemma strip_cr_sub : forall l c, In c (strip_cr l) -> In c l.
Proof.
  intros l c. unfold strip_cr. destruct (rev l) as [|x t] eqn:E; auto. destruct (x =? CR); auto.
  intro H. apply in_rev in H. apply in_rev. rewrite E. right; exact H.
Qed.

Section AllWF.
  Variable pt : str -> option str.
  Variable pu : str -> option str.
  Hypothesis pt_law : forall v d, pt v = Some d -> pt d = Some d /\ clean d.
  Hypothesis pu_law : forall v u, pu v = Some u -> pu u = Some u /\ clean u.

  (** every header and every item of the world (listed or not) has printable values *)
  Definition AllWF (w : world) : Prop :=
    Forall WFhd (w_h w) /\ Forall (WFref pu) (w_r w) /\ Forall (WFrg pt) (w_g w) /\ Forall WFpg (w_p w).

  Lemma WFhd_eq : forall a b, h_vn b = h_vn a -> h_so b = h_so a -> h_go b = h_go a -> h_other b = h_other a -> h_co b = h_co a ->
    WFhd a -> WFhd b.
  Proof. intros a b e1 e2 e3 e4 e5 H. unfold WFhd in *. rewrite e1, e2, e3, e4, e5. exact H. Qed.

  Lemma AllWF_hdr : forall w h hd', AllWF w -> WFhd hd' -> AllWF (put_hdr w h hd').
  Proof. intros w h hd' (A & B & C & D) H. split; [|auto]. simpl. apply Forall_upd; auto. Qed.

  (** a comment is appended (AddComment, an @CO line) *)
  Lemma add_co_wf : forall w h hd c, AllWF w -> nth_error (w_h w) h = Some hd -> lclean c ->
    AllWF (put_hdr w h (set_co hd (h_co hd ++ [c]))).
  Proof.
    intros w h hd c A Hh Cc. apply AllWF_hdr; [exact A|]. destruct (Forall_nth _ _ _ _ (proj1 A) Hh) as (W0 & W1 & W2 & W3 & W4 & W5).
    unfold WFhd; cbn [set_co h_vn h_so h_go h_other h_co]. tower.
    intros c' Hin. apply in_app_or in Hin. destruct Hin as [Hin|[<-|[]]]; auto.
  Qed.

  (** what the proofs about AllWF use of a kind whose items satisfy [Q] *)
  Record LensWF {P} (k : lens P) (Q : obj P -> Prop) : Prop := mkLensWF {
    lw_nv : forall a b : obj P, o_name a = o_name b -> o_pay a = o_pay b -> Q a -> Q b;
    lw_name : forall o n, clean n -> Q o -> Q (with_name o n);
    lw_get : forall w, AllWF w -> Forall Q (l_st k w);
    lw_put : forall w h hd st' t', AllWF w -> nth_error (w_h w) h = Some hd -> Forall Q st' ->
      AllWF (put_hdr (l_setst k w st') h (l_sett k hd t'));
    lw_st : forall w st', AllWF w -> Forall Q st' -> AllWF (l_setst k w st') }.

  Ltac lens_wf WF :=
    split;
    [ intros a b Hn Hp H; unfold WF in *; rewrite <- Hn, <- Hp; exact H
    | intros [a b c d] n Cn (_ & H); split; [exact Cn|exact H]
    | intros w A; apply A
    | intros w h hd st' t' (A & B & C & D) Hh F; unfold AllWF; simpl; tower; apply Forall_upd; auto;
      eapply WFhd_eq; [| | | | |eapply Forall_nth; eauto]; reflexivity
    | intros w st' (A & B & C & D) F; unfold AllWF; simpl; tower ].
  Lemma wfR : LensWF kR (WFref pu). Proof. lens_wf WFref. Qed.
  Lemma wfG : LensWF kG (WFrg pt). Proof. lens_wf WFrg. Qed.
  Lemma wfP : LensWF kP WFpg. Proof. lens_wf WFpg. Qed.

  Definition PostR (x : res) : Prop := match x with Ok (w', _) => AllWF w' | _ => True end.
  Definition PostW (x : outcome world) : Prop := match x with Ok w' => AllWF w' | _ => True end.
  Definition PostS (s : stepres) : Prop := match s with Ok (w', _, _, _) => AllWF w' | _ => True end.

  Section Kind.
    Context {P : Type} (k : lens P) (Q : obj P -> Prop) (LW : LensWF k Q).

    Lemma lift3_wf : forall w h hd x, AllWF w -> nth_error (w_h w) h = Some hd ->
      (forall st' t' e', x = Ok (st', t', e') -> Forall Q st') -> PostR (lift3 w h hd (l_setst k) (l_sett k) x).
    Proof. intros w h hd x A Hh HF. destruct x as [[[st' t'] e']| | |]; simpl; auto. apply (lw_put k Q LW); eauto. Qed.

    Lemma add_wf : forall edup eused w h r, AllWF w ->
      PostR match nth_error (w_h w) h with
            | Some hd => lift3 w h hd (l_setst k) (l_sett k) (add_gen edup eused h (l_st k w) (l_t k hd) r)
            | None => Panic pNil
            end.
    Proof.
      intros edup eused w h r A. destruct (nth_error (w_h w) h) as [hd|] eqn:Hh; [|exact Logic.I].
      apply lift3_wf; auto. intros st' t' e'. apply (add_gen_Q Q (lw_nv k Q LW)), (lw_get k Q LW), A.
    Qed.
    Lemma remove_wf : forall einv w h r, AllWF w ->
      PostR match nth_error (w_h w) h with
            | Some hd => lift3 w h hd (l_setst k) (l_sett k) (remove_gen einv (l_st k w) (l_t k hd) r)
            | None => Panic pNil
            end.
    Proof.
      intros einv w h r A. destruct (nth_error (w_h w) h) as [hd|] eqn:Hh; [|exact Logic.I].
      apply lift3_wf; auto. intros st' t' e'. apply (remove_gen_Q Q (lw_nv k Q LW)), (lw_get k Q LW), A.
    Qed.

    Lemma setname_wf : forall w r n, AllWF w -> clean n -> PostR (setname_any w (l_st k w) (l_t k) (l_setst k) (l_sett k) r n).
    Proof.
      intros w r n A Cn. unfold setname_any. destruct (nth_error (l_st k w) r) as [o|] eqn:Hr; [|exact Logic.I].
      assert (F : Forall Q (upd (l_st k w) r (with_name o n))).
      { apply Forall_upd; [apply (lw_get k Q LW), A|]. apply (lw_name k Q LW); auto. eapply Forall_nth; [apply (lw_get k Q LW), A|eauto]. }
      destruct (o_owner o) as [h|]; [|apply (lw_st k Q LW); auto].
      destruct (nth_error (w_h w) h) as [hd|] eqn:Hh; [|exact Logic.I].
      destruct (setname_owned (l_t k hd) o n) as [[t'|] e']; [apply (lw_put k Q LW); auto|exact A].
    Qed.

    Lemma alloc_wf : forall w o, AllWF w -> Q o -> AllWF (l_setst k w (l_st k w ++ [o])).
    Proof. intros w o A H. apply (lw_st k Q LW); auto. apply Forall_snoc; auto. apply (lw_get k Q LW), A. Qed.

    (** x.Clone() of an item *)
    Lemma clone_item_wf : forall w x, AllWF w ->
      PostW match nth_error (l_st k w) x with
            | Some o => Ok (l_setst k w (l_st k w ++ [mkObj None (-1) (o_name o) (o_pay o)]))
            | None => Panic pNil
            end.
    Proof.
      intros w x A. destruct (nth_error (l_st k w) x) as [o|] eqn:Hx; [|exact Logic.I]. apply alloc_wf; auto.
      eapply (lw_nv k Q LW); [| |eapply Forall_nth; [apply (lw_get k Q LW), A|exact Hx]]; reflexivity.
    Qed.

    (** the tail of readGroupLine / programLine *)
    Lemma install_new_wf : forall w h hd g, AllWF w -> nth_error (w_h w) h = Some hd -> Q g ->
      PostR (let '(st', t') := install_new h (l_st k w) (l_t k hd) g in Ok (put_hdr (l_setst k w st') h (l_sett k hd t'), 0)).
    Proof.
      intros w h hd g A Hh Wg. unfold install_new.
      destruct (add_fresh 0 h _ _ _ _) as [[st1 t1] e1] eqn:AF. apply (lw_put k Q LW); auto.
      assert (Wi := Q_ident Q (lw_nv k Q LW) g None (-1) Wg).
      eapply (add_fresh_Q Q (lw_nv k Q LW)); [|exact Wi|exact AF]. apply Forall_snoc; [apply (lw_get k Q LW), A|exact Wi].
    Qed.
  End Kind.

  Lemma WFref_inherit : forall o er, WFref pu o -> WFref pu er -> WFref pu (inherit o er).
  Proof.
    intros [ow id nm [len md5 as_ sp uri other]] [ow' id' nm' [len' md5' as' sp' uri' other']]
           (A1 & A2 & A3 & A4 & A5 & A6 & A7) (B1 & B2 & B3 & B4 & B5 & B6 & B7).
    unfold WFref, inherit; cbn [o_name o_pay rp_len rp_md5 rp_as rp_sp rp_uri rp_other] in *. tower.
    - destruct (is_empty md5); assumption.
    - destruct (is_empty as_); assumption.
    - destruct (is_empty sp); assumption.
    - destruct uri; assumption.
    - destruct (is_empty other); assumption.
  Qed.

  Lemma add_reference_wf : forall w h r, AllWF w -> PostR (add_reference w h r).
  Proof.
    intros w h r A. unfold add_reference.
    destruct (nth_error (w_h w) h) as [hd|] eqn:Hh; [|exact Logic.I]. destruct (nth_error (w_r w) r) as [o|] eqn:Hr; [|exact Logic.I].
    assert (Wo : WFref pu o) by (eapply Forall_nth; [apply A|eauto]).
    destruct (mget (o_name o) (t_seen (h_R hd))) as [dupID|].
    - destruct (idx (t_items (h_R hd)) dupID) as [erh|]; [|exact Logic.I]. destruct (nth_error (w_r w) erh) as [er|] eqn:He; [|exact Logic.I].
      assert (We : WFref pu er) by (eapply Forall_nth; [apply A|eauto]).
      destruct (equal_refs er o); [exact A|]. destruct (negb (equal_refs o _)); [exact A|]. destruct (owned o); [exact A|].
      unfold install_over. apply (lw_put kR _ wfR); auto.
      apply Forall_upd; [apply Forall_upd; [apply A|]|]; apply (Q_ident _ (lw_nv kR _ wfR)); auto using WFref_inherit.
    - destruct (add_fresh eUsedRef h (w_r w) (h_R hd) r o) as [[st' t'] e'] eqn:AF.
      apply (lw_put kR _ wfR); auto. eapply (add_fresh_Q _ (lw_nv kR _ wfR)); [apply A|exact Wo|exact AF].
  Qed.

  Lemma clone_header_wf : forall w h, AllWF w -> PostW (clone_header w h).
  Proof.
    intros w h (A1 & A2 & A3 & A4). unfold clone_header. destruct (nth_error (w_h w) h) as [hd|] eqn:Hh; [|exact Logic.I].
    destruct (clone_items _ (w_r w) _) as [[sr ir]| | |] eqn:CR; try exact Logic.I.
    destruct (clone_items _ (w_g w) _) as [[sg ig]| | |] eqn:CG; try exact Logic.I.
    destruct (clone_items _ (w_p w) _) as [[sp ip]| | |] eqn:CP; try exact Logic.I.
    unfold PostW, AllWF; simpl. tower.
    - apply Forall_snoc; auto. eapply WFhd_eq; [| | | | |eapply Forall_nth; eauto]; reflexivity.
    - eapply (clone_items_Q _ (lw_nv kR _ wfR)); eauto.
    - eapply (clone_items_Q _ (lw_nv kG _ wfG)); eauto.
    - eapply (clone_items_Q _ (lw_nv kP _ wfP)); eauto.
  Qed.

  Lemma reference_line_wf : forall w h l, AllWF w -> Forall clean (split TAB l) -> PostR (reference_line pu w h l).
  Proof.
    intros w h l A FC. unfold reference_line. destruct (nth_error (w_h w) h) as [hd|] eqn:Hh; [|exact Logic.I].
    destruct (split TAB l) as [|f0 [|f1 [|f2 fs]]]; try exact A. inversion FC as [|? ? _ FC']; subst.
    destruct (sq_fields pu _ [] false false (f1 :: f2 :: fs)) as [[[rf nok] lok]|e'| |] eqn:SQ; try exact Logic.I; [|exact A].
    destruct nok, lok; cbn [negb orb]; try exact A.
    assert (Wi : forall a b, WFref pu (with_ident rf a b)).
    { intros. apply (Q_ident _ (lw_nv kR _ wfR)). exact (sq_result pu pu_law (f1 :: f2 :: fs) rf true FC' SQ). }
    destruct (mget (o_name rf) (t_seen (h_R hd))) as [dupID|].
    - destruct (idx (t_items (h_R hd)) dupID) as [erh|]; [|exact Logic.I]. destruct (nth_error (w_r w) erh) as [er|] eqn:He; [|exact Logic.I].
      destruct (equal_refs er _); [exact A|]. destruct (negb (equal_refs er _)); [exact A|].
      unfold install_over. apply (lw_put kR _ wfR); auto.
      apply Forall_upd; [apply Forall_upd; [apply Forall_snoc; [apply A|apply Wi]|]|]; apply (Q_ident _ (lw_nv kR _ wfR)); [apply Wi|].
      eapply Forall_nth; [apply A|eauto].
    - destruct (add_fresh eUsedRef h _ _ _ _) as [[st1 t1] e1] eqn:AF. apply (lw_put kR _ wfR); auto.
      eapply (add_fresh_Q _ (lw_nv kR _ wfR)); [|apply Wi|exact AF]. apply Forall_snoc; [apply A|apply Wi].
  Qed.

  Lemma read_group_line_wf : forall w h l, AllWF w -> Forall clean (split TAB l) -> PostR (read_group_line pt w h l).
  Proof.
    intros w h l A FC. unfold read_group_line. destruct (nth_error (w_h w) h) as [hd|] eqn:Hh; [|exact Logic.I].
    destruct (split TAB l) as [|f0 [|f1 fs]]; try exact A. inversion FC as [|? ? _ FC']; subst.
    destruct (rg_fields pt _ _ [] false (f1 :: fs)) as [[g idok]|e'| |] eqn:RG; try exact Logic.I; [|exact A].
    destruct idok; cbn [negb]; [|exact A]. apply (install_new_wf kG _ wfG); auto. exact (rg_result pt pt_law _ (f1 :: fs) g FC' RG).
  Qed.

  Lemma program_line_wf : forall w h l, AllWF w -> Forall clean (split TAB l) -> PostR (program_line w h l).
  Proof.
    intros w h l A FC. unfold program_line. destruct (nth_error (w_h w) h) as [hd|] eqn:Hh; [|exact Logic.I].
    destruct (split TAB l) as [|f0 [|f1 fs]]; try exact A. inversion FC as [|? ? _ FC']; subst.
    destruct (pg_fields _ _ [] false (f1 :: fs)) as [[g idok]|e'| |] eqn:PG; try exact Logic.I; [|exact A].
    destruct idok; cbn [negb]; [|exact A]. apply (install_new_wf kP _ wfP); auto. exact (pg_result _ (f1 :: fs) g FC' PG).
  Qed.

  (** the line is free of LF and, after the optional final CR, of CR *)
  Definition line_ok (l : str) : Prop := ~ In LF l /\ ~ In CR (strip_cr l).

  Lemma text_line_wf : forall w h l, AllWF w -> line_ok l -> PostR (text_line pt pu w h l).
  Proof.
    intros w h l0 A (HL & HC). unfold text_line.
    assert (HL' : ~ In LF (strip_cr l0)) by (intro Hi; apply HL; apply strip_cr_sub; exact Hi).
    set (l := strip_cr l0) in *. clearbody l.
    assert (FC := split_clean l HL' HC).
    destruct l as [|c0 [|c1 [|c2 rest]]]; try exact A.
    destruct (negb (c0 =? AT)); [exact A|].
    destruct (tag_eqb (c1, c2) tHD).
    { destruct (nth_error (w_h w) h) as [hd|] eqn:Hh; [|exact Logic.I]. unfold header_line.
      assert (Whd : WFhd hd) by (eapply Forall_nth; [apply A|eauto]).
      destruct (split TAB (c0 :: c1 :: c2 :: rest)) as [|f0 [|f1 fs]]; try (apply AllWF_hdr; assumption).
      inversion FC as [|? ? _ FC']; subst.
      destruct (hd_fields_J (f1 :: fs) hd FC' (proj2 Whd)) as (JJ & JE).
      destruct (hd_fields hd (f1 :: fs)) as [hd' e']. cbn [fst snd] in *.
      destruct (e' =? 0) eqn:E0; apply AllWF_hdr; auto. split; [|exact JJ].
      intro V. rewrite V in JE. discriminate JE. apply Z.eqb_eq, E0. }
    destruct (tag_eqb (c1, c2) tSQ); [apply reference_line_wf; assumption|].
    destruct (tag_eqb (c1, c2) tRG); [apply read_group_line_wf; assumption|].
    destruct (tag_eqb (c1, c2) tPG); [apply program_line_wf; assumption|].
    destruct (tag_eqb (c1, c2) tCO); [|exact A].
    unfold comment_line. destruct (nth_error (w_h w) h) as [hd|] eqn:Hh; [|exact Logic.I].
    destruct (split2 TAB (c0 :: c1 :: c2 :: rest)) as [|a [|c [|x y]]] eqn:S2; try exact A.
    apply add_co_wf; auto. unfold split2 in S2. split; intro Hi; apply (split2_go_suffix _ _ _ _ _ S2) in Hi; auto.
  Qed.

  Definition text_ok (t : str) : Prop := forall l, In l (split LF t) -> ~ In CR (strip_cr l).

  Lemma text_lines_wf : forall ls w h, AllWF w -> Forall line_ok ls -> PostR (text_lines pt pu w h ls).
  Proof.
    induction ls as [|l ls IH]; intros w h A F; simpl; [exact A|].
    inversion F; subst. assert (A1 := text_line_wf w h l A H1).
    destruct (text_line pt pu w h l) as [[w1 e1]| | |]; try exact Logic.I.
    destruct (e1 =? 0); [apply IH; assumption|exact A1].
  Qed.

  Lemma unmarshal_text_wf : forall w h t, AllWF w -> text_ok t -> PostR (unmarshal_text pt pu w h t).
  Proof.
    intros w h t A T. apply text_lines_wf; [exact A|].
    apply Forall_forall. intros l Hl. split; [eapply split_LF_free; eauto|apply T; exact Hl].
  Qed.

  Lemma nh_claim_Q : forall rs h (st : list (obj refpay)) i, Forall (WFref pu) st -> Forall (WFref pu) (nh_claim h st i rs).
  Proof.
    induction rs as [|r l IH]; intros h st i F; simpl; auto.
    destruct (nth_error st r) as [o|] eqn:Hr; auto. apply IH. apply Forall_upd; auto.
    apply (Q_ident _ (lw_nv kR _ wfR)). eapply Forall_nth; eauto.
  Qed.

  Lemma WFhd_empty : forall a b c, WFhd (mkHdr [] 0 0 [] a b c []).
  Proof. intros. unfold WFhd; cbn. tower; try lia; [auto|apply clean_nil]. Qed.

  Lemma new_header_wf : forall w text rs, AllWF w -> (forall t, text = Some t -> text_ok t) -> PostR (new_header pt pu w text rs).
  Proof.
    intros w text rs A T. unfold new_header.
    destruct (nh_validate (w_r w) [] 0 rs) as [[seen e0]| | |]; try exact Logic.I.
    destruct (negb (e0 =? 0)); [exact A|].
    match goal with |- context [Ok (?W, 0)] => assert (A1 : AllWF W) end.
    { destruct A as (A1 & A2 & A3 & A4). unfold AllWF; simpl. tower; [apply Forall_snoc; auto; apply WFhd_empty|apply nh_claim_Q; auto]. }
    destruct text as [t|]; [|exact A1]. apply unmarshal_text_wf; auto.
  Qed.

  Lemma add_all_wf : forall rs w h w' e, AllWF w -> Forall (WFref pu) rs -> add_all w h rs = Ok (w', e) -> AllWF w'.
  Proof.
    induction rs as [|o l IH]; intros w h w' e A F H; simpl in H.
    - inversion H; subst; exact A.
    - inversion F; subst.
      assert (A1 : PostR (add_reference (set_r w (w_r w ++ [o])) h (length (w_r w)))) by exact (add_reference_wf _ h _ (alloc_wf kR _ wfR w o A H2)).
      destruct (add_reference (set_r w (w_r w ++ [o])) h (length (w_r w))) as [[w1 e1]| | |]; try discriminate.
      destruct (e1 =? 0); [eapply IH; eauto|inversion H; subst; exact A1].
  Qed.

  Lemma merge_refs_wf : forall l w hm, AllWF w -> match merge_refs w hm l with Ok (w', _, _) => AllWF w' | _ => True end.
  Proof.
    induction l as [|r l IH]; intros w hm A; simpl; [exact A|].
    assert (A1 := clone_item_wf kR _ wfR w r A). unfold clone_ref, new_ref. cbn [l_st l_setst kR] in A1.
    destruct (nth_error (w_r w) r) as [o|]; [|exact Logic.I].
    assert (A2 := add_reference_wf _ hm (length (w_r w)) A1).
    destruct (add_reference _ hm (length (w_r w))) as [[w2 e2]| | |]; try exact Logic.I.
    destruct (negb (e2 =? 0)); [exact A2|].
    match goal with |- match match ?LNK with _ => _ end with _ => _ end => destruct LNK as [x| | |] end; try exact Logic.I.
    specialize (IH w2 hm A2). destruct (merge_refs w2 hm l) as [[[w3 e3] ls3]| | |]; auto.
  Qed.

  Lemma merge_srcs_wf : forall l w hm, AllWF w -> match merge_srcs w hm l with Ok (w', _, _) => AllWF w' | _ => True end.
  Proof.
    induction l as [|s l IH]; intros w hm A; simpl; [exact A|].
    destruct (nth_error (w_h w) s) as [hs|]; [|exact Logic.I].
    assert (A1 := merge_refs_wf (t_items (h_R hs)) w hm A).
    destruct (merge_refs w hm (t_items (h_R hs))) as [[[w1 e1] links]| | |]; try exact Logic.I.
    destruct (negb (e1 =? 0)); [exact A1|].
    specialize (IH w1 hm A1). destruct (merge_srcs w1 hm l) as [[[w2 e2] ls2]| | |]; auto.
  Qed.

  Lemma merge_headers_wf : forall w s0 srcs, AllWF w -> match merge_headers w s0 srcs with Ok (w', _, _) => AllWF w' | _ => True end.
  Proof.
    intros w s0 srcs A. unfold merge_headers.
    assert (A1 := clone_header_wf w s0 A). destruct (clone_header w s0) as [w1| | |]; try exact Logic.I.
    destruct (nth_error (w_h w1) (length (w_h w))) as [hd|] eqn:Hh; [|exact Logic.I].
    match goal with |- context [merge_srcs ?W _ _] => assert (A2 : AllWF W) end.
    { apply AllWF_hdr; auto. assert (Whd : WFhd hd) by (eapply Forall_nth; [apply A1|eauto]).
      destruct Whd as (W0 & W1 & W2 & W3 & W4 & W5). unfold WFhd; cbn [set_hd h_vn h_so h_go h_other h_co].
      tower; try lia. intro V; destruct (W0 V) as (_ & _ & O); auto. }
    assert (A3 := merge_srcs_wf srcs _ (length (w_h w)) A2).
    destruct (merge_srcs _ _ srcs) as [[[w3 e3] ls3]| | |]; try exact Logic.I.
    destruct (negb (e3 =? 0)); [exact A3|]. destruct (omap _ _); try exact Logic.I. exact A3.
  Qed.

  Lemma AllWF_WFH : forall w h hd, WInv w -> AllWF w -> nth_error (w_h w) h = Some hd -> WFH pt pu w hd.
  Proof.
    intros w h hd I (A1 & A2 & A3 & A4) Hh. split; [eapply Forall_nth; eauto|].
    destruct (listed_objs w h hd I Hh) as (rs & gs & ps & Hr & Hg & Hp).
    exists rs, gs, ps. repeat split; auto; eapply objs_forall; eauto.
  Qed.

  (** the arguments of an operation are values the text format can carry *)
  Definition clean_op (op : c07op) : Prop :=
    match op with
    | ONewRef name len md5 as_ sp uri =>
      clean name /\ (md5 = [] \/ (length md5 = 16%nat /\ bytes md5)) /\ clean as_ /\ clean sp /\
      (is_empty uri = false -> pu uri = Some uri /\ clean uri)
    | ONewRG name cn ds lb pg pl pu' sm fo ks dt pi =>
      clean name /\ clean cn /\ clean ds /\ clean lb /\ clean pg /\ clean pl /\ clean pu' /\ clean sm /\ clean fo /\ clean ks /\
      (is_empty dt = false -> pt dt = Some dt /\ clean dt)
    | ONewPG uid pn cl pp vn => clean uid /\ clean pn /\ clean cl /\ clean pp /\ clean vn
    | ONewHdr text rs => forall t, text = Some t -> text_ok t
    | OSetHD h vn so go => clean vn /\ is_empty vn = false /\ 0 <= so <= 3 /\ 0 <= go <= 3
    | OAddCo h t => lclean t
    | OSetName _ n | OSetRGName _ n | OSetUID _ n => clean n
    | OUnmarshal h t => text_ok t
    | ODecode _ => False   (* binary decoding as a step of a history is not covered, see design/C07.md *)
    | _ => True
    end.

  Lemma wf_done : forall e x, PostR x -> PostS (done e x).
  Proof. intros e [[w' c]| | |]; auto. Qed.
  Lemma wf_item : forall e' x, PostW x ->
    PostS match x with Ok w' => Ok (w', e', 0, None) | Err c => Err c | Panic n => Panic n | Stuck => Stuck end.
  Proof. intros e' [w'| | |]; auto. Qed.
  Lemma wf_hdr : forall (e e' : world -> env) l x, PostR x ->
    PostS match x with
          | Ok (w', c) => if c =? 0 then Ok (w', e' w', 0, l w') else Ok (w', e w', c, None)
          | Err c => Err c | Panic n => Panic n | Stuck => Stuck
          end.
  Proof. intros e e' l [[w' c]| | |]; auto. simpl. destruct (c =? 0); auto. Qed.

  Lemma c07_step_wf : forall w e op, AllWF w -> clean_op op -> PostS (c07_step pt pu w e op).
  Proof.
    intros w e op A CO. destruct op; cbn [c07_step clean_op] in *.
    - destruct CO as (C1 & C2 & C3 & C4 & C5). destruct (valid_len len && negb (is_empty name) && _) eqn:G; [|exact A].
      apply (alloc_wf kR _ wfR); auto.
      apply andb_true_iff in G. destruct G as (G & _). apply andb_true_iff in G. destruct G as (G & _).
      unfold WFref, others_ok; cbn. tower; [|intros tp []].
      intros u Hu. destruct (is_empty uri) eqn:E; [discriminate|]. inversion Hu; subst. apply C5. reflexivity.
    - destruct CO as (C0 & C1 & C2 & C3 & C4 & C5 & C6 & C7 & C8 & C9 & C10). destruct (valid_int32 pi) eqn:G; [|exact A].
      apply (alloc_wf kG _ wfG); auto. unfold WFrg, others_ok; cbn. tower; [|intros tp []].
      intros d Hd. destruct (is_empty dt) eqn:E; [discriminate|]. inversion Hd; subst. apply C10. reflexivity.
    - destruct CO as (C0 & C1 & C2 & C3 & C4). apply (alloc_wf kP _ wfP); auto. unfold WFpg, others_ok; cbn. tower. intros tp [].
    - destruct (norm r (e_r e)) as [x|]; [|exact A]. apply wf_item, (clone_item_wf kR _ wfR), A.
    - destruct (norm r (e_g e)) as [x|]; [|exact A]. apply wf_item, (clone_item_wf kG _ wfG), A.
    - destruct (norm r (e_p e)) as [x|]; [|exact A]. apply wf_item, (clone_item_wf kP _ wfP), A.
    - match goal with |- context [match ?X with Some _ => _ | None => skip w e end] => destruct X as [rs'|] end; [|exact A].
      apply (wf_hdr (fun _ => e) (fun w' => expose_hdr w' e (length (w_h w))) (fun _ => None)), new_header_wf; auto.
    - destruct (norm h (e_h e)) as [x|]; [|exact A]. destruct (nth_error (w_h w) x) as [hd|] eqn:Hh; [|exact Logic.I].
      apply AllWF_hdr; auto. assert (Whd : WFhd hd) by (eapply Forall_nth; [apply A|eauto]).
      destruct Whd as (W0 & W1 & W2 & W3 & W4 & W5). destruct CO as (C1 & C2 & C3 & C4). unfold WFhd; cbn [set_hd h_vn h_so h_go h_other h_co].
      tower. intro V; rewrite V in C2; discriminate.
    - destruct (norm h (e_h e)) as [x|]; [|exact A]. destruct (nth_error (w_h w) x) as [hd|] eqn:Hh; [|exact Logic.I].
      exact (add_co_wf w x hd t A Hh CO).
    - destruct (norm h (e_h e)), (norm r (e_r e)); try exact A. apply wf_done, add_reference_wf, A.
    - destruct (norm h (e_h e)), (norm r (e_r e)); try exact A. apply wf_done, (remove_wf kR _ wfR), A.
    - destruct (norm h (e_h e)), (norm r (e_g e)); try exact A. apply wf_done, (add_wf kG _ wfG), A.
    - destruct (norm h (e_h e)), (norm r (e_g e)); try exact A. apply wf_done, (remove_wf kG _ wfG), A.
    - destruct (norm h (e_h e)), (norm r (e_p e)); try exact A. apply wf_done, (add_wf kP _ wfP), A.
    - destruct (norm h (e_h e)), (norm r (e_p e)); try exact A. apply wf_done, (remove_wf kP _ wfP), A.
    - destruct (norm r (e_r e)); [|exact A]. apply wf_done, (setname_wf kR _ wfR); assumption.
    - destruct (norm r (e_g e)); [|exact A]. apply wf_done, (setname_wf kG _ wfG); assumption.
    - destruct (norm r (e_p e)); [|exact A]. apply wf_done, (setname_wf kP _ wfP); assumption.
    - destruct (norm h (e_h e)) as [x|]; [|exact A].
      assert (A1 := clone_header_wf w x A). destruct (clone_header w x); auto.
    - contradiction.
    - destruct (norm h (e_h e)) as [x|]; [|exact A].
      assert (A1 := unmarshal_text_wf w x t A CO). destruct (unmarshal_text pt pu w x t) as [[w1 c1]| | |]; auto.
    - destruct (norm_all hs (e_h e)) as [[|x [|y rest]]|]; try exact A.
      assert (A1 := merge_headers_wf w x (y :: rest) A). destruct (merge_headers w x (y :: rest)) as [[[w1 c1] links]| | |]; auto.
      simpl. destruct (c1 =? 0); exact A1.
  Qed.

  Lemma AllWF_world0 : AllWF world0.
  Proof. repeat split; constructor. Qed.

  Lemma c07_exec_wf : forall ops w e w' e', AllWF w -> Forall clean_op ops -> c07_exec pt pu w e ops = Ok (w', e') -> AllWF w'.
  Proof.
    induction ops as [|op t IH]; intros w e w' e' A F H; simpl in H.
    - inversion H; subst; exact A.
    - inversion F; subst. assert (S := c07_step_wf w e op A H2).
      destruct (c07_step pt pu w e op) as [[[[w1 e1] c1] l1]| | |]; try discriminate. eapply IH; eauto.
  Qed.
End AllWF.
