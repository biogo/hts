(** LTF-8 (C20): the generated Len, Encode and Decode of
    cram/encoding/ltf8 against the specification codec of Model/Itf8Spec.v.
    Nine forms; the first byte of the last two carries no value bits, and in
    the nine-byte form the second byte reaches the sign bit. *)
From Coq Require Import ZArith Lia List Bool.
From Hts Require Import Base.Prim Base.Bits Generated Model.Itf8Spec Proofs.Varint Proofs.Itf8.
Open Scope Z_scope.

Lemma s64_u64 v : int64 v -> s64 (v mod 2^64) = v.
Proof. exact (wraps_wrapu 64 v eq_refl). Qed.

Lemma ltf8_spec_len_range u : 1 <= ltf8_spec_len u <= 9.
Proof. unfold ltf8_spec_len. repeat (apply if_ltb_elim; intros _; [easy|]). easy. Qed.

Lemma ltf8_Len_spec v : ltf8_Len v = Ok (ltf8_spec_len (v mod 2^64)).
Proof. unfold ltf8_Len. cbv zeta. rewrite !if_Ok. reflexivity. Qed.

Lemma ltf8_Encode_any v buf :
  ltf8_Encode buf v =
    if zlen buf <? ltf8_spec_len (v mod 2^64) then Panic 1
    else Ok (ltf8_spec_len (v mod 2^64), ltf8_spec_encode v ++ skipn (Z.to_nat (ltf8_spec_len (v mod 2^64))) buf).
Proof.
  unfold ltf8_spec_encode. cbv beta delta [ltf8_Encode]. open_outer_let.
  cbv beta delta [u64 wrapu]. set (u := v mod 2^64).
  assert (Hu : 0 <= u < 2^64) by (apply Z.mod_pos_bound; reflexivity).
  remember (ltf8_spec_len u) as n eqn:E. unfold ltf8_spec_len in E. revert E.
  apply if_ltb_both; [intros H1 ->|intros H1].
  { rewrite <- chk_idem. apply (put_arm buf [_] _ 1); try reflexivity.
    etransitivity; [|exact (eq_sym (form_1 u))]. unfold u8, wrapu. rewrite Z.mod_small by lia. reflexivity. }
  apply if_ltb_both; [intros H2 ->|intros H2].
  { apply (put_arm buf [_; _] _ 2); try reflexivity.
    exact (form_written 2 u ltac:(lia) (conj (proj1 Hu) H2)). }
  apply if_ltb_both; [intros H3 ->|intros H3].
  { apply (put_arm buf [_; _; _] _ 3); try reflexivity.
    exact (form_written 3 u ltac:(lia) (conj (proj1 Hu) H3)). }
  apply if_ltb_both; [intros H4 ->|intros H4].
  { apply (put_arm buf [_; _; _; _] _ 4); try reflexivity.
    exact (form_written 4 u ltac:(lia) (conj (proj1 Hu) H4)). }
  apply if_ltb_both; [intros H5 ->|intros H5].
  { apply (put_arm buf [_; _; _; _; _] _ 5); try reflexivity.
    exact (form_written 5 u ltac:(lia) (conj (proj1 Hu) H5)). }
  apply if_ltb_both; [intros H6 ->|intros H6].
  { apply (put_arm buf [_; _; _; _; _; _] _ 6); try reflexivity.
    exact (form_written 6 u ltac:(lia) (conj (proj1 Hu) H6)). }
  apply if_ltb_both; [intros H7 ->|intros H7].
  { apply (put_arm buf [_; _; _; _; _; _; _] _ 7); try reflexivity.
    exact (form_written 7 u ltac:(lia) (conj (proj1 Hu) H7)). }
  apply if_ltb_both; [intros H8 ->|intros H8 ->].
  { (* the first byte is the constant 0xfe: no value bits are left for it *)
    apply (put_arm buf [_; _; _; _; _; _; _; _] _ 8); try reflexivity.
    rewrite Z.div_small by lia. apply (f_equal (cons 254)). symmetry. apply (be_bytes_shifts 7 u). }
  apply (put_arm buf [_; _; _; _; _; _; _; _; _] _ 9); try reflexivity.
  apply (f_equal (cons 255)). symmetry. apply (be_bytes_shifts 8 u).
Qed.

Lemma ltf8_n_byte b0 : 0 <= b0 < 256 -> clz8 (u8 (Z.lnot b0)) + 1 = ltf8_spec_n b0.
Proof.
  intros H. apply Z.eqb_eq. revert b0 H.
  apply (byte_forall (fun b0 => clz8 (u8 (Z.lnot b0)) + 1 =? ltf8_spec_n b0)).
  vm_compute. reflexivity.
Qed.

Lemma ltf8_spec_n_range b : 1 <= ltf8_spec_n b <= 9.
Proof. unfold ltf8_spec_n. repeat (apply if_ltb_elim; intros _; [easy|]). easy. Qed.

Lemma ltf8_spec_n_1 b : ltf8_spec_n b = 1 -> b < 128.
Proof.
  unfold ltf8_spec_n. apply if_ltb_elim; [trivial|intros _].
  repeat (apply if_ltb_elim; intros _; [discriminate|]). discriminate.
Qed.

Lemma ltf8_Decode_spec bs : all_bytes bs = true -> ltf8_Decode bs = Ok (ltf8_spec_decode bs).
Proof.
  destruct bs as [|b0 t]; [reflexivity|]. intros Hb. pose proof (proj1 (all_bytes_cons _ _ Hb)) as B0.
  unfold ltf8_Decode, ltf8_spec_decode. cbv zeta.
  change (getz (b0 :: t) 0) with b0. rewrite (ltf8_n_byte b0 B0).
  pose proof (ltf8_spec_n_range b0) as Hr. remember (ltf8_spec_n b0) as n eqn:En.
  apply decode_head; [discriminate|intros Hlong].
  apply if_eqb_split; [intros ->|intros N1].
  { rewrite Z.mod_small by (split; [apply B0|apply ltf8_spec_n_1; auto]). reflexivity. }
  apply if_eqb_split; [intros ->|intros N2].
  { rewrite (land_mask b0 6) by easy. read_arm Hb Hlong 64 1%nat 0%nat (mod_byte b0 6 ltac:(easy)). }
  apply if_eqb_split; [intros ->|intros N3].
  { rewrite (land_mask b0 5) by easy. read_arm Hb Hlong 64 1%nat 1%nat (mod_byte b0 5 ltac:(easy)). }
  apply if_eqb_split; [intros ->|intros N4].
  { rewrite (land_mask b0 4) by easy. read_arm Hb Hlong 64 1%nat 2%nat (mod_byte b0 4 ltac:(easy)). }
  apply if_eqb_split; [intros ->|intros N5].
  { rewrite (land_mask b0 3) by easy. read_arm Hb Hlong 64 1%nat 3%nat (mod_byte b0 3 ltac:(easy)). }
  apply if_eqb_split; [intros ->|intros N6].
  { rewrite (land_mask b0 2) by easy. read_arm Hb Hlong 64 1%nat 4%nat (mod_byte b0 2 ltac:(easy)). }
  apply if_eqb_split; [intros ->|intros N7].
  { rewrite (land_mask b0 1) by easy. read_arm Hb Hlong 64 1%nat 5%nat (mod_byte b0 1 ltac:(easy)). }
  (* eight and nine bytes: the first byte carries no value bits, b[1] is on top *)
  destruct t as [|b1 t]; [change (zlen [b0]) with 1 in Hlong; lia|]. pose proof (getz_byte _ 1 Hb : 0 <= b1 < 256) as B1.
  apply if_eqb_split; [intros ->|intros N8].
  { read_arm Hb Hlong 64 2%nat 5%nat B1. }
  apply if_eqb_split; [intros ->|lia].
  read_arm Hb Hlong 64 2%nat 6%nat B1.
Qed.

Definition ltf8_val (l : list Z) : Z :=
  let b0 := hd 0 l in
  let n := ltf8_spec_n b0 in
  s64 (be_value (firstn (Z.to_nat (n - 1)) (tl l)) (if n <? 8 then b0 mod 2 ^ (8 - n) else 0)).

Lemma ltf8_Decode_item : item_form ltf8_Decode ltf8_spec_n ltf8_val.
Proof.
  split; [reflexivity|]. intros b0 t H. rewrite ltf8_Decode_spec by assumption. unfold ltf8_spec_decode. cbv zeta.
  destruct (zlen (b0 :: t) <? ltf8_spec_n b0); [reflexivity|].
  pose proof (ltf8_spec_n_range b0) as Hr. unfold ltf8_val.
  replace (Z.to_nat (ltf8_spec_n b0)) with (S (Z.to_nat (ltf8_spec_n b0 - 1))) by lia.
  cbn [firstn hd tl]. rewrite firstn_firstn, Nat.min_id. reflexivity.
Qed.

Lemma ltf8_no_overread_gen bs :
  all_bytes bs = true ->
  exists v n ok,
    ltf8_Decode bs = Ok (v, n, ok) /\
    (bs = [] -> n = 0 /\ ok = false) /\
    (bs <> [] -> n = ltf8_spec_n (hd 0 bs) /\ ok = (n <=? zlen bs)) /\
    (ok = true -> ltf8_Decode (firstn (Z.to_nat n) bs) = Ok (v, n, true)) /\
    (ok = false -> v = 0).
Proof. exact (item_no_overread _ _ _ bs ltf8_Decode_item (fun b => proj1 (ltf8_spec_n_range b))). Qed.

Lemma ltf8_spec_decode_app b0 t rest :
  ltf8_spec_n b0 = zlen (b0 :: t) ->
  ltf8_spec_decode ((b0 :: t) ++ rest) =
  (s64 (be_value t (if zlen (b0 :: t) <? 8 then b0 mod 2 ^ (8 - zlen (b0 :: t)) else 0)), zlen (b0 :: t), true).
Proof.
  intros Hn. unfold ltf8_spec_decode. cbn [app tl]. rewrite Hn.
  change (b0 :: t ++ rest) with ((b0 :: t) ++ rest).
  rewrite (proj2 (Z.ltb_ge _ _)) by (rewrite zlen_app; pose proof (zlen_nonneg rest); lia).
  rewrite zlen_cons, Z.add_simpl_l. unfold zlen. rewrite Nat2Z.id, firstn_app_exact. reflexivity.
Qed.

Lemma ltf8_spec_n_form n u : 1 <= n <= 8 -> 0 <= u < 2 ^ (7 * n) ->
  ltf8_spec_n (256 - 2 ^ (9 - n) + u / 2 ^ (8 * (n - 1))) = n.
Proof.
  intros Hn Hu. pose proof (top_bits n u Hn Hu) as Ht. set (top := u / _) in *. clearbody top.
  set (p := 256 - 2 ^ (9 - n)). set (q := 2 ^ (8 - n)) in Ht.
  assert (n = 1 \/ n = 2 \/ n = 3 \/ n = 4 \/ n = 5 \/ n = 6 \/ n = 7 \/ n = 8)
    as [->|[->|[->|[->|[->|[->|[->| ->]]]]]]] by lia; cbv in p, q; subst p q;
    unfold ltf8_spec_n; rewrite ?if_ltb_ge by lia; rewrite ?if_ltb_lt by lia; reflexivity.
Qed.

Lemma ltf8_decode_form n u rest : 1 <= n <= 8 -> 0 <= u < 2 ^ (7 * n) ->
  ltf8_spec_decode (form n u ++ rest) = (s64 u, n, true).
Proof.
  intros Hn Hu. pose proof (form_length n u ltac:(lia)) as Hl. unfold form in *.
  rewrite ltf8_spec_decode_app by (rewrite Hl; apply ltf8_spec_n_form; assumption).
  rewrite Hl. do 2 f_equal. f_equal. destruct (Z.ltb_spec n 8) as [H8|H8].
  - apply form_value; assumption.
  - assert (n = 8) as -> by lia. rewrite <- (form_value 8 u Hn Hu) at 2. rewrite Z.mod_1_r. reflexivity.
Qed.

Lemma ltf8_shape v : let u := v mod 2^64 in let n := ltf8_spec_len u in
  1 <= n <= 8 /\ u < 2 ^ (7 * n) /\ ltf8_spec_encode v = form n u \/
  n = 9 /\ 2^56 <= u /\ ltf8_spec_encode v = 255 :: be_bytes 8 u.
Proof.
  cbv zeta. unfold ltf8_spec_encode. cbv zeta. set (u := v mod 2^64). unfold ltf8_spec_len.
  repeat (apply if_ltb_elim; intros ?H; [left; split; [easy|split; [assumption|reflexivity]]|]).
  auto.
Qed.

Lemma ltf8_spec_roundtrip v rest :
  int64 v ->
  ltf8_spec_decode (ltf8_spec_encode v ++ rest) = (v, ltf8_spec_len (v mod 2^64), true).
Proof.
  intros Hv. rewrite <- (s64_u64 v Hv) at 2. pose proof (Z.mod_pos_bound v (2^64) eq_refl) as Hu.
  destruct (ltf8_shape v) as [(Hn & B & ->)|(E & B & ->)].
  - apply ltf8_decode_form; [assumption|split; [apply Hu|exact B]].
  - rewrite E, ltf8_spec_decode_app by reflexivity.
    change ((s64 (be_value (be_bytes 8 (v mod 2^64)) 0), 9, true) = (s64 (v mod 2^64), 9, true)).
    rewrite be_value_be_bytes, Z.mod_small by exact Hu. reflexivity.
Qed.

Lemma ltf8_spec_encode_props v :
  zlen (ltf8_spec_encode v) = ltf8_spec_len (v mod 2^64) /\ all_bytes (ltf8_spec_encode v) = true.
Proof.
  pose proof (Z.mod_pos_bound v (2^64) eq_refl) as Hu.
  destruct (ltf8_shape v) as [(Hn & B & ->)|(E & B & ->)].
  - split; [apply form_length|apply form_all_bytes]; lia.
  - rewrite E. split; [reflexivity|]. apply all_bytes_intro; [easy|apply be_bytes_all_bytes].
Qed.

Lemma ltf8_Decode_encoded v rest :
  int64 v -> all_bytes rest = true ->
  ltf8_Decode (ltf8_spec_encode v ++ rest) = Ok (v, ltf8_spec_len (v mod 2^64), true).
Proof.
  intros Hv Hr. rewrite ltf8_Decode_spec by (apply all_bytes_app; [apply ltf8_spec_encode_props|assumption]).
  f_equal. apply ltf8_spec_roundtrip; assumption.
Qed.
