(** C15, byte level: every field, chunk and chunk list written by the index
    writers is read back by the readers (the building blocks of the round trip). *)
From Coq Require Import ZArith Lia List Bool.
From Hts Require Import Base.Prim Base.Bits Model.Index Model.IndexIO.
Open Scope Z_scope.

Lemma s32_small x : 0 <= x < 2 ^ 31 -> s32 x = x.
Proof. intros H. unfold s32, wraps. change (2 ^ (32 - 1)) with (2 ^ 31). rewrite Z.mod_small by lia. lia. Qed.

Lemma io_take_app a r : io_take (length a) (a ++ r) = Some (a, r).
Proof. induction a as [|h t IH]; simpl; [reflexivity|]. rewrite IH. reflexivity. Qed.

Lemma io_le_length n x : length (io_le n x) = n.
Proof. revert x; induction n; intros; simpl; auto. Qed.

Lemma io_unle_le n x : 0 <= x -> io_unle (io_le n x) = x mod 256 ^ Z.of_nat n.
Proof.
  revert x. induction n as [|k IH]; intros x Hx.
  - simpl. rewrite Z.mod_1_r. reflexivity.
  - cbn [io_le io_unle]. rewrite IH by (apply Z.shiftr_nonneg; exact Hx).
    change 255 with (2 ^ 8 - 1). rewrite land_ones_mod by lia. rewrite shiftr_div by lia.
    change (2 ^ 8) with 256.
    replace (256 ^ Z.of_nat (S k)) with (256 * 256 ^ Z.of_nat k)
      by (rewrite Nat2Z.inj_succ, Z.pow_succ_r by lia; reflexivity).
    rewrite Z.rem_mul_r by lia. reflexivity.
Qed.

Lemma rd_bytes_wr a rest : rd_bytes (length a) (a ++ rest) = Ok (a, rest).
Proof. unfold rd_bytes. rewrite io_take_app. reflexivity. Qed.

Lemma rd_bind_ok {A B} (r : rd A) (k : A -> rd B) s a s' :
  r s = Ok (a, s') -> rd_bind r k s = k a s'.
Proof. intros H. unfold rd_bind. rewrite H. reflexivity. Qed.

(** An [n]-byte field: a value below [256^n] written under the field's mask
    is read back; [g] is what the reader makes of the unsigned value. *)
Lemma rd_field n mask (g : Z -> Z) x rest :
  mask = 2 ^ (8 * Z.of_nat n) - 1 -> 0 <= x < 2 ^ (8 * Z.of_nat n) ->
  (bs <- rd_bytes n ;; rd_ret (g (io_unle bs))) (io_le n (Z.land x mask) ++ rest) = Ok (g x, rest).
Proof.
  intros -> Hx. rewrite land_ones_mod, Z.mod_small by lia.
  replace (rd_bytes n) with (rd_bytes (length (io_le n x))) by (rewrite io_le_length; reflexivity).
  rewrite (rd_bind_ok _ _ _ _ _ (rd_bytes_wr _ _)), io_unle_le by lia.
  replace (256 ^ Z.of_nat n) with (2 ^ (8 * Z.of_nat n)) by (rewrite Z.pow_mul_r by lia; reflexivity).
  rewrite Z.mod_small by lia. reflexivity.
Qed.

Lemma rd_u64_wr x rest : 0 <= x < 2 ^ 64 -> rd_u64 (io_u64 x ++ rest) = Ok (x, rest).
Proof. exact (rd_field 8 io_mask64 (fun v => v) x rest eq_refl). Qed.

Lemma rd_u32_wr x rest : 0 <= x < 2 ^ 32 -> rd_u32 (io_u32 x ++ rest) = Ok (x, rest).
Proof. exact (rd_field 4 io_mask32 (fun v => v) x rest eq_refl). Qed.

Lemma rd_i32_wr x rest : 0 <= x < 2 ^ 31 -> rd_i32 (io_u32 x ++ rest) = Ok (x, rest).
Proof.
  intros Hx. rewrite <- (s32_small x Hx) at 2. apply (rd_field 4 io_mask32 s32 x rest eq_refl). change (8 * Z.of_nat 4) with 32. lia.
Qed.

Lemma rd_count_ok n s : 0 <= n -> rd_count n s = Ok (Z.to_nat n, s).
Proof. intros H. unfold rd_count. destruct (n <? 0) eqn:E; [lia|reflexivity]. Qed.

(** Repetition: what is read back may be a normal form [f x] of what was written. *)
Lemma rd_rep_wr_map {A} (w : A -> list Z) (r : rd A) (f : A -> A) (P : A -> Prop) :
  (forall x rest, P x -> r (w x ++ rest) = Ok (f x, rest)) ->
  forall xs rest, Forall P xs -> rd_rep (length xs) r (flat_map w xs ++ rest) = Ok (map f xs, rest).
Proof.
  intros Hr. induction xs as [|x t IH]; intros rest H; [reflexivity|].
  inversion H; subst. cbn [length flat_map rd_rep map]. rewrite <- app_assoc.
  erewrite rd_bind_ok by (apply Hr; assumption).
  erewrite rd_bind_ok by (apply IH; assumption). reflexivity.
Qed.

Lemma rd_rep_wr {A} (w : A -> list Z) (r : rd A) (P : A -> Prop) :
  (forall x rest, P x -> r (w x ++ rest) = Ok (x, rest)) ->
  forall xs rest, Forall P xs -> rd_rep (length xs) r (flat_map w xs ++ rest) = Ok (xs, rest).
Proof. intros Hr xs rest H. rewrite <- (map_id xs) at 3. exact (rd_rep_wr_map w r (fun x => x) P Hr xs rest H). Qed.

Definition chunk_fits (c : chunk) : Prop := 0 <= fst c < 2 ^ 64 /\ 0 <= snd c < 2 ^ 64.

Lemma rd_chunk_wr c rest : chunk_fits c -> rd_chunk (wr_chunk c ++ rest) = Ok (c, rest).
Proof.
  intros (H1 & H2). unfold rd_chunk, wr_chunk, rd_bind. rewrite <- app_assoc.
  rewrite rd_u64_wr by exact H1. rewrite rd_u64_wr by exact H2. unfold rd_ret. destruct c; reflexivity.
Qed.

(** [readChunks]: the chunk list comes back sorted by begin offset. *)
Lemma rd_chunks_wr cs rest :
  Forall chunk_fits cs -> rd_chunks (zlen cs) (flat_map wr_chunk cs ++ rest) = Ok (ix_isort fst cs, rest).
Proof.
  intros Hf. unfold rd_chunks. destruct (zlen cs =? 0) eqn:E.
  - apply Z.eqb_eq in E. destruct cs; [reflexivity|]. unfold zlen in E. simpl in E. lia.
  - erewrite rd_bind_ok by (apply rd_count_ok; apply zlen_nonneg).
    replace (Z.to_nat (zlen cs)) with (length cs) by (unfold zlen; lia).
    erewrite rd_bind_ok by (apply (rd_rep_wr wr_chunk rd_chunk chunk_fits rd_chunk_wr); exact Hf). reflexivity.
Qed.

Theorem chunks_roundtrip cs rest :
  Forall chunk_fits cs -> zlen cs < 2 ^ 31 ->
  (n <- rd_i32 ;; rd_chunks n) (wr_chunks cs ++ rest) = Ok (ix_isort fst cs, rest).
Proof.
  intros Hf Hl. unfold wr_chunks. rewrite <- app_assoc.
  erewrite rd_bind_ok by (apply rd_i32_wr; pose proof (zlen_nonneg cs); lia). apply rd_chunks_wr. exact Hf.
Qed.
