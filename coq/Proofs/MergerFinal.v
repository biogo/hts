(** C18 — the merger on the transcribed container/heap, in every mode, and
    NewMerger's choice of the mode. *)
From Coq Require Import ZArith List Bool Sorted.
From Hts Require Import Base.Prim Model.Merger Proofs.Merger Proofs.MergerTop Proofs.MergerOrders.
Import ListNotations.
Open Scope Z_scope.

(** Every less function is compatible with the trivial preorder, so what
    holds of the sorted mode for every preorder holds of every less function
    as far as it does not mention the order. *)
Lemma goheap_run : forall links lessf ins,
    ins_ok links 0 ins ->
    exists outs e mf,
      run_merge goheap links lessf ins = Ok (outs, e, mf) /\
      merge_result links ins outs e /\ final_ok e mf.
Proof.
  intros links [less |] ins Hok.
  - destruct (sorted_merge links (fun _ _ => True) (fun _ _ _ _ _ => I) less goheap (heap_wf (fun _ _ => True)) ins)
      as (outs & e & mf & H);
      [apply goheap_min_spec; repeat split | exact Hok |].
    exists outs, e, mf. tauto.
  - destruct (cat_merge links goheap ins Hok) as (outs & e & mf & rest & H). exists outs, e, mf. tauto.
Qed.

Definition all_clean (ins : list input) : bool := negb (existsb i_fail ins).

Lemma all_clean_end : forall ins e,
    e = (if existsb i_fail ins then 1 else 0) -> e = (if all_clean ins then 0 else 1).
Proof. intros ins e ->. unfold all_clean. now destruct (existsb i_fail ins). Qed.

Lemma sticky : forall pq links lessf e mf,
    final_ok e mf -> mread pq links lessf mf = Ok (if e =? 0 then GotEOF else GotErr, mf).
Proof.
  intros pq links lessf e mf [[-> H] | [-> ->]].
  - unfold mread. destruct lessf; simpl; rewrite H; reflexivity.
  - unfold mread. destruct lessf; reflexivity.
Qed.

Lemma merge_headers_shape : forall first rest h links,
    merge_headers (first :: rest) = Some (h, links) ->
    match rest with
    | [] => links = None /\ mh_refs h = i_refs first /\ mh_go h = i_go first
    | _ => mh_go h = 0 /\ exists ls, links = Some ls
    end.
Proof.
  intros first [| second more] h links H; unfold merge_headers in H.
  - inversion H; subst. auto.
  - destruct (merge_more (i_refs first) (second :: more)) as [[hh lss] |]; [| discriminate].
    inversion H; subst. simpl. eauto.
Qed.

(** the order NewMerger's choice for a declared sort order is compatible with *)
Definition declared_le (so code : Z) : rec -> rec -> Prop :=
  if so =? 2 then le_name else if so =? 3 then le_coord else le_custom code.

Lemma declared_le_trans : forall so code a b c,
    declared_le so code a b -> declared_le so code b c -> declared_le so code a c.
Proof.
  intros so code. unfold declared_le.
  destruct (so =? 2); [exact le_name_trans |]. destruct (so =? 3); [exact le_coord_trans | apply le_custom_trans].
Qed.

Lemma pick_less_compat : forall so code less,
    pick_less so code = Some less -> less_compat (declared_le so code) less.
Proof.
  intros so code less H. unfold pick_less, declared_le in *. destruct (so =? 1); [discriminate |].
  destruct (so =? 2); [inversion H; exact less_by_name_compat |].
  destruct (so =? 3); [inversion H; exact less_by_coordinate_compat | now apply custom_less_compat].
Qed.

Lemma declared_merge : forall so code links lessf ins m,
    new_merger goheap links lessf ins = Ok m -> lessf = pick_less so code ->
    ins_ok links 0 ins ->
    exists outs e mf,
      drain goheap links lessf (S (total_recs ins)) m = (outs, e, mf) /\
      merge_result links ins outs e /\
      (lessf = None -> exists rest, tagged links 0 ins = outs ++ rest) /\
      (lessf <> None -> ins_sorted links (declared_le so code) 0 ins ->
       StronglySorted (declared_le so code) (map snd outs)).
Proof.
  intros so code links lessf ins m Hn Hl Hok.
  assert (Hrun : forall r, run_merge goheap links lessf ins = Ok r ->
                           drain goheap links lessf (S (total_recs ins)) m = r).
  { unfold run_merge. rewrite Hn. simpl. congruence. }
  destruct lessf as [less |].
  - destruct (sorted_merge links _ (declared_le_trans so code) less goheap (heap_wf (declared_le so code)) ins)
      as (outs & e & mf & H1 & H2 & _ & H4);
      [apply goheap_min_spec; [apply declared_le_trans | now apply pick_less_compat] | exact Hok |].
    exists outs, e, mf. split; [now apply Hrun |]. split; [exact H2 |]. split; [discriminate | now intros _].
  - destruct (cat_merge links goheap ins Hok) as (outs & e & mf & rest & H1 & H2 & _ & H4 & _).
    exists outs, e, mf. split; [now apply Hrun |]. split; [exact H4 |]. split; [eauto | contradiction].
Qed.
