(** C06 — the SAM text of a record does not change under the equivalence a
    BAM round trip preserves (absent quality is all-0xff in BAM). *)
From Coq Require Import ZArith List Bool Lia.
From Hts Require Import Base.Prim Model.SamText.
Import ListNotations.
Open Scope Z_scope.

(** quality as BAM stores it: an absent quality is [seqlen] bytes 0xff *)
Definition qual_canon (seqlen : Z) (q : option (list Z)) : list Z :=
  match q with None => repeat 255 (Z.to_nat seqlen) | Some l => l end.

(** what a BAM round trip preserves of a record *)
Definition bam_equiv (a b : samrec) : Prop :=
  r_name a = r_name b /\ r_flags a = r_flags b /\ r_ref a = r_ref b /\ r_pos a = r_pos b /\
  r_mapq a = r_mapq b /\ r_cigar a = r_cigar b /\ r_mref a = r_mref b /\ r_mpos a = r_mpos b /\
  r_tlen a = r_tlen b /\ r_seqlen a = r_seqlen b /\ r_seq a = r_seq b /\
  qual_canon (r_seqlen a) (r_qual a) = qual_canon (r_seqlen b) (r_qual b) /\ r_aux a = r_aux b.

Definition qual_len_ok (r : samrec) : Prop :=
  match r_qual r with None => True | Some q => zlen q = r_seqlen r end.

Lemma format_qual_ff : forall n, format_qual (repeat 255 n) = [42].
Proof.
  intro n. unfold format_qual.
  assert (E : existsb (fun v => negb (v =? 255)) (repeat 255 n) = false) by (induction n; simpl; auto).
  rewrite E. reflexivity.
Qed.

Lemma format_qual_canon : forall len qa qb,
  qual_canon len qa = qual_canon len qb ->
  format_qual (match qa with Some q => q | None => [] end) =
  format_qual (match qb with Some q => q | None => [] end).
Proof.
  intros len [a|] [b|] H; cbn [qual_canon] in H; subst; try reflexivity.
  - rewrite format_qual_ff. reflexivity.
  - rewrite format_qual_ff. reflexivity.
Qed.

Lemma qual_check : forall r, qual_len_ok r ->
  match r_qual r with Some q => negb (zlen q =? r_seqlen r) | None => false end = false.
Proof.
  intros r H. unfold qual_len_ok in H. destruct (r_qual r); [|reflexivity].
  rewrite H, Z.eqb_refl. reflexivity.
Qed.

Theorem format_respects_bam_equiv : forall fmt_f32 h fl a b,
  qual_len_ok a -> qual_len_ok b -> bam_equiv a b ->
  format_record fmt_f32 h fl a = format_record fmt_f32 h fl b.
Proof.
  intros fmt h fl a b Ha Hb (E1 & E2 & E3 & E4 & E5 & E6 & E7 & E8 & E9 & E10 & E11 & E12 & E13).
  unfold format_record. rewrite (qual_check a Ha), (qual_check b Hb).
  rewrite E1, E2, E3, E4, E5, E6, E7, E8, E9, E10, E11, E13.
  rewrite E10 in E12. rewrite (format_qual_canon _ _ _ E12). reflexivity.
Qed.
