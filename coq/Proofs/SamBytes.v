(** C06 — lemmas on byte strings, field splitting and the decimal / hex
    number text used by the SAM model: what %d and %x write, and that
    strconv reads it back. *)
From Coq Require Import ZArith List Bool Lia.
From Hts Require Import Base.Prim Base.Bits Model.SamText Model.SamSpec.
Import ListNotations.
Open Scope Z_scope.

(** [lia] where quotients and remainders occur. *)
Ltac dlia := Z.div_mod_to_equations; lia.

(** A byte: n = 16; a CIGAR operation: n = 2^28. *)
Lemma div16_bounds : forall x n, 0 <= x < 16 * n -> 0 <= x / 16 < n /\ 0 <= x mod 16 < 16.
Proof. intros. dlia. Qed.

Lemma beq_true_iff : forall a b, beq a b = true <-> a = b.
Proof.
  induction a as [|x a IH]; destruct b as [|y b]; simpl; split; intro H; try congruence; auto.
  - apply andb_true_iff in H. destruct H as [H1 H2]. apply Z.eqb_eq in H1. apply IH in H2. congruence.
  - inversion H; subst. rewrite Z.eqb_refl. simpl. apply IH. reflexivity.
Qed.
Lemma beq_refl : forall a, beq a a = true.
Proof. intro a. apply beq_true_iff. reflexivity. Qed.
Lemma beq_false_iff : forall a b, beq a b = false <-> a <> b.
Proof. intros a b. rewrite <- beq_true_iff. symmetry. apply not_true_iff_false. Qed.

(** A property of 0 .. n-1, from its instances (for the small tables: digits,
    operation letters, base codes). *)
Lemma range_Forall (P : Z -> Prop) n :
  Forall P (map Z.of_nat (seq 0 n)) -> forall x, 0 <= x < Z.of_nat n -> P x.
Proof.
  intros H x Hx. rewrite Forall_forall in H. apply H.
  apply in_map_iff. exists (Z.to_nat x). split; [lia|]. apply in_seq. lia.
Qed.

(** A byte string free of a separator. *)
Definition free (sep : Z) (l : list Z) : Prop := ~ In sep l.

Lemma free_app : forall sep a b, free sep (a ++ b) <-> free sep a /\ free sep b.
Proof. unfold free. intros. rewrite in_app_iff. tauto. Qed.
Lemma free_cons : forall sep c l, free sep (c :: l) <-> c <> sep /\ free sep l.
Proof. unfold free. intros. simpl. split; intro H; [split; intro; apply H; auto | intros [E|E]; destruct H; auto]. Qed.
Lemma free_nil : forall sep, free sep [].
Proof. unfold free. intros sep H. inversion H. Qed.
Lemma free_one : forall sep c, c <> sep -> free sep [c].
Proof. intros. apply free_cons. split; [assumption|apply free_nil]. Qed.

Lemma split_on_free : forall sep l, free sep l -> split_on sep l = [l].
Proof.
  induction l as [|c l IH]; intro H; simpl; auto.
  apply free_cons in H. destruct H as [H1 H2].
  destruct (Z.eqb_spec c sep); [contradiction|]. rewrite IH by assumption. reflexivity.
Qed.

Lemma split_on_app : forall sep a b,
  free sep a -> split_on sep (a ++ sep :: b) = a :: split_on sep b.
Proof.
  induction a as [|c a IH]; intros b H; simpl.
  - rewrite Z.eqb_refl. reflexivity.
  - apply free_cons in H. destruct H as [H1 H2].
    destruct (Z.eqb_spec c sep); [contradiction|]. rewrite IH by assumption. reflexivity.
Qed.

Lemma split_join : forall sep fs,
  fs <> [] -> Forall (free sep) fs -> split_on sep (join sep fs) = fs.
Proof.
  induction fs as [|f fs IH]; intros Hne Hall; [congruence|].
  inversion Hall as [|? ? Hf Hfs]; subst.
  destruct fs as [|g fs].
  - simpl. apply split_on_free. assumption.
  - change (join sep (f :: g :: fs)) with (f ++ sep :: join sep (g :: fs)).
    rewrite split_on_app by assumption. rewrite IH; auto. congruence.
Qed.

Lemma digit_val_char : forall d, 0 <= d < 16 -> digit_val (digit_char d) = Some d.
Proof. apply (range_Forall _ 16). repeat constructor. Qed.

Lemma digit_char_dec : forall d, d < 10 -> digit_char d = 48 + d.
Proof. intros d H. unfold digit_char. rewrite (proj2 (Z.ltb_lt d 10) H). reflexivity. Qed.

Lemma digit_char_not_us : forall d, 0 <= d < 16 -> (digit_char d =? 95) = false.
Proof. apply (range_Forall _ 16). repeat constructor. Qed.

Lemma digits_val_app : forall b b0 l1 l2 acc,
  digits_val b b0 (l1 ++ l2) acc =
  match digits_val b b0 l1 acc with Some a => digits_val b b0 l2 a | None => None end.
Proof.
  induction l1 as [|c l1 IH]; intros; simpl; auto.
  destruct ((c =? 95) && b0); [apply IH|].
  destruct (digit_val c); auto. destruct (b <=? z); auto.
Qed.

Lemma digits_val_one : forall b b0 d acc, 0 <= d < b -> b <= 16 ->
  digits_val b b0 [digit_char d] acc = Some (acc * b + d).
Proof.
  intros. simpl. rewrite digit_char_not_us, digit_val_char, (proj2 (Z.leb_gt b d)) by lia. reflexivity.
Qed.

Lemma pdigits_val : forall b b0 fuel n, 2 <= b <= 16 -> 0 <= n < b ^ Z.of_nat fuel ->
  digits_val b b0 (pdigits b fuel n) 0 = Some n.
Proof.
  intros b b0 fuel. induction fuel as [|f IH]; intros n Hb Hn.
  - change (Z.of_nat 0) with 0 in Hn. rewrite Z.pow_0_r in Hn. assert (n = 0) by lia. subst. reflexivity.
  - cbn [pdigits]. destruct (Z.ltb_spec n b) as [E|E].
    + rewrite digits_val_one by lia. f_equal; lia.
    + rewrite Nat2Z.inj_succ, Z.pow_succ_r in Hn by lia.
      rewrite digits_val_app, IH, digits_val_one; [| apply Z.mod_pos_bound; lia | lia | lia
                                                   | split; [apply Z.div_pos; lia|apply Z.div_lt_upper_bound; lia]].
      f_equal. dlia.
Qed.

Lemma log2_fuel : forall b n, 2 <= b -> 0 <= n -> n < b ^ Z.of_nat (S (Z.to_nat (Z.log2 n))).
Proof.
  intros b n Hb Hn.
  destruct (Z.eq_dec n 0) as [->|Hz].
  - replace (Z.of_nat (S (Z.to_nat (Z.log2 0)))) with 1 by reflexivity. rewrite Z.pow_1_r. lia.
  - assert (Hl := Z.log2_spec n ltac:(lia)). assert (0 <= Z.log2 n) by apply Z.log2_nonneg.
    rewrite Nat2Z.inj_succ, Z2Nat.id by lia.
    eapply Z.lt_le_trans; [apply Hl|].
    apply Z.pow_le_mono_l. lia.
Qed.

Lemma print_nat_base_val : forall b b0 n, 2 <= b <= 16 -> 0 <= n ->
  digits_val b b0 (print_nat_base b n) 0 = Some n.
Proof.
  intros. unfold print_nat_base. apply pdigits_val; auto. split; auto. apply log2_fuel; lia.
Qed.

Definition is_base_digit (b c : Z) : Prop := exists d, 0 <= d < b /\ c = digit_char d.

Lemma pdigits_chars : forall b fuel n, 2 <= b -> 0 <= n ->
  Forall (is_base_digit b) (pdigits b fuel n).
Proof.
  intros b fuel. induction fuel as [|f IH]; intros n Hb Hn; cbn [pdigits]; [constructor|].
  destruct (Z.ltb_spec n b) as [E|E].
  - constructor; [exists n; split; [lia|reflexivity]|constructor].
  - apply Forall_app. split; [apply IH; [lia|apply Z.div_pos; lia]|].
    constructor; [|constructor]. exists (n mod b). split; [apply Z.mod_pos_bound; lia|reflexivity].
Qed.

Lemma print_nat_base_chars : forall b n, 2 <= b -> 0 <= n -> Forall (is_base_digit b) (print_nat_base b n).
Proof. intros. apply pdigits_chars; assumption. Qed.

Lemma print_nat_base_nonempty : forall b n, print_nat_base b n <> [].
Proof.
  intros. unfold print_nat_base. cbn [pdigits]. destruct (n <? b); [congruence|].
  intro H. apply app_eq_nil in H. destruct H; congruence.
Qed.

Lemma pdigits_head : forall b fuel n, 2 <= b -> 0 <= n < b ^ Z.of_nat (S fuel) ->
  exists d t, pdigits b (S fuel) n = digit_char d :: t /\ 0 <= d < b /\ (0 < n -> 0 < d).
Proof.
  intros b fuel. induction fuel as [|f IH]; intros n Hb Hn; cbn [pdigits]; destruct (Z.ltb_spec n b) as [E|E].
  1,3: exists n, []; split; [reflexivity|lia].
  - change (Z.of_nat 1) with 1 in Hn. lia.
  - rewrite (Nat2Z.inj_succ (S f)), Z.pow_succ_r in Hn by lia.
    destruct (IH (n / b) Hb) as (d & t & Hp & Hd & Hd0).
    { split; [apply Z.div_pos; lia|apply Z.div_lt_upper_bound; lia]. }
    exists d, (t ++ [digit_char (n mod b)]). cbn [pdigits] in Hp. rewrite Hp. split; [reflexivity|].
    split; [assumption|]. intros _. apply Hd0. apply Z.div_str_pos. lia.
Qed.

Lemma print_nat_base_head : forall b n, 2 <= b -> 0 <= n ->
  exists d t, print_nat_base b n = digit_char d :: t /\ 0 <= d < b /\ (0 < n -> 0 < d).
Proof. intros. apply pdigits_head; [assumption|]. split; [assumption|]. apply log2_fuel; lia. Qed.

Lemma digit_char_free : forall b c sep, b <= 16 -> is_base_digit b c ->
  (sep < 48 \/ (57 < sep /\ sep < 97) \/ 102 < sep) -> c <> sep.
Proof.
  intros b c sep Hb (d & Hd & ->) Hs. unfold digit_char. destruct (d <? 10) eqn:E; [apply Z.ltb_lt in E|apply Z.ltb_ge in E]; lia.
Qed.

Lemma print_nat_base_free : forall b n sep, 2 <= b <= 16 -> 0 <= n ->
  (sep < 48 \/ (57 < sep /\ sep < 97) \/ 102 < sep) -> free sep (print_nat_base b n).
Proof.
  intros b n sep Hb Hn Hs Hin.
  assert (F := print_nat_base_chars b n ltac:(lia) Hn).
  rewrite Forall_forall in F. apply F in Hin. eapply digit_char_free in Hin; eauto; lia.
Qed.

Lemma print_Z_nonneg : forall z, 0 <= z -> print_Z z = print_nat_base 10 z.
Proof. intros z H. unfold print_Z. rewrite (proj2 (Z.ltb_ge z 0) H). reflexivity. Qed.

Lemma print_Z_free : forall z sep,
  (sep < 45 \/ (45 < sep /\ sep < 48) \/ (57 < sep /\ sep < 97) \/ 102 < sep) -> free sep (print_Z z).
Proof.
  intros z sep Hs. unfold print_Z. destruct (Z.ltb_spec z 0).
  - apply free_cons. split; [lia|]. apply print_nat_base_free; lia.
  - apply print_nat_base_free; lia.
Qed.

Lemma no_underscore : forall b l, b <= 16 -> Forall (is_base_digit b) l -> existsb (Z.eqb 95) l = false.
Proof.
  intros b l Hb H. induction H as [|c l (d & Hd & ->) Hl IH]; [reflexivity|].
  cbn [existsb]. rewrite IH, Z.eqb_sym, digit_char_not_us by lia. reflexivity.
Qed.

(** The part of ParseUint after the base prefix, on a printed number. *)
Lemma parse_uint_digits : forall b b0 n bits s, 2 <= b <= 16 -> 0 <= n < 2 ^ bits ->
  match digits_val b b0 (print_nat_base b n) 0 with
  | None => None
  | Some m =>
      if 2 ^ bits <=? m then None
      else if existsb (Z.eqb 95) (print_nat_base b n) && b0 && negb (underscore_ok s) then None
      else Some m
  end = Some n.
Proof.
  intros. rewrite print_nat_base_val, (proj2 (Z.leb_gt _ n)), (no_underscore b) by (try apply print_nat_base_chars; lia).
  reflexivity.
Qed.

Lemma parse_uint10_print : forall n bits, 0 <= n < 2 ^ bits ->
  go_parse_uint (print_Z n) 10 bits = Some n.
Proof.
  intros n bits H. rewrite print_Z_nonneg by lia.
  pose proof (parse_uint_digits 10 false n bits (print_nat_base 10 n) ltac:(lia) H) as P.
  unfold go_parse_uint. destruct (print_nat_base 10 n) eqn:E; [destruct (print_nat_base_nonempty _ _ E)|exact P].
Qed.

Lemma parse_uint0_print : forall n bits, 0 <= n < 2 ^ bits ->
  go_parse_uint (print_Z n) 0 bits = Some n.
Proof.
  intros n bits H. rewrite print_Z_nonneg by lia.
  destruct (Z.eq_dec n 0) as [->|Hz].
  - (* "0" is taken as an octal number without digits *)
    unfold go_parse_uint. cbn. rewrite (proj2 (Z.leb_gt _ 0)) by lia. reflexivity.
  - pose proof (parse_uint_digits 10 true n bits (print_nat_base 10 n) ltac:(lia) H) as P.
    destruct (print_nat_base_head 10 n ltac:(lia) ltac:(lia)) as (d & t & Hp & Hd & Hd0).
    rewrite Hp in *. unfold go_parse_uint. cbn [Z.eqb].
    replace (digit_char d =? 48) with false; [exact P|].
    symmetry. rewrite digit_char_dec by lia. apply Z.eqb_neq. lia.
Qed.

Lemma parse_uint0_hex : forall n bits, 0 <= n < 2 ^ bits ->
  go_parse_uint ([48; 120] ++ print_hex n) 0 bits = Some n.
Proof.
  intros n bits H. unfold print_hex.
  pose proof (parse_uint_digits 16 true n bits ([48; 120] ++ print_nat_base 16 n) ltac:(lia) H) as P.
  unfold go_parse_uint. destruct (print_nat_base 16 n) eqn:E; [destruct (print_nat_base_nonempty _ _ E)|exact P].
Qed.

Lemma parse_int_print : forall base bits z,
  (forall n, 0 <= n < 2 ^ bits -> go_parse_uint (print_Z n) base bits = Some n) ->
  0 < bits -> - 2 ^ (bits - 1) <= z < 2 ^ (bits - 1) ->
  go_parse_int (print_Z z) base bits = Some z.
Proof.
  intros base bits z U Hb H. unfold go_parse_int.
  assert (E2 : 2 ^ bits = 2 * 2 ^ (bits - 1)) by (rewrite <- Z.pow_succ_r by lia; f_equal; lia).
  set (half := 2 ^ (bits - 1)) in *.
  destruct (Z.ltb_spec z 0) as [E|E].
  - specialize (U (- z) ltac:(lia)). rewrite print_Z_nonneg in U by lia.
    unfold print_Z. rewrite (proj2 (Z.ltb_lt z 0) E). cbn [Z.eqb Pos.eqb].
    rewrite U, (proj2 (Z.ltb_ge half (- z))) by lia. cbn [negb andb]. f_equal. lia.
  - specialize (U z ltac:(lia)). rewrite print_Z_nonneg in * by lia.
    (* the first character is a digit, not a sign *)
    destruct (print_nat_base_head 10 z ltac:(lia) E) as (d & t & Hp & Hd & _).
    rewrite Hp, digit_char_dec in * by lia.
    rewrite (proj2 (Z.eqb_neq _ 43)), (proj2 (Z.eqb_neq _ 45)) by lia.
    rewrite U, (proj2 (Z.leb_gt half z)) by lia. reflexivity.
Qed.

Lemma atoi_print : forall z, - 2 ^ 63 <= z < 2 ^ 63 -> go_atoi (print_Z z) = Some z.
Proof. intros z H. apply parse_int_print; [intros; apply parse_uint10_print; assumption|lia|exact H]. Qed.
