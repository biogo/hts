(** C03 — the histories of the witnesses in Props/C03.v: one on which the
    rd > 1 reader with a cache deadlocks, and a FIFO history that re-visits a
    used block. *)
From Coq Require Import ZArith List Bool Lia.
From Hts Require Import Base.Prim Model.Flat Model.Reader Proofs.ReaderFlat Proofs.ReaderStore.
Import ListNotations.
Open Scope Z_scope.

Definition strip_cache (ops : list rop) : list rop := filter no_cache_op ops.

Definition run_rets (F : file) (ch : list nat) (ops : list rop) : option (list fret) :=
  match r_run F ch (fst (r_init F)) ops with Ok l => Some (rets l) | _ => None end.

Definition ten_blocks : file :=
  map (fun i => mkMember (Z.of_nat i * 30) 30 [Z.of_nat i * 2; Z.of_nat i * 2 + 1]) (seq 0 10).

Definition fifo_history : list rop :=
  [OSetCache KFIFO 5; ORead 2; ORead 2; ORead 2; OSeek 0 0; ORead 2; ORead 2; ORead 2; ORead 2; OSeek 60 0; ORead 2].

Definition last_ret (F : file) (ch : list nat) (ops : list rop) : option fret :=
  match run_rets F ch ops with Some l => Some (last l ([], 0)) | None => None end.

(** A FIFO history that re-visits a used block (FIFO.Put keeps a block it still
    indexes): with the cache the read after Seek(block 2) returns block 2's
    payload, as without it. *)
Lemma fifo_history_ok :
  wf_file ten_blocks = true /\ Forall (valid_op ten_blocks) fifo_history /\
  last_ret ten_blocks [] fifo_history = Some ([4; 5], eNil) /\
  last_ret ten_blocks [] (strip_cache fifo_history) = Some ([4; 5], eNil).
Proof.
  split; [vm_compute; reflexivity|].
  split; [repeat constructor; vm_compute; try reflexivity; discriminate|].
  split; vm_compute; reflexivity.
Qed.

(** rd = 2, LRU cache of capacity 2, a 15-byte member and the EOF marker:
    SetCache; Seek(EOF marker); Read; Seek(LastChunk.Begin); Read — with the
    read-ahead thread scheduled only when the consumer waits for it, the last
    Read blocks for ever (the consumer receives from working, the read-ahead
    is parked on control); without the cache the history returns. *)
Definition small_file : file := [mkMember 0 51 (mkdata 15 197); mkMember 51 28 []].
Definition async_history : list rop := [OSetCache KLRU 2; OSeek 51 0; ORead 2; OReseek; ORead 14].
