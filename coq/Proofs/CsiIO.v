(** C15 for CSI at byte level (versions 1 and 2, any auxiliary bytes): reading
    what WriteTo wrote gives the sorted index — with the per-bin record counts
    that version 1 does not store read back as 0 — and writing that again gives
    the same bytes; the re-read index answers like the original. *)
From Coq Require Import ZArith Lia List Bool.
From Hts Require Import Base.Prim Base.Bits Generated Model.Index Model.Csi Model.IndexIO
  Proofs.IndexSort Proofs.IndexIO Proofs.IndexIOFull Proofs.CsiIdx Proofs.CsiStats.
Open Scope Z_scope.

(** What a bin / reference looks like after the round trip. *)
Definition cs_strip_bin (ver : Z) (b : cbin) : cbin :=
  mkCBin (cnum b) (cleft b) (if ver =? 2 then crecords b else 0) (cchunks b).
Definition cs_strip_ref (ver : Z) (r : cref) : cref := mkCRef (map (cs_strip_bin ver) (cbins r)) (cstats r).

Definition cs_reread (ix : cindex) : cindex :=
  let ix' := cs_sort ix in
  mkCsi (c_aux ix') (c_ver ix') (map (cs_strip_ref (c_ver ix')) (c_refs ix')) (c_unm ix') (c_ms ix') (c_dp ix') true 0.

Definition cbin_fits (dummy : Z) (b : cbin) : Prop :=
  0 <= cnum b < 2 ^ 32 /\ cnum b <> dummy /\ u64_fits (cleft b) /\ u64_fits (crecords b) /\
  Forall chunk_fits (cchunks b) /\ zlen (cchunks b) < 2 ^ 31 /\ key_sorted fst (cchunks b).

Definition cref_fits (limit : Z) (r : cref) : Prop :=
  Forall (cbin_fits (u32 (limit + 1))) (cbins r) /\ zlen (cbins r) <= limit /\ limit + 1 < 2 ^ 32 /\ zlen (cbins r) + 1 < 2 ^ 31 /\
  key_sorted cnum (cbins r) /\ match cstats r with Some s => stats_fits s | None => True end.

(** Version 1 or 2, a geometry the reader accepts, numbers that fit their
    fields, and the order [sort] establishes. *)
Definition csi_fits (ix : cindex) : Prop :=
  (c_ver ix = 1 \/ c_ver ix = 2) /\
  0 <= c_ms ix /\ 0 <= c_dp ix < 10 /\ c_ms ix + 3 * c_dp ix < 64 /\
  zlen (c_aux ix) < 2 ^ 31 /\
  Forall (cref_fits (cs_bin_limit (c_dp ix))) (c_refs ix) /\ zlen (c_refs ix) < 2 ^ 31 /\
  match c_unm ix with Some u => u64_fits u | None => True end.

Section Ver.
  Variables ver dummy : Z.
  Hypothesis Hver : ver = 1 \/ ver = 2.

  Lemma rd_records_wr x rest :
    u64_fits x ->
    (if ver =? 2 then rd_u64 else rd_ret 0) ((if ver =? 2 then io_u64 x else []) ++ rest)
    = Ok ((if ver =? 2 then x else 0), rest).
  Proof.
    intros Hx. destruct Hver as [-> | ->]; simpl (_ =? 2).
    - reflexivity.
    - apply rd_u64_wr. exact Hx.
  Qed.

  Lemma cloop_bin_step k acc st b rest :
    cbin_fits dummy b ->
    rd_cbins_loop ver dummy (S k) acc st (wr_cbin ver b ++ rest)
    = rd_cbins_loop ver dummy k (cs_strip_bin ver b :: acc) st rest.
  Proof.
    intros (Hn & Hd & Hl & Hr & Hf & Hc & Hs). cbn [rd_cbins_loop]. unfold wr_cbin, wr_chunks. rewrite <- !app_assoc.
    erewrite rd_bind_ok by (apply rd_u32_wr; exact Hn).
    erewrite rd_bind_ok by (apply rd_u64_wr; exact Hl).
    erewrite rd_bind_ok by (apply rd_records_wr; exact Hr).
    erewrite rd_bind_ok by (apply rd_i32_wr; pose proof (zlen_nonneg (cchunks b)); lia).
    destruct (cnum b =? dummy) eqn:E; [apply Z.eqb_eq in E; contradiction|].
    erewrite rd_bind_ok by (apply rd_chunks_wr; assumption).
    rewrite ix_isort_sorted_id by exact Hs. reflexivity.
  Qed.

  Lemma cloop_bins bins : forall k acc st rest,
    Forall (cbin_fits dummy) bins ->
    rd_cbins_loop ver dummy (length bins + k) acc st (flat_map (wr_cbin ver) bins ++ rest)
    = rd_cbins_loop ver dummy k (rev (map (cs_strip_bin ver) bins) ++ acc) st rest.
  Proof.
    induction bins as [|b t IH]; intros k acc st rest H; [reflexivity|].
    inversion H; subst. cbn [length flat_map plus map]. rewrite <- app_assoc.
    rewrite cloop_bin_step by assumption. rewrite IH by assumption.
    cbn [rev]. rewrite <- app_assoc. reflexivity.
  Qed.

  Definition wr_cstats_entry (st : option istats) : list Z :=
    match st with Some s => wr_cstats_head ver dummy ++ wr_stats_body s | None => [] end.

  Lemma wr_cstats_head_shape :
    wr_cstats_head ver dummy = io_u32 dummy ++ io_u64 0 ++ (if ver =? 2 then io_u64 0 else []) ++ io_u32 2.
  Proof. destruct Hver as [-> | ->]; reflexivity. Qed.

  Lemma cloop_stats k acc st rest :
    0 <= dummy < 2 ^ 32 -> match st with Some s => stats_fits s | None => True end ->
    rd_cbins_loop ver dummy (stats_count st + k) acc None (wr_cstats_entry st ++ rest)
    = rd_cbins_loop ver dummy k acc st rest.
  Proof.
    intros Hd Hs. destruct st as [s|]; [|reflexivity]. cbn [rd_cbins_loop wr_cstats_entry stats_count plus].
    rewrite wr_cstats_head_shape, <- !app_assoc.
    erewrite rd_bind_ok by (apply rd_u32_wr; exact Hd).
    erewrite rd_bind_ok by (apply rd_u64_wr; lia).
    erewrite rd_bind_ok by (apply rd_records_wr; unfold u64_fits; lia).
    erewrite rd_bind_ok by (apply rd_i32_wr; lia).
    rewrite Z.eqb_refl. change (2 =? 2) with true. cbv iota.
    erewrite rd_bind_ok by (apply rd_stats_wr; exact Hs). reflexivity.
  Qed.
End Ver.

Lemma wr_cref_shape ver dummy r :
  wr_cref ver dummy r = io_u32 (zlen (cbins r) + match cstats r with Some _ => 1 | None => 0 end)
                        ++ flat_map (wr_cbin ver) (cbins r) ++ wr_cstats_entry ver dummy (cstats r).
Proof. unfold wr_cref, wr_cstats_entry. destruct (cstats r); reflexivity. Qed.

Lemma rd_cref_wr ver limit r rest :
  (ver = 1 \/ ver = 2) -> cref_fits limit r ->
  rd_cref ver limit (wr_cref ver (u32 (limit + 1)) r ++ rest) = Ok (cs_strip_ref ver r, rest).
Proof.
  intros Hver (Hb & Hlim & Hl32 & Hl & Hs & Hst). rewrite wr_cref_shape. unfold rd_cref. rewrite <- !app_assoc.
  pose proof (zlen_nonneg (cbins r)) as Hn.
  set (n := zlen (cbins r) + match cstats r with Some _ => 1 | None => 0 end).
  assert (Hn' : 0 <= n < 2 ^ 31 /\ n <= limit + 1) by (unfold n; destruct (cstats r); lia).
  erewrite rd_bind_ok by (apply rd_i32_wr; lia).
  assert (Hd : 0 <= u32 (limit + 1) < 2 ^ 32) by (unfold u32, wrapu; apply Z.mod_pos_bound; lia).
  destruct (n =? 0) eqn:E.
  - apply Z.eqb_eq in E. assert (zlen (cbins r) = 0) by (unfold n in E; destruct (cstats r); lia).
    destruct r as [bins st]. simpl in *. destruct bins; [|unfold zlen in H; simpl in H; lia].
    destruct st; [unfold n, zlen in E; simpl in E; lia|]. reflexivity.
  - rewrite (u32_small n) by lia. destruct (n >? u32 (limit + 1)) eqn:E2; [rewrite u32_small in E2 by lia; lia|].
    erewrite rd_bind_ok by (apply rd_count_ok; lia).
    replace (Z.to_nat n) with (length (cbins r) + (stats_count (cstats r) + 0))%nat
      by (unfold n, zlen; destruct (cstats r); simpl; lia).
    unfold rd_bind. rewrite cloop_bins, cloop_stats by assumption.
    cbn [rd_cbins_loop]. unfold rd_ret. rewrite app_nil_r, rev_involutive.
    rewrite ix_isort_sorted_id by (apply key_sorted_map; [reflexivity|exact Hs]). reflexivity.
Qed.

Lemma cs_sort_fields ix :
  c_aux (cs_sort ix) = c_aux ix /\ c_ver (cs_sort ix) = c_ver ix /\ c_unm (cs_sort ix) = c_unm ix /\
  c_ms (cs_sort ix) = c_ms ix /\ c_dp (cs_sort ix) = c_dp ix /\ zlen (c_refs (cs_sort ix)) = zlen (c_refs ix).
Proof.
  unfold cs_sort. destruct (c_sorted ix); simpl; repeat split; try reflexivity.
  unfold zlen. rewrite map_length. reflexivity.
Qed.

Theorem csi_read_write ix :
  csi_fits (cs_sort ix) -> csi_read (fst (csi_write ix)) = Ok (Some (cs_reread ix)).
Proof.
  intros (Hver & Hms & Hdp & Hg & Haux & Hr & Hl & Hu).
  unfold cs_reread, csi_write. cbn [fst]. set (ix' := cs_sort ix) in *.
  set (ver := c_ver ix') in *. set (ms := c_ms ix') in *. set (dp := c_dp ix') in *.
  assert (Hu8 : u8 ver = ver) by (destruct Hver as [-> | ->]; reflexivity).
  unfold csi_read.
  erewrite rd_bind_ok by (exact (rd_bytes_wr csi_magic _)).
  change (negb (io_bytes_eqb csi_magic csi_magic)) with false. cbv iota.
  erewrite rd_bind_ok by (exact (rd_bytes_wr [u8 ver] _)).
  cbn [hd]. rewrite Hu8.
  assert (Hv : negb ((ver =? 1) || (ver =? 2)) = false) by (destruct Hver as [-> | ->]; reflexivity).
  rewrite Hv.
  erewrite rd_bind_ok by (apply rd_u32_wr; lia).
  rewrite (s32_small ms) by lia. destruct (Z.ltb_spec ms 0); [lia|].
  erewrite rd_bind_ok by (apply rd_u32_wr; lia).
  rewrite (s32_small dp) by lia. destruct (Z.ltb_spec dp 0); [lia|].
  assert (Hgeo : (dp >=? 32 / csi_nextBinShift) || (ms >=? 64) || (u32 (ms + u32 (dp * csi_nextBinShift)) >=? 64) = false).
  { change csi_nextBinShift with 3. change (32 / 3) with 10.
    rewrite (u32_small (dp * 3)) by lia. rewrite u32_small by lia.
    destruct (dp >=? 10) eqn:A; [lia|]. destruct (ms >=? 64) eqn:B; [lia|].
    destruct (ms + dp * 3 >=? 64) eqn:C; [lia|]. reflexivity. }
  rewrite Hgeo.
  pose proof (zlen_nonneg (c_aux ix')) as Ha0.
  erewrite rd_bind_ok by (apply rd_i32_wr; lia).
  erewrite rd_bind_ok.
  2:{ destruct (zlen (c_aux ix') >? 0) eqn:Ea.
      - replace (Z.to_nat (zlen (c_aux ix'))) with (length (c_aux ix')) by (unfold zlen; lia).
        apply rd_bytes_wr.
      - rewrite Z.gtb_ltb in Ea. apply Z.ltb_ge in Ea.
        assert (En : c_aux ix' = []) by (destruct (c_aux ix'); [reflexivity|unfold zlen in Ea; simpl length in Ea; lia]).
        rewrite En. reflexivity. }
  pose proof (zlen_nonneg (c_refs ix')) as Hr0.
  erewrite rd_bind_ok by (apply rd_i32_wr; lia).
  rewrite (rd_bind_ok _ _ _ (map (cs_strip_ref ver) (c_refs ix')) (wr_trailer (c_unm ix'))).
  2:{ destruct (zlen (c_refs ix') =? 0) eqn:En.
      - apply Z.eqb_eq in En. assert (Er : c_refs ix' = []) by (destruct (c_refs ix'); [reflexivity|unfold zlen in En; simpl in En; lia]).
        rewrite Er. reflexivity.
      - erewrite rd_bind_ok by (apply rd_count_ok; lia).
        replace (Z.to_nat (zlen (c_refs ix'))) with (length (c_refs ix')) by (unfold zlen; lia).
        apply (rd_rep_wr_map (wr_cref ver (u32 (cs_bin_limit dp + 1))) (rd_cref ver (cs_bin_limit dp))
                 (cs_strip_ref ver) (cref_fits (cs_bin_limit dp))); [|exact Hr].
        intros x rest Hx. apply rd_cref_wr; assumption. }
  erewrite rd_bind_ok by (apply rd_trailer_wr; exact Hu).
  reflexivity.
Qed.

Lemma wr_cbin_strip ver b : wr_cbin ver (cs_strip_bin ver b) = wr_cbin ver b.
Proof. unfold wr_cbin, cs_strip_bin. cbn [cnum cleft crecords cchunks]. destruct (ver =? 2); reflexivity. Qed.

Lemma wr_cref_strip ver d r : wr_cref ver d (cs_strip_ref ver r) = wr_cref ver d r.
Proof.
  unfold wr_cref, cs_strip_ref. cbn [cbins cstats]. unfold zlen. rewrite map_length. f_equal. f_equal.
  induction (cbins r) as [|b t IH]; cbn [map flat_map]; [reflexivity|]. rewrite wr_cbin_strip, IH. reflexivity.
Qed.

Lemma flat_map_strip ver d refs :
  flat_map (wr_cref ver d) (map (cs_strip_ref ver) refs) = flat_map (wr_cref ver d) refs.
Proof. induction refs as [|r t IH]; cbn [map flat_map]; [reflexivity|]. rewrite wr_cref_strip, IH. reflexivity. Qed.

Theorem csi_write_read_write ix : fst (csi_write (cs_reread ix)) = fst (csi_write ix).
Proof.
  assert (Hs : cs_sort (cs_reread ix) = cs_reread ix) by reflexivity.
  unfold csi_write. rewrite Hs. cbn [fst]. unfold cs_reread. cbn [c_aux c_ver c_ms c_dp c_refs c_unm].
  rewrite flat_map_strip. unfold zlen. rewrite map_length. reflexivity.
Qed.

Lemma cs_strip_default ver : cs_strip_bin ver (mkCBin 0 0 0 []) = mkCBin 0 0 0 [].
Proof. unfold cs_strip_bin. cbn [cnum cleft crecords cchunks]. destruct (ver =? 2); reflexivity. Qed.

Lemma cs_search_strip ver bs b :
  cs_search (map (cs_strip_bin ver) bs) b = option_map (cs_strip_bin ver) (cs_search bs b).
Proof. exact (search_map cnum (mkCBin 0 0 0 []) (cs_strip_bin ver) bs b (fun _ => eq_refl) (cs_strip_default ver)). Qed.

Lemma cs_candidates_strip ver ref beg end_ ms dp :
  cs_candidates (cs_strip_ref ver ref) beg end_ ms dp = cs_candidates ref beg end_ ms dp.
Proof.
  unfold cs_candidates, cs_strip_ref. cbn [cbins]. apply flat_map_ext. intros b.
  rewrite cs_search_strip. destruct (cs_search (cbins ref) (u32 b)); reflexivity.
Qed.

Theorem cs_reread_chunks ix rid beg end_ :
  fst (cs_chunks (cs_reread ix) rid beg end_) = fst (cs_chunks ix rid beg end_).
Proof.
  assert (Hs : cs_sort (cs_reread ix) = cs_reread ix) by reflexivity.
  destruct (cs_sort_fields ix) as (_ & _ & _ & Hms & Hdp & Hlen).
  unfold cs_chunks. rewrite Hs.
  assert (Hl : zlen (c_refs (cs_reread ix)) = zlen (c_refs ix)).
  { unfold cs_reread. cbn [c_refs]. unfold zlen in *. rewrite map_length. exact Hlen. }
  rewrite Hl. destruct ((rid <? 0) || (rid >=? zlen (c_refs ix))); [reflexivity|].
  assert (Hm : cs_max (cs_reread ix) = cs_max ix).
  { unfold cs_max, cs_reread. cbn [c_ms c_dp]. rewrite Hms, Hdp. reflexivity. }
  rewrite Hm. destruct ((beg <? 0) || (end_ <=? beg) || (beg >=? cs_max ix)); [reflexivity|]. cbn [fst].
  unfold cs_reread. cbn [c_refs c_ms c_dp].
  rewrite nth_map_fix, cs_candidates_strip by reflexivity. reflexivity.
Qed.

Theorem cs_reread_stats ix :
  cs_numrefs (cs_reread ix) = cs_numrefs ix /\ c_unm (cs_reread ix) = c_unm ix /\
  forall rid, cs_refstats (cs_reread ix) rid = cs_refstats ix rid.
Proof.
  destruct (cs_sort_fields ix) as (_ & _ & Hu & _ & _ & Hlen).
  unfold cs_numrefs, cs_refstats, cs_reread. cbn [c_refs c_unm].
  split; [unfold zlen in *; rewrite map_length; exact Hlen|]. split; [exact Hu|].
  intros rid. rewrite nth_map_fix by reflexivity.
  unfold cs_strip_ref. cbn [cstats]. unfold cs_sort. destruct (c_sorted ix); [reflexivity|]. cbn [c_refs].
  rewrite nth_map_fix by reflexivity. reflexivity.
Qed.

Definition cbin_ranges (dummy : Z) (b : cbin) : Prop :=
  0 <= cnum b < 2 ^ 32 /\ cnum b <> dummy /\ u64_fits (cleft b) /\ u64_fits (crecords b) /\
  Forall chunk_fits (cchunks b) /\ zlen (cchunks b) < 2 ^ 31.
Definition cref_ranges (limit : Z) (r : cref) : Prop :=
  Forall (cbin_ranges (u32 (limit + 1))) (cbins r) /\ zlen (cbins r) <= limit /\ limit + 1 < 2 ^ 32 /\ zlen (cbins r) + 1 < 2 ^ 31 /\
  match cstats r with Some s => stats_fits s | None => True end.
Definition csi_ranges (ix : cindex) : Prop :=
  (c_ver ix = 1 \/ c_ver ix = 2) /\
  0 <= c_ms ix /\ 0 <= c_dp ix < 10 /\ c_ms ix + 3 * c_dp ix < 64 /\
  zlen (c_aux ix) < 2 ^ 31 /\
  Forall (cref_ranges (cs_bin_limit (c_dp ix))) (c_refs ix) /\ zlen (c_refs ix) < 2 ^ 31 /\
  match c_unm ix with Some u => u64_fits u | None => True end.

Lemma csi_ranges_fits ix : c_sorted ix = false -> csi_ranges ix -> csi_fits (cs_sort ix).
Proof.
  intros Hs (Hv & Hms & Hdp & Hg & Ha & Hr & Hl & Hu). unfold cs_sort. rewrite Hs. unfold csi_fits. cbn [c_ver c_ms c_dp c_aux c_refs c_unm].
  repeat (split; [assumption|]). split; [|split; [unfold zlen in *; rewrite map_length; exact Hl|exact Hu]].
  apply Forall_map. eapply Forall_impl; [|exact Hr]. intros r (A & B & B32 & C & D).
  unfold cref_fits, cs_sort_ref. cbn [cbins cstats]. split; [|split; [|split; [exact B32|split; [|split]]]].
  - apply Forall_isort, Forall_map. eapply Forall_impl; [|exact A]. intros b (A1 & A2 & A3 & A4 & A5 & A6).
    unfold cbin_fits, cs_sort_bin. cbn [cnum cleft crecords cchunks]. repeat (split; [assumption|]).
    split; [apply Forall_isort; exact A5|]. split; [unfold zlen in *; rewrite ix_isort_length; exact A6|apply ix_isort_sorted].
  - unfold zlen in *. rewrite ix_isort_length, map_length. exact B.
  - unfold zlen in *. rewrite ix_isort_length, map_length. exact C.
  - apply ix_isort_sorted.
  - exact D.
Qed.

Theorem cs_reread_ok ix :
  csi_fits (cs_sort ix) ->
  csi_read (fst (csi_write ix)) = Ok (Some (cs_reread ix)) /\
  fst (csi_write (cs_reread ix)) = fst (csi_write ix) /\
  (forall rid beg end_, fst (cs_chunks (cs_reread ix) rid beg end_) = fst (cs_chunks ix rid beg end_)) /\
  cs_numrefs (cs_reread ix) = cs_numrefs ix /\ c_unm (cs_reread ix) = c_unm ix /\
  (forall rid, cs_refstats (cs_reread ix) rid = cs_refstats ix rid).
Proof.
  intros H. split; [apply csi_read_write; exact H|]. split; [apply csi_write_read_write|].
  split; [intros; apply cs_reread_chunks|apply cs_reread_stats].
Qed.

Lemma csi_built_fits ms dp aux ver rs ix :
  cs_fold_add (mkCsi aux ver [] None ms dp false 0) rs = Ok ix -> csi_ranges ix -> csi_fits (cs_sort ix).
Proof. intros F. apply csi_ranges_fits. exact (cs_fold_unsorted rs (mkCsi aux ver [] None ms dp false 0) ix eq_refl F). Qed.
