(** BAI after WriteIndex and ReadIndex: what comes back, and that it answers
    and reports like the index that was written. *)
From Coq Require Import ZArith List Bool.
From Hts Require Import Base.Prim Model.Index Model.IndexIO
  Proofs.Index Proofs.IndexStats Proofs.IndexIOFull.
Open Scope Z_scope.

(** What [bam.ReadIndex] returns for what [bam.WriteIndex] wrote. *)
Definition bai_reread (ix : index) : index := mkIdx (irefs (ix_sort ix)) (iunm ix) true io_maxint.

Theorem bai_reread_ok ix :
  idx_fits (ix_sort ix) ->
  bai_read (fst (bai_write ix)) = Ok (Some (bai_reread ix)) /\
  fst (bai_write (bai_reread ix)) = fst (bai_write ix) /\
  (forall rid beg end_, fst (ix_chunks (bai_reread ix) rid beg end_) = fst (ix_chunks ix rid beg end_)) /\
  ix_numrefs (bai_reread ix) = ix_numrefs ix /\ iunm (bai_reread ix) = iunm ix /\
  (forall rid, ix_refstats (bai_reread ix) rid = ix_refstats ix rid).
Proof.
  intros H. split; [apply bai_read_write; exact H|]. split; [apply bai_write_read_write|]. split.
  - intros. apply chunks_of_sorted_copy; reflexivity.
  - apply stats_of_sorted_copy; reflexivity.
Qed.

(** An index built by Add alone has never been sorted, so the writer's own
    sort puts it in order and the field ranges are all that has to be assumed. *)
Lemma built_fits rs ix : ix_fold_add ix_empty rs = Ok ix -> idx_ranges ix -> idx_fits (ix_sort ix).
Proof. intros F. apply ranges_fits_sorted. exact (fold_add_unsorted rs ix_empty ix eq_refl F). Qed.
