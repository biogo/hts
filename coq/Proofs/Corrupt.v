(** C10 — whole members read back, a member cut short is an error ([cut_units]), a wrong trailer is rejected. *)
From Coq Require Import ZArith List Bool Lia.
From Hts Require Import Base.Prim Base.WrList Generated Model.Corrupt.
Import ListNotations.
Open Scope Z_scope.

Lemma firstn_app_ge : forall A (a b : list A) n, (length a <= n)%nat -> firstn n (a ++ b) = a ++ firstn (n - length a) b.
Proof. intros. rewrite firstn_app. rewrite firstn_all2 by lia. reflexivity. Qed.
Lemma firstn_app_lt : forall A (a b : list A) n, (n <= length a)%nat -> firstn n (a ++ b) = firstn n a.
Proof. intros. rewrite firstn_app. replace (n - length a)%nat with 0%nat by lia. simpl. apply app_nil_r. Qed.

(** A reader of concatenated units on a cut stream.  [rd fuel bs] reads units off [bs] until the bytes end
    ([true]) or something is wrong ([false]); [enc u] is the encoding of the unit [u], [out us] what reading
    all of [us] delivers.  If a whole unit reads as itself and a unit cut short is an error, the first [m]
    bytes of a stream yield the units wholly before the cut, and end cleanly only at a unit boundary. *)
Section Units.
Variables (U R : Type) (enc : U -> list Z) (good : U -> Prop) (rd : nat -> list Z -> R * bool).
Variables (out : list U -> R) (add : U -> R -> R).
Hypothesis out_cons : forall u us, out (u :: us) = add u (out us).
Hypothesis rd_end : forall f, rd (S f) [] = (out [], true).
Hypothesis rd_unit : forall f u rest, good u -> rd (S f) (enc u ++ rest) = let '(r, ok) := rd f rest in (add u r, ok).
Hypothesis rd_cut : forall f u m, good u -> (0 < m < length (enc u))%nat -> rd (S f) (firstn m (enc u)) = (out [], false).

Lemma cut_units : forall us (m fuel : nat), Forall good us -> (length us < fuel)%nat ->
  exists j, (j <= length us)%nat /\
    fst (rd fuel (firstn m (concat (map enc us)))) = out (firstn j us) /\
    (length (concat (map enc (firstn j us))) <= m)%nat /\
    (snd (rd fuel (firstn m (concat (map enc us)))) = true ->
       (m <= length (concat (map enc us)))%nat -> m = length (concat (map enc (firstn j us)))).
Proof.
  induction us as [|u us IH]; intros m fuel G F; (destruct fuel as [|fuel]; [cbn in F; lia|]).
  - exists 0%nat. cbn. rewrite firstn_nil, rd_end. cbn. repeat split; auto; lia.
  - inversion G as [|? ? Gu Gus]; subst. cbn [map concat].
    destruct (Nat.leb (length (enc u)) m) eqn:E.
    + (* [u] lies before the cut *)
      apply Nat.leb_le in E. rewrite firstn_app_ge by exact E. rewrite rd_unit by exact Gu.
      destruct (IH (m - length (enc u))%nat fuel Gus ltac:(cbn in F; lia)) as [j [Hj [Hd [Hle Hok]]]].
      exists (S j). cbn [firstn map concat].
      destruct (rd fuel _) as [r ok]. cbn [fst snd length] in *. rewrite !app_length, out_cons, Hd.
      repeat split; try lia. intros Ho Hn. specialize (Hok Ho). lia.
    + apply Nat.leb_gt in E. rewrite firstn_app_lt by lia. exists 0%nat. cbn [firstn map concat length].
      destruct m as [|m]; [cbn [firstn]; rewrite rd_end | rewrite rd_cut by (exact Gu || lia)];
        cbn [fst snd]; repeat split; auto; lia || discriminate.
Qed.
End Units.

Section Laws.
Variable inflate : list Z -> option (list Z * list Z).
Variable crc32 : list Z -> Z.
Variable deflate : list Z -> list Z.
(** The law about DEFLATE that the theorems use: a complete deflate stream is
    decoded to its data whatever follows it, and the decoder stops exactly at
    its end. *)
Hypothesis inflate_deflate : forall d r, inflate (deflate d ++ r) = Some (d, r).

Definition le32b (x : Z) : list Z := [x mod 256; (x / 256) mod 256; (x / 65536) mod 256; (x / 16777216) mod 256].

Lemma le32_le32b : forall x, 0 <= x < 4294967296 -> le32 (le32b x) = x.
Proof. intros x H. unfold le32, le32b. Z.div_mod_to_equations. lia. Qed.

(** A BGZF member as bgzf.Writer produces it (FLG = FEXTRA, one BC subfield). *)
Definition trailer (d : list Z) : list Z := le32b (crc32 d) ++ le32b (zlen d).
Definition body (d : list Z) : list Z := deflate d ++ trailer d.
Definition bsize (d : list Z) : Z := 18 + zlen (body d) - 1.
Definition header (d : list Z) : list Z :=
  [31; 139; 8; 4; 0; 0; 0; 0; 0; 255; 6; 0; 66; 67; 2; 0; bsize d mod 256; bsize d / 256].
Definition mk_member (d : list Z) : list Z := header d ++ body d.

(** Well-formed data block: what the Writer guarantees (size limits) and the range of CRC-32. *)
Definition wf (d : list Z) : Prop :=
  0 <= crc32 d < 4294967296 /\ zlen d <= bgzf_MaxBlockSize /\ bsize d < 65536.

Lemma body_len : forall d, 8 <= zlen (body d).
Proof. intros d. unfold body. rewrite zlen_app'. change (zlen (trailer d)) with 8. pose proof (zlen_nonneg (deflate d)). lia. Qed.

Lemma header_len : forall d, length (header d) = 18%nat.
Proof. reflexivity. Qed.

Lemma member_len : forall d, zlen (mk_member d) = 18 + zlen (body d).
Proof. intros. unfold mk_member. rewrite zlen_app'. reflexivity. Qed.

Lemma bsize_bytes : forall d, wf d -> le16 (bsize d mod 256) (bsize d / 256) + 1 - 18 = zlen (body d).
Proof. intros d [_ [_ Hb]]. pose proof (body_len d). unfold le16, bsize in *. Z.div_mod_to_equations. lia. Qed.

Lemma gz_header_member : forall d rest,
  gz_header crc32 (mk_member d ++ rest) = ROk ([66; 67; 2; 0; bsize d mod 256; bsize d / 256], body d ++ rest).
Proof. intros d rest. unfold mk_member, header. rewrite <- app_assoc. reflexivity. Qed.

(** readMember over an 18-byte BGZF header with arbitrary BSIZE bytes [lo], [hi]:
    all that is left to decide is how the announced size compares with what follows. *)
Lemma read_member_sized : forall strict lo hi bdy,
  read_member inflate crc32 strict ([31; 139; 8; 4; 0; 0; 0; 0; 0; 255; 6; 0; 66; 67; 2; 0; lo; hi] ++ bdy) =
  let need := le16 lo hi + 1 - 18 in
  if need =? 0 then (if strict then RErr else REof)
  else if need <? 0 then RErr
  else if zlen bdy =? 0 then (if strict then RErr else REof)
  else if zlen bdy <? need then RErr
  else match gz_body inflate crc32 (S (length (firstn (Z.to_nat need) bdy))) (firstn (Z.to_nat need) bdy) [] with
       | Some data => ROk (data, skipn (Z.to_nat need) bdy)
       | None => RErr
       end.
Proof.
  intros strict lo hi bdy. unfold read_member.
  change (gz_header crc32 (_ ++ bdy)) with (@ROk (list Z * list Z) ([66; 67; 2; 0; lo; hi], bdy)).
  cbn [member_size]. cbv beta iota zeta. rewrite zlen_app'.
  replace (zlen [31; 139; 8; 4; 0; 0; 0; 0; 0; 255; 6; 0; 66; 67; 2; 0; lo; hi] + zlen bdy - zlen bdy) with 18 by (change (zlen [31; 139; 8; 4; 0; 0; 0; 0; 0; 255; 6; 0; 66; 67; 2; 0; lo; hi]) with 18; lia).
  reflexivity.
Qed.

(** One step of the gzip layer over a whole member body followed by [rest]. *)
Lemma gz_body_unfold : forall d f rest acc, wf d ->
  gz_body inflate crc32 (S f) (body d ++ rest) acc =
  if bgzf_MaxBlockSize <? zlen (acc ++ d) then None
  else match rest with
       | [] => Some (acc ++ d)
       | _ => match gz_header crc32 rest with
              | ROk (_, body2) => gz_body inflate crc32 f body2 (acc ++ d)
              | _ => None
              end
       end.
Proof.
  intros d f rest acc [Hc [Hl Hb]]. assert (Hz := zlen_nonneg d). unfold bgzf_MaxBlockSize in Hl.
  unfold body, trailer. rewrite <- !app_assoc. cbn [gz_body]. rewrite inflate_deflate.
  unfold le32b. cbn [app]. cbv iota beta. fold (le32b (crc32 d)). fold (le32b (zlen d)).
  rewrite !le32_le32b by lia. rewrite (Z.mod_small (zlen d)) by lia. rewrite !Z.eqb_refl. reflexivity.
Qed.

Lemma gz_body_member : forall d fuel, wf d -> gz_body inflate crc32 (S fuel) (body d) [] = Some d.
Proof.
  intros d fuel W. rewrite <- (app_nil_r (body d)), gz_body_unfold by exact W. cbn [app].
  destruct W as [_ [Hl _]]. destruct (bgzf_MaxBlockSize <? zlen d) eqn:E; [apply Z.ltb_lt in E; lia | reflexivity].
Qed.

Lemma read_member_ok : forall strict d rest, wf d ->
  read_member inflate crc32 strict (mk_member d ++ rest) = ROk (d, rest).
Proof.
  intros strict d rest W. unfold mk_member. rewrite <- app_assoc. unfold header at 1. rewrite read_member_sized.
  cbv zeta. rewrite (bsize_bytes d W), zlen_app'. pose proof (body_len d). pose proof (zlen_nonneg rest).
  destruct (zlen (body d) =? 0) eqn:E1; [apply Z.eqb_eq in E1; lia|].
  destruct (zlen (body d) <? 0) eqn:E2; [apply Z.ltb_lt in E2; lia|].
  destruct (zlen (body d) + zlen rest =? 0) eqn:E3; [apply Z.eqb_eq in E3; lia|].
  destruct (zlen (body d) + zlen rest <? zlen (body d)) eqn:E4; [apply Z.ltb_lt in E4; lia|].
  rewrite firstn_zlen_app, skipn_zlen_app. rewrite gz_body_member by exact W. reflexivity.
Qed.

Definition stream (ds : list (list Z)) : list Z := concat (map mk_member ds).

Lemma stream_cons : forall d ds, stream (d :: ds) = mk_member d ++ stream ds.
Proof. reflexivity. Qed.
Lemma stream_app : forall a b, stream (a ++ b) = stream a ++ stream b.
Proof. intros. unfold stream. rewrite map_app, concat_app. reflexivity. Qed.

Lemma read_stream_full : forall strict ds fuel, Forall wf ds -> (length ds < fuel)%nat ->
  read_stream inflate crc32 strict fuel (stream ds) = (concat ds, true).
Proof.
  intros strict ds. induction ds as [|d ds IH]; intros fuel W F.
  - destruct fuel; [lia|]. reflexivity.
  - destruct fuel; [simpl in F; lia|]. inversion W; subst.
    rewrite stream_cons. cbn [read_stream].
    rewrite read_member_ok by assumption. rewrite IH; [reflexivity | assumption | simpl in F; lia].
Qed.

Lemma cut_header : forall d (n : nat), (0 < n < 18)%nat ->
  gz_header crc32 (firstn n (header d)) = RErr.
Proof.
  intros d n H. unfold header.
  do 18 (destruct n as [|n]; [try lia; reflexivity|]). lia.
Qed.

Lemma read_member_cut : forall d (n : nat), wf d -> (0 < n)%nat -> Z.of_nat n < zlen (mk_member d) ->
  read_member inflate crc32 true (firstn n (mk_member d)) = RErr.
Proof.
  intros d n W Hn Hl. rewrite member_len in Hl. pose proof (body_len d).
  unfold mk_member. destruct (Nat.ltb n 18) eqn:E.
  - apply Nat.ltb_lt in E. rewrite firstn_app_lt by (rewrite header_len; lia).
    unfold read_member. rewrite cut_header by lia. reflexivity.
  - apply Nat.ltb_ge in E. rewrite firstn_app_ge by (rewrite header_len; exact E). rewrite header_len.
    set (fb := firstn (n - 18) (body d)).
    assert (Hfb : zlen fb = Z.of_nat n - 18).
    { unfold fb, zlen. rewrite firstn_length_le; [lia|]. unfold zlen in Hl. lia. }
    unfold header. rewrite read_member_sized. cbv zeta. rewrite (bsize_bytes d W), Hfb.
    destruct (zlen (body d) =? 0) eqn:E1; [apply Z.eqb_eq in E1; lia|].
    destruct (zlen (body d) <? 0) eqn:E2; [apply Z.ltb_lt in E2; lia|].
    destruct (Z.of_nat n - 18 =? 0); [reflexivity|].
    destruct (Z.of_nat n - 18 <? zlen (body d)) eqn:E4; [reflexivity | apply Z.ltb_ge in E4; lia].
Qed.

Lemma truncation_gen : forall ds (n : nat) fuel, Forall wf ds -> (length ds < fuel)%nat ->
  exists j, (j <= length ds)%nat /\
    fst (read_stream inflate crc32 true fuel (firstn n (stream ds))) = concat (firstn j ds) /\
    (length (stream (firstn j ds)) <= n)%nat /\
    (snd (read_stream inflate crc32 true fuel (firstn n (stream ds))) = true ->
       (n <= length (stream ds))%nat -> n = length (stream (firstn j ds))).
Proof.
  apply (cut_units _ _ mk_member wf (read_stream inflate crc32 true) (@concat Z) (@app Z)); intros; cbn [read_stream].
  - reflexivity.
  - reflexivity.
  - rewrite read_member_ok by assumption. reflexivity.
  - rewrite read_member_cut; [reflexivity | assumption | lia | unfold zlen; lia].
Qed.

Lemma gz_body_crc : forall f bdy acc out,
  gz_body inflate crc32 (S f) bdy acc = Some out ->
  exists d1 c0 c1 c2 c3 s0 s1 s2 s3 rest2,
    inflate bdy = Some (d1, c0 :: c1 :: c2 :: c3 :: s0 :: s1 :: s2 :: s3 :: rest2) /\
    le32 [c0; c1; c2; c3] = crc32 d1 /\ le32 [s0; s1; s2; s3] = zlen d1 mod 4294967296.
Proof.
  intros f bdy acc out H. cbn [gz_body] in H.
  destruct (inflate bdy) as [[d1 rest]|] eqn:I; [|discriminate].
  do 8 (destruct rest as [|? rest]; [discriminate|]).
  match type of H with (if negb (?a && ?b) then _ else _) = _ => destruct a eqn:A; destruct b eqn:B; try discriminate end.
  apply Z.eqb_eq in A. apply Z.eqb_eq in B.
  do 10 eexists. split; [reflexivity|]. split; assumption.
Qed.

Lemma le32b_le32 : forall a b c d, is_byte a = true -> is_byte b = true -> is_byte c = true -> is_byte d = true ->
  le32b (le32 [a; b; c; d]) = [a; b; c; d].
Proof.
  intros a b c d Ha Hb Hc Hd. unfold is_byte in *.
  apply andb_prop in Ha. apply andb_prop in Hb. apply andb_prop in Hc. apply andb_prop in Hd.
  destruct Ha as [A1 A2]. destruct Hb as [B1 B2]. destruct Hc as [C1 C2]. destruct Hd as [D1 D2].
  apply Z.leb_le in A1, B1, C1, D1. apply Z.ltb_lt in A2, B2, C2, D2.
  unfold le32b, le32. repeat f_equal; Z.div_mod_to_equations; lia.
Qed.

Lemma trailer_corruption : forall d f c0 c1 c2 c3 s0 s1 s2 s3, wf d ->
  all_bytes [c0; c1; c2; c3; s0; s1; s2; s3] = true ->
  [c0; c1; c2; c3; s0; s1; s2; s3] <> trailer d ->
  gz_body inflate crc32 (S f) (deflate d ++ [c0; c1; c2; c3; s0; s1; s2; s3]) [] = None.
Proof.
  intros d f c0 c1 c2 c3 s0 s1 s2 s3 [Hc [Hl Hb]] AB NE.
  cbn [gz_body]. rewrite inflate_deflate. cbv iota beta.
  destruct (le32 [c0; c1; c2; c3] =? crc32 d) eqn:A; [|reflexivity].
  destruct (le32 [s0; s1; s2; s3] =? zlen d mod 4294967296) eqn:B; [|reflexivity].
  exfalso. apply NE. apply Z.eqb_eq in A. apply Z.eqb_eq in B.
  assert (Hz := zlen_nonneg d). unfold bgzf_MaxBlockSize in Hl. rewrite Z.mod_small in B by lia.
  simpl in AB. repeat (apply andb_prop in AB; destruct AB as [? AB]).
  unfold trailer. rewrite <- A, <- B. rewrite !le32b_le32 by assumption. reflexivity.
Qed.

End Laws.
