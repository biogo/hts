(** C06 — ParseAux inverts samAux.String, for all eleven aux types
    (float values under the strconv law; integers by value). *)
From Coq Require Import ZArith List Bool Lia.
From Hts Require Import Base.Prim Model.SamText Model.SamSpec Proofs.SamBytes Proofs.SamFormat.
Import ListNotations.
Open Scope Z_scope.

Definition scalar (v : auxv) : Prop :=
  match v with AvA _ | AvInt _ _ | AvF _ | AvZ _ => True | _ => False end.

(** canonical form of an aux value after text: integers get the smallest type *)
Definition canon_val (v : auxv) : auxv :=
  match v with
  | AvInt _ n => match new_aux_int n with Some w => w | None => v end
  | _ => v
  end.
Definition aux_back (a : aux) : aux := mk_aux (a_t0 a) (a_t1 a) (canon_val (a_val a)).

Lemma new_aux_int_value : forall ty n, int_type_ok ty n ->
  exists ty', new_aux_int n = Some (AvInt ty' n) /\ int_type_ok ty' n.
Proof.
  intros ty n H. assert (R : - 2 ^ 31 <= n <= 2 ^ 32 - 1) by (unfold int_type_ok in H; lia).
  clear H. unfold new_aux_int, int_type_ok.
  destruct (Z.ltb_spec n 0).
  - destruct (Z.leb_spec (- 2 ^ 7) n); [exists 99; split; [reflexivity|lia]|].
    destruct (Z.leb_spec (- 2 ^ 15) n); [exists 115; split; [reflexivity|lia]|].
    destruct (Z.leb_spec (- 2 ^ 31) n); [exists 105; split; [reflexivity|lia]|lia].
  - destruct (Z.leb_spec n (2 ^ 8 - 1)); [exists 67; split; [reflexivity|lia]|].
    destruct (Z.leb_spec n (2 ^ 16 - 1)); [exists 83; split; [reflexivity|lia]|].
    destruct (Z.leb_spec n (2 ^ 32 - 1)); [exists 73; split; [reflexivity|lia]|lia].
Qed.

Lemma view_canon : forall v, view_val (canon_val v) = view_val v.
Proof.
  intros [c|ty n|b|s|b|ty vs|vs]; try reflexivity. cbn [canon_val].
  unfold new_aux_int.
  repeat match goal with |- context [if ?c then _ else _] => destruct c end; reflexivity.
Qed.

Lemma canon_ok : forall v, auxv_ok v -> auxv_ok (canon_val v).
Proof.
  intros [c|ty n|b|s|b|ty vs|vs] H; try exact H. cbn [canon_val auxv_ok] in *.
  destruct (new_aux_int_value ty n H) as (ty' & -> & H'). exact H'.
Qed.

Lemma parse_aux_text : forall parse_f32 t0 t1 ty txt,
    parse_aux parse_f32 (t0 :: t1 :: 58 :: ty :: 58 :: txt) =
      let mk v := Ok (mk_aux t0 t1 v) in
      let opt (o : option auxv) := match o with Some v => mk v | None => Err 0 end in
      if ty =? 65 then (if zlen txt =? 1 then mk (AvA (getz txt 0)) else Err 0)
      else if ty =? 105 then match go_atoi txt with Some i => opt (new_aux_int i) | None => Err 0 end
      else if ty =? 102 then opt (option_map AvF (parse_f32 txt))
      else if ty =? 90 then mk (AvZ txt)
      else if ty =? 72 then opt (option_map AvH (hex_decode txt))
      else if ty =? 66 then
        if zlen txt =? 0 then Err 0
        else if zlen txt =? 1 then opt (parse_b_elems parse_f32 (getz txt 0) [])
        else if negb (getz txt 1 =? 44) then Err 0
        else opt (parse_b_elems parse_f32 (getz txt 0) (split_on 44 (skipn 2 txt)))
      else Err 0.
Proof.
  intros. unfold parse_aux.
  replace (zlen (t0 :: t1 :: 58 :: ty :: 58 :: txt) <? 5) with false; [reflexivity|].
  symmetry. apply Z.ltb_ge. unfold zlen. cbn [length]. lia.
Qed.

Definition hex_text (b : list Z) : list Z :=
  flat_map (fun c => [hex_upper (c / 16); hex_upper (c mod 16)]) b.

Lemma hex_upper_facts : forall d, 0 <= d < 16 -> hex_nibble (hex_upper d) = Some d /\ hex_upper d <> 9.
Proof. apply (range_Forall _ 16). repeat constructor; discriminate. Qed.

Lemma hex_text_back : forall b, Forall (fun c => 0 <= c < 256) b ->
  hex_decode (hex_text b) = Some b /\ free 9 (hex_text b).
Proof.
  induction 1 as [|c b Hc Hb [IH1 IH2]]; [split; [reflexivity|apply free_nil]|].
  unfold hex_text in *. cbn [flat_map app hex_decode].
  destruct (div16_bounds c 16 Hc) as [Hh Hl].
  destruct (hex_upper_facts _ Hh) as [-> N1]. destruct (hex_upper_facts _ Hl) as [-> N2].
  rewrite IH1, !free_cons. repeat split; try assumption. do 2 f_equal. symmetry. apply Z.div_mod. lia.
Qed.

Lemma flat_map_sep : forall (fs : list (list Z)),
  flat_map (fun g => 44 :: g) fs = match fs with [] => [] | _ => 44 :: join 44 fs end.
Proof. intros [|f fs]; [reflexivity|]. rewrite join_cons. reflexivity. Qed.

Lemma flat_map_map_sep : forall {A} (g : A -> list Z) l,
  flat_map (fun n => 44 :: g n) l = flat_map (fun s => 44 :: s) (map g l).
Proof. intros A g l. induction l as [|x l IH]; [reflexivity|]. cbn. rewrite IH. reflexivity. Qed.

Lemma map_opt_back : forall {A} (f : list Z -> option A) (g : A -> list Z) l,
  Forall (fun x => f (g x) = Some x) l -> map_opt f (map g l) = Some l.
Proof.
  intros A f g l H. induction H as [|x l Hx Hl IH]; [reflexivity|].
  cbn [map map_opt]. rewrite Hx, IH. reflexivity.
Qed.

Lemma free_flat_sep : forall sep (fs : list (list Z)), sep <> 44 -> Forall (free sep) fs ->
  free sep (flat_map (fun g => 44 :: g) fs).
Proof.
  intros sep fs Hs H. induction H as [|f fs Hf Hfs IH]; [apply free_nil|].
  cbn [flat_map]. apply free_cons. split; [lia|]. apply free_app. split; assumption.
Qed.

Lemma parse_b_ints : forall parse_f32 ty vs, int_type ty -> Forall (int_type_ok ty) vs ->
  parse_b_elems parse_f32 ty (map print_Z vs) = Some (AvBI ty vs).
Proof.
  intros parse_f32 ty vs Ht Hv. unfold parse_b_elems.
  destruct Ht as [-> | [-> | [-> | [-> | [-> | ->]]]]]; cbn [Z.eqb Pos.eqb];
    rewrite map_opt_back; try reflexivity;
    (eapply Forall_impl; [|exact Hv]); intros v Hi; unfold int_type_ok in Hi;
    first [apply parse_int_print; [intros; apply parse_uint0_print; assumption|reflexivity|cbn; lia]
          | apply parse_uint0_print; lia].
Qed.

Lemma parse_b_text : forall parse_f32 t0 t1 sub (fs : list (list Z)),
  Forall (free 44) fs ->
  parse_aux parse_f32 (t0 :: t1 :: 58 :: 66 :: 58 :: sub :: flat_map (fun g => 44 :: g) fs) =
  match parse_b_elems parse_f32 sub fs with Some v => Ok (mk_aux t0 t1 v) | None => Err 0 end.
Proof.
  intros parse_f32 t0 t1 sub fs Hf. rewrite parse_aux_text, flat_map_sep. cbn [Z.eqb Pos.eqb].
  destruct fs as [|f fs]; [reflexivity|].
  rewrite (proj2 (Z.eqb_neq _ 0)), (proj2 (Z.eqb_neq _ 1)) by (unfold zlen; cbn [length]; lia).
  change (skipn 2 (sub :: 44 :: join 44 (f :: fs))) with (join 44 (f :: fs)).
  rewrite split_join by (auto; congruence). reflexivity.
Qed.

(** What is needed of the float text is asked of the float values that occur,
    so that the statement for scalars (no comma premise) and the one for all
    types both follow. *)
Lemma parse_aux_back : forall fmt_f32 parse_f32 a,
  auxv_ok (a_val a) ->
  match a_val a with
  | AvF b => parse_f32 (fmt_f32 b) = Some b
  | AvBF vs => Forall (fun x => parse_f32 (fmt_f32 x) = Some x /\ free 44 (fmt_f32 x)) vs
  | _ => True
  end ->
  parse_aux parse_f32 (spec_opt fmt_f32 ([a_t0 a; a_t1 a], view_val (a_val a))) = Ok (aux_back a).
Proof.
  intros fmt_f32 parse_f32 [t0 t1 v] Hok Hf. unfold spec_opt, aux_back. cbn [a_t0 a_t1 a_val fst snd] in *.
  destruct v as [c|ty n|b|s|b|ty vs|vs]; cbn [view_val spec_value app auxv_ok canon_val] in *.
  - rewrite parse_aux_text. reflexivity.
  - destruct (new_aux_int_value ty n Hok) as (ty' & Hn & _).
    rewrite parse_aux_text. cbn [Z.eqb Pos.eqb].
    rewrite atoi_print, Hn by (unfold int_type_ok in Hok; lia). reflexivity.
  - rewrite parse_aux_text. cbn [Z.eqb Pos.eqb]. rewrite Hf. reflexivity.
  - rewrite parse_aux_text. reflexivity.
  - rewrite parse_aux_text. cbn [Z.eqb Pos.eqb].
    fold (hex_text b). rewrite (proj1 (hex_text_back b Hok)). reflexivity.
  - destruct Hok as [Ht Hv].
    rewrite (flat_map_map_sep print_Z vs), parse_b_text; [rewrite parse_b_ints by assumption; reflexivity|].
    rewrite Forall_map. apply Forall_forall. intros x _. apply print_Z_free. lia.
  - rewrite (flat_map_map_sep fmt_f32 vs), parse_b_text.
    + unfold parse_b_elems. cbn [Z.eqb Pos.eqb]. rewrite map_opt_back; [reflexivity|].
      eapply Forall_impl; [|exact Hf]. intros x Hx. apply Hx.
    + rewrite Forall_map. eapply Forall_impl; [|exact Hf]. intros x Hx. apply Hx.
Qed.

Section AuxRoundtrip.
  Variable fmt_f32 : Z -> list Z.
  Variable parse_f32 : list Z -> option Z.
  (** the law of strconv on the float32 values that occur (NaN excluded) *)
  Variable f32_ok : Z -> Prop.
  Hypothesis f32_law : forall x, f32_ok x -> parse_f32 (fmt_f32 x) = Some x.

  Definition floats_ok (v : auxv) : Prop := match v with AvF b => f32_ok b | _ => True end.

  (** For every scalar aux field expressible in SAM text: ParseAux of the text
      samAux.String writes succeeds, keeps the tag, and yields the same value
      (integers by value: the text does not carry the width). *)
  Theorem aux_scalar_roundtrip : forall a,
    auxv_ok (a_val a) -> scalar (a_val a) -> floats_ok (a_val a) ->
    exists txt a', format_aux fmt_f32 a = Some txt /\ parse_aux parse_f32 txt = Ok a' /\
                   a_t0 a' = a_t0 a /\ a_t1 a' = a_t1 a /\ view_val (a_val a') = view_val (a_val a).
  Proof.
    intros a Hok Hs Hf. exists (spec_opt fmt_f32 ([a_t0 a; a_t1 a], view_val (a_val a))), (aux_back a).
    split; [apply format_aux_spec, Hok|]. split; [|repeat split; apply view_canon].
    apply parse_aux_back; [exact Hok|]. destruct (a_val a); try exact I; [apply f32_law, Hf|destruct Hs].
  Qed.
End AuxRoundtrip.

Section AuxAll.
  Variable fmt_f32 : Z -> list Z.
  Variable parse_f32 : list Z -> option Z.
  Variable f32_ok : Z -> Prop.
  Hypothesis f32_law : forall x, f32_ok x -> parse_f32 (fmt_f32 x) = Some x.
  Hypothesis f32_clean : forall x, f32_ok x -> free 9 (fmt_f32 x) /\ free 44 (fmt_f32 x).

  Definition floats_ok_all (v : auxv) : Prop :=
    match v with AvF b => f32_ok b | AvBF vs => Forall f32_ok vs | _ => True end.

  Theorem aux_roundtrip_all : forall a,
    auxv_ok (a_val a) -> floats_ok_all (a_val a) ->
    parse_aux parse_f32 (spec_opt fmt_f32 ([a_t0 a; a_t1 a], view_val (a_val a))) = Ok (aux_back a).
  Proof.
    intros a Hok Hf. apply parse_aux_back; [exact Hok|].
    destruct (a_val a); try exact I; [apply f32_law, Hf|].
    eapply Forall_impl; [|exact Hf]. intros x Hx. split; [apply f32_law|apply f32_clean]; exact Hx.
  Qed.

  Lemma aux_text_free : forall a, aux_ok a -> floats_ok_all (a_val a) ->
    free 9 (spec_opt fmt_f32 ([a_t0 a; a_t1 a], view_val (a_val a))).
  Proof.
    intros [t0 t1 v] (H0 & H1 & Hok) Hf. unfold spec_opt. cbn [a_t0 a_t1 a_val fst snd] in *.
    destruct v as [c|ty n|b|s|b|ty vs|vs];
      cbn [view_val spec_value app auxv_ok floats_ok_all] in *;
      repeat (apply free_cons; split; [lia|]).
    - apply free_nil.
    - apply print_Z_free. lia.
    - apply (f32_clean b Hf).
    - exact Hok.
    - apply hex_text_back, Hok.
    - destruct Hok as [Ht Hv]. apply free_cons. split.
      + destruct Ht as [-> | [-> | [-> | [-> | [-> | ->]]]]]; lia.
      + rewrite (flat_map_map_sep print_Z vs). apply free_flat_sep; [lia|].
        rewrite Forall_map. apply Forall_forall. intros x _. apply print_Z_free. lia.
    - rewrite (flat_map_map_sep fmt_f32 vs). apply free_flat_sep; [lia|].
      rewrite Forall_map. eapply Forall_impl; [|exact Hf]. intros x Hx. apply (f32_clean x Hx).
  Qed.
End AuxAll.
