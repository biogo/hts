(** C04 for tabix: the name table assigns dense ids by first appearance, so
    the index core sees a well-formed list and completeness is inherited. *)
From Coq Require Import ZArith Lia List Bool.
From Hts Require Import Base.Prim Generated Model.Index Model.Tabix Model.IndexSpec Proofs.Index
  Model.TabixSpec.
Open Scope Z_scope.

Fixpoint numbered (l : list tname) (i : Z) : list (tname * Z) :=
  match l with [] => [] | h :: t => (h, i) :: numbered t (i + 1) end.

Lemma lookup_numbered l i nm : tb_lookup (numbered l i) nm = tb_index_of nm l i.
Proof.
  revert i; induction l as [|h t IH]; intros i; simpl; [reflexivity|].
  destruct (tb_name_eqb h nm); [reflexivity|apply IH].
Qed.

Lemma numbered_snoc l x i : numbered (l ++ [x]) i = numbered l i ++ [(x, i + zlen l)].
Proof.
  revert i; induction l as [|h t IH]; intros i; simpl.
  - unfold zlen; simpl. f_equal. f_equal. lia.
  - rewrite IH. replace (i + 1 + zlen t) with (i + zlen (h :: t)) by (unfold zlen; simpl length; lia). reflexivity.
Qed.

Lemma binfor_total s e : exists b, internal_BinFor s e = Ok b.
Proof.
  unfold internal_BinFor.
  repeat match goal with |- context [if ?c then _ else _] => destruct c end; eexists; reflexivity.
Qed.

Lemma binfor_bin_of r : internal_BinFor (q_start r) (q_end r) = Ok (tb_bin_of r).
Proof. unfold tb_bin_of. destruct (binfor_total (q_start r) (q_end r)) as (b & ->). reflexivity. Qed.

Definition TInv (t : tbx) : Prop := t_map t = numbered (t_names t) 0.

(** [Add] with the name map in the form [TInv] keeps it: the step of the specification, then the core's Add. *)
Lemma tb_add_step t nm r :
  TInv t ->
  tb_add t nm r =
  let '(id, names) := tb_step (t_names t) nm in
  obind (ix_add (t_idx t) (mkRec id (q_start r) (q_end r) (tb_bin_of r) (q_cb r) (q_ce r) (q_placed r) (q_mapped r)))
        (fun ix => Ok (mkTbx names (numbered names 0) (t_hdr t) ix)).
Proof.
  intros I. unfold tb_add, tb_step. rewrite I, lookup_numbered, (binfor_bin_of r). cbn [obind].
  destruct (tb_index_of nm (t_names t) 0); [reflexivity|]. rewrite numbered_snoc. reflexivity.
Qed.

Lemma tb_sim nrs : forall t ix',
  TInv t -> ix_fold_add (t_idx t) (tb_assign (t_names t) nrs) = Ok ix' ->
  exists t', tb_fold_add t nrs = Ok t' /\ t_idx t' = ix' /\ TInv t' /\ t_names t' = tb_final (t_names t) nrs.
Proof.
  induction nrs as [|[nm r] rest IH]; intros t ix' I H.
  - simpl in H. inversion H; subst. exists t. simpl. auto.
  - cbn [tb_fold_add tb_final tb_assign] in *. rewrite (tb_add_step t nm r I).
    destruct (tb_step (t_names t) nm) as [id names]. cbn [ix_fold_add snd] in *.
    destruct (ix_add (t_idx t) _) as [ix1| | |]; try discriminate. apply (IH (mkTbx names _ (t_hdr t) ix1)); [reflexivity|exact H].
Qed.

(** The table only grows at the end, so an id once given stays. *)
Lemma index_of_app nm l m i k : tb_index_of nm l i = Some k -> tb_index_of nm (l ++ m) i = Some k.
Proof.
  revert i; induction l as [|h t IH]; intros i H; simpl in *; [discriminate|].
  destruct (tb_name_eqb h nm); [exact H|apply IH; exact H].
Qed.

Lemma final_extends nrs : forall tbl, exists ext, tb_final tbl nrs = tbl ++ ext.
Proof.
  induction nrs as [|[nm r] rest IH]; intros tbl; simpl.
  - exists []. rewrite app_nil_r. reflexivity.
  - unfold tb_step. destruct (tb_index_of nm tbl 0); simpl.
    + apply IH.
    + destruct (IH (tbl ++ [nm])) as (ext & ->). exists ([nm] ++ ext). rewrite app_assoc. reflexivity.
Qed.

Lemma name_eqb_refl nm : tb_name_eqb nm nm = true.
Proof. induction nm as [|x t IH]; simpl; [reflexivity|]. rewrite Z.eqb_refl. exact IH. Qed.

Lemma index_of_snoc_new nm l i : tb_index_of nm l i = None -> tb_index_of nm (l ++ [nm]) i = Some (i + zlen l).
Proof.
  revert i; induction l as [|h t IH]; intros i H; simpl in *.
  - rewrite name_eqb_refl. f_equal. unfold zlen; simpl; lia.
  - destruct (tb_name_eqb h nm); [discriminate|]. rewrite IH by exact H. f_equal. unfold zlen; simpl length; lia.
Qed.

Lemma tb_step_id tbl nm : tb_index_of nm (snd (tb_step tbl nm)) 0 = Some (fst (tb_step tbl nm)).
Proof.
  unfold tb_step. destruct (tb_index_of nm tbl 0) eqn:E; simpl; [exact E|]. apply index_of_snoc_new. exact E.
Qed.

Lemma assigned_id nrs : forall tbl nm r',
  In (nm, r') (combine (map fst nrs) (tb_assign tbl nrs)) ->
  tb_index_of nm (tb_final tbl nrs) 0 = Some (q_rid r').
Proof.
  induction nrs as [|[n0 r0] rest IH]; intros tbl nm r' Hin; simpl in Hin; [destruct Hin|].
  cbn [tb_final]. pose proof (tb_step_id tbl n0) as Hid. destruct (tb_step tbl n0) as [id tbl']. cbn [fst snd] in *.
  destruct Hin as [Heq|Hin]; [|apply IH; exact Hin].
  inversion Heq; subst. destruct (final_extends rest tbl') as (ext & ->). apply index_of_app. exact Hid.
Qed.

Lemma assign_bins_ok nrs : forall tbl, ix_bins_ok (tb_assign tbl nrs).
Proof.
  induction nrs as [|[nm r] rest IH]; intros tbl; simpl; [constructor|].
  destruct (tb_step tbl nm) as [id tbl']. constructor; [|apply IH].
  intros _. simpl. apply binfor_bin_of.
Qed.

Lemma in_combine_assign nrs : forall tbl r', In r' (tb_assign tbl nrs) ->
  exists nm, In (nm, r') (combine (map fst nrs) (tb_assign tbl nrs)).
Proof.
  induction nrs as [|[n0 r0] rest IH]; intros tbl r' Hin; simpl in *; [destruct Hin|].
  destruct (tb_step tbl n0) as [id tbl']. simpl in *. destruct Hin as [<-|Hin].
  - exists n0. left. reflexivity.
  - destruct (IH _ _ Hin) as (nm & H). exists nm. right. exact H.
Qed.

Lemma tabix_built hdr nrs :
  ix_wf (tb_assign [] nrs) ->
  exists t, tb_fold_add (tb_new hdr) nrs = Ok t /\ ix_fold_add ix_empty (tb_assign [] nrs) = Ok (t_idx t) /\
            QInv (t_idx t) (tb_assign [] nrs) /\ TInv t /\ t_names t = tb_final [] nrs.
Proof.
  intros W. destruct (bai_built _ W) as (ix & F & Q).
  destruct (tb_sim nrs (tb_new hdr) ix eq_refl F) as (t & Ft & <- & HI & Hn). exists t. auto.
Qed.

Lemma tb_chunks_fst t nm beg end_ :
  fst (tb_chunks t nm beg end_)
  = match tb_lookup (t_map t) nm with Some id => fst (ix_chunks (t_idx t) id beg end_) | None => Err 1 end.
Proof. unfold tb_chunks. destruct (tb_lookup _ _); [destruct (ix_chunks _ _ _ _)|]; reflexivity. Qed.

(** Completeness by name, for any tabix index whose name table is the final
    one of [nrs] and whose core satisfies the query invariant. *)
Theorem tabix_complete_in t nrs :
  ix_wf (tb_assign [] nrs) -> QInv (t_idx t) (tb_assign [] nrs) -> TInv t -> t_names t = tb_final [] nrs ->
  forall beg end_, 0 <= beg < end_ -> end_ <= 2 ^ 29 ->
  forall nm r', In (nm, r') (combine (map fst nrs) (tb_assign [] nrs)) -> ix_overlaps r' (q_rid r') beg end_ ->
    exists cs, fst (tb_chunks t nm beg end_) = Ok cs /\ ix_covers cs r'.
Proof.
  intros W Q HI Hn beg end_ Hq Hq2 nm r' Hin Ho.
  rewrite tb_chunks_fst, HI, lookup_numbered, Hn, (assigned_id nrs [] nm r' Hin).
  apply (complete_in _ _ W (assign_bins_ok nrs []) Q); try assumption. eapply in_combine_r; exact Hin.
Qed.

Theorem tabix_complete_gen :
  bai_bin_containment ->
  forall hdr nrs, ix_wf (tb_assign [] nrs) ->
  exists t, tb_fold_add (tb_new hdr) nrs = Ok t /\
    forall beg end_, 0 <= beg < end_ -> end_ <= 2 ^ 29 ->
    forall nm r', In (nm, r') (combine (map fst nrs) (tb_assign [] nrs)) ->
      ix_overlaps r' (q_rid r') beg end_ ->
      exists cs, fst (tb_chunks t nm beg end_) = Ok cs /\ ix_covers cs r'.
Proof.
  intros _ hdr nrs W. destruct (tabix_built hdr nrs W) as (t & Ft & _ & Q & HI & Hn).
  exists t. split; [exact Ft|]. exact (tabix_complete_in t nrs W Q HI Hn).
Qed.
