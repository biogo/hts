(** C09 — the writer under faults: invariant [inv], no reachable deadlock, the error reaches the caller. *)
From Coq Require Import ZArith List Bool Lia.
From Hts Require Import Base.Prim Base.WrList Model.FaultWriter.
Import ListNotations.
Open Scope Z_scope.
Local Opaque BS.

Lemma writer_variant_fixed : writer_variant = fixed_variant.
Proof. vm_compute. reflexivity. Qed.

Lemma writer_skeleton_conserves : skeleton_conserves writer_skel = true.
Proof. vm_compute. reflexivity. Qed.

Lemma all_paths_spec : forall b f ps, all_paths b f = true -> fn_paths b = Some ps -> forall p, In p ps -> f p = true.
Proof. unfold all_paths. intros b f ps H E. rewrite E in H. apply forallb_forall. exact H. Qed.

(* With [all_paths] transparent, unification of [writeOK_conserves k] with its body unfolds [all_paths]
   on the other side first and then walks through [sk_paths 64 _] on a variable. *)
Local Opaque all_paths.

(** What the boolean check means, for writeOK: every complete path (body
    followed by its defers) has exactly one qwg.Done, exactly one send on
    waiting, and the Done comes first. *)
Lemma writeOK_conserves_paths : forall k, writeOK_conserves k = true ->
  forall ps, fn_paths (sk_writeOK k) = Some ps ->
  forall p, In p ps ->
    count_ev (EDone qwgS) p = 1 /\ count_ev (ESend waitingS) p = 1 /\ before (EDone qwgS) (ESend waitingS) p = true.
Proof.
  intros k H ps Hps p Hin. apply (all_paths_spec _ _ _ H Hps) in Hin.
  apply andb_prop in Hin. destruct Hin as [H0 H3]. apply andb_prop in H0. destruct H0 as [H1 H2].
  apply Z.eqb_eq in H1. apply Z.eqb_eq in H2. auto.
Qed.

Lemma skeleton_writeOK : forall k, skeleton_conserves k = true -> writeOK_conserves k = true.
Proof. unfold skeleton_conserves. intros k H. do 6 (apply andb_prop in H; destruct H as [H _]). exact H. Qed.

Lemma writeOK_has_paths : exists ps, fn_paths (sk_writeOK writer_skel) = Some ps /\ ps <> [].
Proof. vm_compute. eexists. split; [reflexivity | discriminate]. Qed.

(* used instead of [injection], whose term repeats the two states it is applied to *)
Lemma some_inj : forall A (a b : A), Some a = Some b -> a = b.
Proof. intros A a b H. injection H. auto. Qed.

(* Compressors in a thread's hands.  The emitter's, with a qwg.Done owed until it has run ([edebt]); the
   caller's bg.active: none right after a send on queue, two in Flush between its receive and its send. *)
Definition eheld (s : st) : Z :=
  match em s with EFlush _ | EWrite _ _ _ | EFail1 _ _ | EFail2 _ _ | ERet _ _ _ => 1 | _ => 0 end.
Definition edebt (s : st) : Z :=
  match em s with EFlush _ | EWrite _ _ _ | EFail1 _ _ | EFail2 _ _ => 1 | _ => 0 end.
Definition aheld (s : st) : Z :=
  match pc s with AWRecv _ _ => 0 | AFEnq _ _ => 2 | ACRecv _ _ => 0 | _ => 1 end.

Definition noCP (l : list item) : Prop := forall it, In it l -> ist_ it <> ClosePend.
Definition emNoCP (s : st) : Prop := match em s with EFlush it => ist_ it <> ClosePend | _ => True end.

Definition cp_inv (s : st) : Prop :=
  match pc s with
  | ACRecv c0 _ | ACComp c0 _ =>
    (exists q it, queue s = q ++ [it] /\ noCP q /\ emNoCP s /\ ist_ it = ClosePend /\ cid it = c0)
    \/ (exists it, em s = EFlush it /\ ist_ it = ClosePend /\ cid it = c0 /\ queue s = [])
  | _ => noCP (queue s) /\ emNoCP s
  end.

(** API states from which a block may still be queued. *)
Definition open_pc (p : apc) : bool :=
  match p with AWLoop _ _ | AWRecv _ _ | AWErr _ _ | AFRecv | AFEnq _ _ | ACRecv _ _ | ACComp _ _ => true | _ => false end.
Definition closing_pc (p : apc) : bool :=
  match p with ACWg | ACMagic => true | _ => false end.

Record inv (c : cfg) (s : st) : Prop := {
  i_tok : zlen (waiting s) + zlen (queue s) + eheld s + aheld s = Z.of_nat (ncomp c);
  i_qwg : qwg s = zlen (queue s) + edebt s;
  i_cp : cp_inv s;
  i_exit : em s = EExit -> queue s = [] /\ qclosed s = true;
  i_qc : qclosed s = true -> closed s = true;
  i_open : open_pc (pc s) = true -> closed s = false;
  i_closing : closing_pc (pc s) = true -> qclosed s = true }.

Lemma zlen_map : forall A B (f : A -> B) l, zlen (map f l) = zlen l.
Proof. intros. unfold zlen. rewrite map_length. reflexivity. Qed.

Lemma qfull_false : forall c s, qfull c s = false -> zlen (queue s) < Z.of_nat (ncomp c).
Proof. intros c s H. unfold qfull in H. apply Nat.leb_gt in H. unfold zlen. lia. Qed.
Lemma qfull_true : forall c s, qfull c s = true -> Z.of_nat (ncomp c) <= zlen (queue s).
Proof. intros c s H. unfold qfull in H. apply Nat.leb_le in H. unfold zlen. lia. Qed.
Lemma wfull_true : forall c s, wfull c s = true -> Z.of_nat (ncomp c) <= zlen (waiting s).
Proof. intros c s H. unfold wfull in H. apply Nat.leb_le in H. unfold zlen. lia. Qed.

Local Opaque zlen.

(* [zlen_nil] is instantiated: with its type left open, [rewrite] takes a literal 0 for an instance of [zlen []] *)
#[local] Hint Rewrite @zlen_app' @zlen_map @zlen_cons (@zlen_nil item) (@zlen_nil (nat * Z)%type) : lens.

Lemma noCP_nil : noCP [].
Proof. intros it []. Qed.
Lemma noCP_app : forall a b, noCP a -> noCP b -> noCP (a ++ b).
Proof. unfold noCP. intros a b Ha Hb it Hin. apply in_app_or in Hin. destruct Hin; auto. Qed.
Lemma noCP_cons : forall x l, noCP (x :: l) <-> ist_ x <> ClosePend /\ noCP l.
Proof.
  unfold noCP. intros x l. split.
  - intros H. split; [apply H; left; reflexivity | intros it Hi; apply H; right; exact Hi].
  - intros [H1 H2] it [E | Hi]; [subst; exact H1 | auto].
Qed.

(** Marking (Pend -> Ready, or ClosePend of one compressor -> Ready) keeps the shape. *)
Definition keeps_cp (f : item -> item) : Prop :=
  forall it, cid (f it) = cid it /\ (ist_ it <> ClosePend -> ist_ (f it) <> ClosePend).

Lemma noCP_map : forall f l, keeps_cp f -> noCP l -> noCP (map f l).
Proof.
  unfold noCP. intros f l Hf H it Hin. apply in_map_iff in Hin. destruct Hin as [x [E Hx]]. subst.
  apply Hf. apply H. exact Hx.
Qed.

(** Close hands its compressor over through the queue: from queueing it to
    running writeBlock on it, [cp_inv] follows one ClosePend item. *)
Definition handover (p : apc) : option nat := match p with ACRecv c0 _ | ACComp c0 _ => Some c0 | _ => None end.

Definition cp_last (c0 : nat) (s : st) : Prop :=
  (exists q it, queue s = q ++ [it] /\ noCP q /\ emNoCP s /\ ist_ it = ClosePend /\ cid it = c0)
  \/ (exists it, em s = EFlush it /\ ist_ it = ClosePend /\ cid it = c0 /\ queue s = []).

Lemma cp_inv_eq : forall s, cp_inv s = match handover (pc s) with Some c0 => cp_last c0 s | None => noCP (queue s) /\ emNoCP s end.
Proof. intros s. unfold cp_inv. destruct (pc s); reflexivity. Qed.

Lemma cp_em : forall s s', cp_inv s -> pc s' = pc s -> queue s' = queue s -> emNoCP s -> emNoCP s' -> cp_inv s'.
Proof.
  intros s s' H P Q N N'. rewrite cp_inv_eq in *. unfold cp_last in *. rewrite P, Q. destruct (handover (pc s)).
  - destruct H as [[q [it [E [Hq [_ Hi]]]]] | [it [E [Hc _]]]].
    + left. exists q, it. exact (conj E (conj Hq (conj N' Hi))).
    + unfold emNoCP in N. rewrite E in N. contradiction.
  - split; [apply H | exact N'].
Qed.

Lemma cp_same : forall s s', cp_inv s -> handover (pc s') = handover (pc s) -> queue s' = queue s -> em s' = em s -> cp_inv s'.
Proof. intros s s' H P Q E. rewrite cp_inv_eq in *. unfold cp_last, emNoCP in *. rewrite P, Q, E. exact H. Qed.

Lemma cp_pop : forall s s' it, cp_inv s -> pc s' = pc s -> em s = EIdle -> queue s = it :: queue s' -> em s' = EFlush it -> cp_inv s'.
Proof.
  intros s s' it H P E Q E'. rewrite cp_inv_eq in *. unfold cp_last, emNoCP in *. rewrite P, E'. rewrite Q, E in H.
  destruct (handover (pc s)).
  - destruct H as [[[|x q] [cp [Eq [Hq [_ Hc]]]]] | [cp [? _]]]; [| |discriminate]; injection Eq as -> Eq.
    + right. exists cp. rewrite Eq. tauto.
    + apply noCP_cons in Hq. left. exists q, cp. tauto.
  - destruct H as [H _]. apply noCP_cons in H. exact (conj (proj2 H) (proj1 H)).
Qed.

Lemma cp_map : forall f s s', (forall it, ist_ it = ClosePend -> f it = it) -> keeps_cp f ->
  cp_inv s -> pc s' = pc s -> queue s' = map f (queue s) -> em s' = em s -> cp_inv s'.
Proof.
  intros f s s' F K H P Q E. rewrite cp_inv_eq in *. unfold cp_last, emNoCP in *. rewrite P, Q, E.
  destruct (handover (pc s)).
  - destruct H as [[q [cp [Eq [Hq Hc]]]] | [cp [? [? [? Eq]]]]]; rewrite Eq.
    + left. exists (map f q), cp. rewrite map_app. cbn [map]. rewrite (F cp) by apply Hc.
      split; [reflexivity|]. split; [apply noCP_map; assumption | exact Hc].
    + right. exists cp. auto.
  - split; [apply noCP_map; [exact K | apply H] | apply H].
Qed.

(* [H : step ... = Some s'] (or [= None]): one case for every way through the tests and matches of the step *)
Ltac destr H := repeat (match type of H with
  | (if ?b then _ else _) = _ => destruct b eqn:?
  | match ?x with _ => _ end = _ => destruct x eqn:?
  end; try discriminate); try discriminate.

Section Fixed.
Variable c : cfg.
Hypothesis Hv : vr c = fixed_variant.
Hypothesis HN : (2 <= ncomp c)%nat.

Lemma inv_init : forall sc, inv c (init c sc).
Proof.
  intros sc. constructor; simpl; try (intros; discriminate); try reflexivity.
  - unfold eheld, aheld. simpl.
    assert (L : forall n i, zlen (mkwaiting i n) = Z.of_nat n).
    { induction n; intros i; simpl mkwaiting. reflexivity. rewrite zlen_cons, IHn. lia. }
    rewrite L. rewrite zlen_nil. lia.
  - unfold cp_inv. simpl. split. intros it []. exact I.
Qed.

Lemma inv_bg : forall s s', inv c s -> pc s' = pc s -> closed s' = closed s -> qclosed s' = qclosed s ->
  zlen (waiting s') + zlen (queue s') + eheld s' = zlen (waiting s) + zlen (queue s) + eheld s ->
  qwg s' - zlen (queue s') - edebt s' = qwg s - zlen (queue s) - edebt s ->
  cp_inv s' -> (em s' = EExit -> queue s' = [] /\ qclosed s = true) -> inv c s'.
Proof.
  intros s s' [I1 I2 I3 I4 I5 I6 I7] P C Q T D CP X.
  constructor; unfold aheld in *; rewrite ?P, ?C, ?Q; auto; lia.
Qed.

Lemma inv_em : forall s s', inv c s -> pc s' = pc s -> closed s' = closed s -> qclosed s' = qclosed s -> queue s' = queue s ->
  zlen (waiting s') + eheld s' = zlen (waiting s) + eheld s -> qwg s' - edebt s' = qwg s - edebt s ->
  emNoCP s -> emNoCP s' -> em s' <> EExit -> inv c s'.
Proof.
  intros s s' Hi P C Q Qu T D N N' X. apply (inv_bg s); try assumption; rewrite ?Qu; try lia.
  - apply (cp_em s); auto. apply Hi.
  - intros E. contradiction.
Qed.

Lemma inv_emit : forall s s', inv c s -> step_emit c s = Some s' -> inv c s'.
Proof.
  intros [sc p r a an q w g e l cl qc hb wn wf wa] s' Hi H. unfold step_emit, under_write in H. rewrite Hv in H. cbn in H.
  destruct e; destr H; apply some_inj in H; subst s'.
  1: { (* queue closed and drained *)
    apply (inv_bg _ _ Hi); try reflexivity; [|split; reflexivity]. apply (cp_em _ _ (i_cp _ _ Hi)); reflexivity || exact I. }
  1: { apply (inv_bg _ _ Hi); try reflexivity; cbn; autorewrite with lens; try lia; [|discriminate]. apply (cp_pop _ _ i (i_cp _ _ Hi)); reflexivity. }
  all: apply (inv_em _ _ Hi); try reflexivity; cbn; autorewrite with lens; exact I || congruence || lia.
Qed.

Lemma inv_comp : forall s c0 s', inv c s -> step_comp s c0 = Some s' -> inv c s'.
Proof.
  intros [sc p r a an q w g e l cl qc hb wn wf wa] c0 s' Hi H. unfold step_comp in H. cbn in H.
  match type of H with context [map ?f q] => set (mark := f) in * end.
  assert (F : forall it, ist_ it = ClosePend -> mark it = it).
  { intros it E. unfold mark. rewrite E, andb_false_r. reflexivity. }
  assert (K : keeps_cp mark).
  { intros it. unfold mark. destruct (_ && _); cbn; split; auto; discriminate. }
  destruct (existsb _ q).
  - apply some_inj in H; subst s'. apply (inv_bg _ _ Hi); try reflexivity; cbn; autorewrite with lens; try reflexivity.
    + apply (cp_map mark _ _ F K (i_cp _ _ Hi)); reflexivity.
    + intros E. destruct (i_exit _ _ Hi E) as [Eq ?]. cbn in Eq. subst q. auto.
  - destruct e; try discriminate. destruct (_ && _) eqn:Hh; [|discriminate]. apply some_inj in H; subst s'.
    apply andb_prop in Hh. destruct Hh as [_ Hp].
    apply (inv_em _ _ Hi); try reflexivity; cbn; try discriminate.
    destruct (ist_ it); discriminate.
Qed.

Lemma inv_quiet : forall s s', inv c s ->
  (queue s', em s', qwg s', closed s', qclosed s') = (queue s, em s, qwg s, closed s, qclosed s) ->
  zlen (waiting s') + aheld s' = zlen (waiting s) + aheld s -> handover (pc s') = handover (pc s) ->
  negb (open_pc (pc s')) || open_pc (pc s) || negb (closed s) = true ->
  negb (closing_pc (pc s')) || closing_pc (pc s) = true -> inv c s'.
Proof.
  intros s s' [I1 I2 I3 I4 I5 I6 I7] E T P O C. injection E as Eq Ee Eg Ec Eqc.
  constructor; unfold eheld, edebt in *; rewrite ?Eq, ?Ee, ?Eg, ?Ec, ?Eqc; auto; try lia.
  - apply (cp_same s); assumption.
  - intros X. rewrite X in O. destruct (open_pc (pc s)); [auto | destruct (closed s); [discriminate | reflexivity]].
  - intros X. rewrite X in C. auto.
Qed.

(** bg.queue <- c; bg.qwg.Add(1) *)
Lemma inv_enq : forall s s' it, inv c s -> queue s' = queue s ++ [it] -> qwg s' = qwg s + 1 -> aheld s' = aheld s - 1 ->
  (waiting s', em s', closed s', qclosed s') = (waiting s, em s, closed s, qclosed s) ->
  open_pc (pc s) || negb (closed s) = true -> handover (pc s) = None ->
  handover (pc s') = match ist_ it with ClosePend => Some (cid it) | _ => None end ->
  closing_pc (pc s') = false -> inv c s'.
Proof.
  intros s s' it [I1 I2 I3 I4 I5 I6 I7] Q G A E O P P' C. injection E as Ew Ee Ec Eqc.
  assert (Cl : closed s = false) by (destruct (open_pc (pc s)); [auto | destruct (closed s); [discriminate | reflexivity]]).
  unfold eheld, edebt in I1, I2.
  constructor; unfold eheld, edebt; rewrite ?Q, ?G, ?A, ?Ew, ?Ee, ?Ec, ?Eqc, ?zlen_app', ?zlen_cons, ?(@zlen_nil item); auto; try lia.
  - rewrite cp_inv_eq in *. unfold cp_last, emNoCP in *. rewrite P in I3. rewrite P', Q, Ee. destruct I3 as [Nq Ne].
    destruct (ist_ it) eqn:Ei; [| |left; exists (queue s), it; auto];
      (split; [apply noCP_app; [exact Nq | apply noCP_cons; split; [congruence | apply noCP_nil]] | exact Ne]).
  - intros X. destruct (I4 X) as [_ B]. apply I5 in B. congruence.
  - intros X. congruence.
Qed.

(** Close runs writeBlock on its own compressor, then closes the queue. *)
Lemma inv_close_comp : forall s s' c0 nx f, inv c s -> pc s = ACComp c0 nx ->
  keeps_cp f -> (forall it, cid it = c0 -> ist_ (f it) <> ClosePend) ->
  queue s' = map f (queue s) -> em s' = match em s with EFlush it => EFlush (f it) | e => e end ->
  (waiting s', qwg s', pc s', closed s', qclosed s') = (waiting s, qwg s, ACWg, true, true) -> inv c s'.
Proof.
  intros s s' c0 nx f [I1 I2 I3 I4 I5 I6 I7] P K KC Q E R. injection R as Rw Rg Rp Rc Rq.
  unfold eheld, edebt, aheld in I1, I2. rewrite P in I1.
  constructor; unfold eheld, edebt, aheld; rewrite ?Q, ?E, ?Rw, ?Rg, ?Rp, ?Rc, ?Rq, ?zlen_map; auto; try discriminate.
  - destruct (em s); lia.
  - destruct (em s); lia.
  - rewrite cp_inv_eq in *. unfold cp_last, emNoCP in *. rewrite Rp, Q, E. rewrite P in I3. cbn [handover] in *.
    destruct I3 as [[q [cp [Eq [Hq [He [_ Hi]]]]]] | [cp [Ee [_ [Hi Eq]]]]]; rewrite Eq.
    + rewrite map_app. split; [apply noCP_app; [apply noCP_map; assumption | apply noCP_cons; split; [auto | apply noCP_nil]]|].
      destruct (em s); auto. apply K, He.
    + rewrite Ee. split; [apply noCP_nil | auto].
  - destruct (em s); try discriminate. intros _. destruct (I4 eq_refl) as [-> _]. auto.
Qed.

Lemma inv_api : forall s s', inv c s -> step_api c s = Some s' -> inv c s'.
Proof.
  intros [sc p r a an q w g e l cl qc hb wn wf wa] s' Hi H. unfold step_api, under_write in H. cbn in H.
  destruct p; destr H; apply some_inj in H; subst s'; try (apply (inv_quiet _ _ Hi); reflexivity).
  (* left: the three sends on queue (Close, Write, Flush), the three receives from waiting, and Close's writeBlock *)
  1, 2, 5: eapply (inv_enq _ _ _ Hi); reflexivity.
  1, 2, 3: apply (inv_quiet _ _ Hi); try reflexivity; cbn; autorewrite with lens; lia.
  match goal with |- context [map ?f q] => set (mark := f) end.
  apply (inv_close_comp _ _ c0 nx mark Hi); try (destruct e; reflexivity).
  - intros it. unfold mark. destruct (Nat.eqb _ _); [destruct (ist_ it) eqn:E|]; cbn; split; auto; try congruence; discriminate.
  - intros it E. unfold mark. rewrite E, Nat.eqb_refl. destruct (ist_ it) eqn:E2; cbn; try rewrite E2; discriminate.
Qed.

Lemma inv_step : forall s t s', inv c s -> step c s t = Some s' -> inv c s'.
Proof.
  intros s t s' Hi H. destruct t; cbn [step] in H; [eapply inv_api | eapply inv_emit | eapply inv_comp]; eassumption.
Qed.

Lemma inv_run : forall sched s, inv c s -> inv c (run c sched s).
Proof using Hv HN.
  induction sched as [|t r IH]; intros s Hi; simpl. exact Hi.
  apply IH. destruct (step c s t) eqn:E; [eapply inv_step; eauto | exact Hi].
Qed.

Lemma comp_moves : forall s c0, In c0 (pend_cids s) -> exists s', step_comp s c0 = Some s'.
Proof.
  intros s c0 Hin. unfold step_comp.
  set (hit := fun it : item => Nat.eqb (cid it) c0 && match ist_ it with Pend => true | _ => false end).
  assert (Hit : forall it, In c0 (match ist_ it with Pend => [cid it] | _ => [] end) -> hit it = true).
  { intros it Hc. unfold hit. destruct (ist_ it); try contradiction. destruct Hc as [<-|[]]. rewrite Nat.eqb_refl. reflexivity. }
  destruct (existsb hit (queue s)) eqn:Ex; [eexists; reflexivity|].
  unfold pend_cids in Hin. apply in_app_or in Hin. destruct Hin as [Hin | Hin].
  - apply in_flat_map in Hin. destruct Hin as [it [Hi Hc]].
    rewrite (proj2 (existsb_exists hit (queue s))) in Ex by (exists it; auto). discriminate.
  - destruct (em s); try contradiction. fold (hit it). rewrite (Hit it Hin). eexists; reflexivity.
Qed.

(** The emitter or a compressor goroutine can move whenever there is something
    for the emitter to do and room in [waiting] to hand the compressor back. *)
Lemma bg_moves : forall s, inv c s -> emNoCP s -> zlen (waiting s) < Z.of_nat (ncomp c) ->
  (0 < zlen (queue s) \/ eheld s = 1 \/ (qclosed s = true /\ em s <> EExit)) ->
  exists t s', step c s t = Some s'.
Proof.
  intros s Hi Hn Hw Hd. unfold emNoCP, eheld in *.
  destruct (em s) eqn:Eem.
  2: destruct (ist_ it) eqn:Ei; [|clear Hn|contradiction].
  2: { destruct (comp_moves s (cid it)) as [s' Hs]; [|exists (TComp (cid it)), s'; exact Hs].
       unfold pend_cids. rewrite Eem, Ei. apply in_or_app. right. left. reflexivity. }
  all: exists TEmit; cbn [step]; unfold step_emit, under_write; rewrite Eem, ?Hv; cbn.
  - destruct (queue s) eqn:Eq; [|eauto]. destruct Hd as [Hd | [Hd | [Hd _]]]. { autorewrite with lens in *. lia. } { lia. } { rewrite Hd. eauto. }
  - rewrite Ei. eauto.
  - destruct cerr; [eauto|]. destruct (latched s); [eauto|]. destruct (_ && _); eauto.
  - eauto.
  - eauto.
  - destruct (wfull c s) eqn:Ef; [apply wfull_true in Ef; lia | eauto].
  - destruct (i_exit _ _ Hi Eem) as [A B]. rewrite A in Hd. autorewrite with lens in *. destruct Hd as [Hd | [Hd | [_ Hd]]]; [lia | lia | contradiction].
Qed.

Lemma no_stuck : forall s, inv c s -> api_done s = false -> exists t s', step c s t = Some s'.
Proof.
  intros s Hi Hd. destruct (step_api c s) as [s'|] eqn:A; [exists TApi, s'; exact A|].
  (* the API thread is blocked: on a full queue (impossible: it holds a compressor), on an empty
     [waiting], in qwg.Wait or wg.Wait (then the emitter has work), or behind a compressor goroutine *)
  pose proof (i_tok _ _ Hi) as T. pose proof (i_qwg _ _ Hi) as G. pose proof (i_cp _ _ Hi) as CP.
  assert (HN' : 2 <= Z.of_nat (ncomp c)) by lia.
  assert (Hq0 := zlen_nonneg (queue s)). assert (Hw0 := zlen_nonneg (waiting s)).
  assert (EH : eheld s = 0 \/ eheld s = 1) by (unfold eheld; destruct (em s); auto).
  assert (ED : edebt s = 0 \/ (edebt s = 1 /\ eheld s = 1)) by (unfold edebt, eheld; destruct (em s); auto).
  unfold api_done in Hd. unfold aheld in T. rewrite cp_inv_eq in CP. unfold step_api, under_write in A.
  destruct (pc s) eqn:Epc; cbn [handover] in CP.
  13: { apply bg_moves; [exact Hi | apply CP | lia | right; right]. split; [apply (i_closing _ _ Hi); rewrite Epc; reflexivity|].
        intros E. rewrite E in A. discriminate. }
  all: destr A;
    try match goal with E : qfull _ _ = true |- _ => apply qfull_true in E; lia end;
    try match goal with E : waiting _ = [] |- _ => apply (f_equal (@zlen _)) in E; autorewrite with lens in * end.
  - destruct (comp_moves s n) as [s' Hs]; [|exists (TComp n), s'; exact Hs]. rewrite Heql0. left. reflexivity.
  - apply bg_moves; [exact Hi | apply CP | lia | lia].
  - apply bg_moves; [exact Hi | apply CP | lia | lia].
  - apply Z.eqb_neq in Heqb. apply bg_moves; [exact Hi | apply CP | lia | lia].
  - destruct CP as [[q [it [E [Hq [He _]]]]] | [it [E [_ [_ Hq]]]]].
    + apply bg_moves; [exact Hi | exact He | lia | lia].
    + unfold eheld in *. rewrite Hq, E in *. autorewrite with lens in *. lia.
Qed.

(** What the fault theorems rest on: a failed underlying write is latched, or the emitter stands between
    that write and setErr; a latched class is never nil; once [closed] is set, either Close still waits for
    the emitter or the emitter has returned; nothing was written after a failed write; Wait's return comes
    after qwg.Wait has seen 0. *)
Record finv (s : st) : Prop := {
  f_latched : 0 < wfailed s -> latched s = true \/ exists c0 nx, em s = EFail1 c0 nx;
  f_class : latch s <> Some 0;
  f_closed : closed s = true -> pc s = ACWg \/ em s = EExit;
  f_after : wafter s = 0;
  f_wait : pc s = ATRet -> qwg s = 0 }.

Lemma latched_set : forall l e, match set_latch l e with None => false | Some _ => true end = true.
Proof. intros [x|] e; reflexivity. Qed.

Lemma set_latch_class : forall l e, l <> Some 0 -> e <> 0 -> set_latch l e <> Some 0.
Proof. intros [y|] e H He; cbn; congruence. Qed.

Lemma finv_init : forall sc, finv (init c sc).
Proof. intros sc. constructor; cbn; intros; discriminate || reflexivity. Qed.

Lemma none_failed : forall s, finv s -> latched s = false -> (forall c0 nx, em s <> EFail1 c0 nx) -> (0 <? wfailed s) = false.
Proof.
  intros s F L E. apply Z.ltb_ge. destruct (Z_lt_le_dec 0 (wfailed s)) as [X|X]; [|exact X].
  destruct (f_latched _ F X) as [Y|[c1 [n1 Y]]]; [congruence | destruct (E _ _ Y)].
Qed.

Lemma finv_emit : forall s s', inv c s -> finv s -> step_emit c s = Some s' -> finv s'.
Proof.
  intros s s' Hi F H. pose proof (i_qwg _ _ (inv_emit _ _ Hi H)) as Q. pose proof (zlen_nonneg (queue s')) as Q0.
  clear Hi. revert F H Q Q0. destruct s as [sc p r a an q w g e l cl qc hb wn wf wa]. intros F H.
  pose proof (none_failed _ F) as NF. destruct F as [F1 F2 F3 F5 F6].
  unfold step_emit, under_write in H. rewrite Hv in H. unfold edebt, latched in *. cbn in *.
  destruct e; destr H; apply some_inj in H; subst s'; cbn; intros Q Q0; constructor; unfold latched; cbn.
  (* a failed write takes the emitter to EFail1, which it leaves by latching *)
  all: try (intros X; first [left; apply latched_set | right; eauto; fail | destruct (F1 ltac:(lia)) as [L|[? [? E]]]; [(left; assumption) || discriminate L | discriminate E]]).
  all: try (exact F2 || (apply set_latch_class; [exact F2 | discriminate])).
  (* the emitter has not exited *)
  all: try (intros X; destruct (F3 X) as [Y|Y]; [left; exact Y | discriminate Y]).
  (* it writes only with nothing latched, and then no write has failed *)
  all: try (exact F5 || (rewrite NF; [lia | reflexivity | discriminate])).
  (* qwg does not grow, and does not fall below 0 *)
  all: intros X; specialize (F6 X); lia.
Qed.

Lemma finv_comp : forall s c0 s', finv s -> step_comp s c0 = Some s' -> finv s'.
Proof.
  intros [sc p r a an q w g e l cl qc hb wn wf wa] c0 s' [F1 F2 F3 F5 F6] H. unfold step_comp in H. cbn in *.
  destr H; apply some_inj in H; subst s'; constructor; cbn; auto.
  - intros X. destruct (F1 X) as [L|[? [? E]]]; [left; exact L | discriminate E].
  - intros X. destruct (F3 X) as [Y|Y]; [left; exact Y | discriminate Y].
Qed.

Lemma finv_quiet : forall s s', finv s ->
  (latch s', wfailed s', wafter s', em s', closed s') = (latch s, wfailed s, wafter s, em s, closed s) ->
  match pc s with ACWg => false | _ => true end && match pc s' with ATRet => qwg s' =? 0 | _ => true end = true -> finv s'.
Proof.
  intros s s' [F1 F2 F3 F5 F6] E P. injection E as El Ef Ea Ee Ec. apply andb_prop in P. destruct P as [P P'].
  constructor; unfold latched in *; rewrite ?El, ?Ef, ?Ea, ?Ee, ?Ec; auto.
  - intros X. destruct (F3 X) as [Y|Y]; [rewrite Y in P; discriminate | right; exact Y].
  - intros X. rewrite X in P'. apply Z.eqb_eq, P'.
Qed.

Lemma magic_exit : forall s, inv c s -> finv s -> pc s = ACMagic -> em s = EExit.
Proof.
  intros s Hi F P. destruct (f_closed _ F) as [Y|Y]; [|congruence|exact Y].
  apply (i_qc _ _ Hi), (i_closing _ _ Hi). rewrite P. reflexivity.
Qed.

Lemma finv_api : forall s s', inv c s -> finv s -> step_api c s = Some s' -> finv s'.
Proof.
  intros s s' Hi F H. pose proof (magic_exit s Hi F) as EX. clear Hi. destruct s as [sc p r a an q w g e l cl qc hb wn wf wa].
  unfold step_api, under_write in H. cbn in H, EX.
  destruct p; destr H; apply some_inj in H; subst s'; try (apply (finv_quiet _ _ F); reflexivity || assumption);
    pose proof (none_failed _ F) as NF; destruct F as [F1 F2 F3 F5 F6]; unfold latched in *; cbn in *.
  - (* ACComp *) destruct e; constructor; cbn; auto; try discriminate.
    intros X. destruct (F1 X) as [L|[? [? E]]]; [left; exact L | discriminate E].
  - (* ACWg, emitter gone *) constructor; cbn; auto; discriminate.
  - (* ACMagic, the write of the EOF marker fails *) rewrite (EX eq_refl) in *. constructor; cbn; auto; try discriminate.
    + intros _. left. apply latched_set.
    + apply set_latch_class; [exact F2 | discriminate].
    + rewrite NF; [lia | assumption | discriminate].
  - (* ACMagic, the EOF marker is written *) rewrite (EX eq_refl) in *. constructor; cbn; auto; try discriminate.
    + intros X. destruct (F1 ltac:(lia)) as [L|[? [? E]]]; [congruence | discriminate E].
    + rewrite NF; [lia | assumption | discriminate].
Qed.

Lemma finv_step : forall s t s', inv c s -> finv s -> step c s t = Some s' -> finv s'.
Proof.
  intros s t s' Hi F H. destruct t; cbn [step] in H; [eapply finv_api | eapply finv_emit | eapply finv_comp]; eassumption.
Qed.

Definition good (s : st) : Prop := inv c s /\ finv s.

Lemma good_run : forall sched sc, good (run c sched (init c sc)).
Proof.
  intros sched sc. generalize (conj (inv_init sc) (finv_init sc) : good (init c sc)). generalize (init c sc).
  induction sched as [|t r IH]; intros s G; cbn [run]. exact G.
  apply IH. destruct (step c s t) eqn:E; [|exact G]. destruct G as [Hi F].
  split; [eapply inv_step | eapply finv_step]; eassumption.
Qed.

End Fixed.

Lemma closed_quiet : forall c s, good c s -> closed s = true -> pc s <> ACWg -> quiet s = true.
Proof.
  intros c s [Hi F] Hc Hp. destruct (f_closed _ F Hc) as [Y|Y]; [contradiction|].
  unfold quiet, pend_cids. rewrite Y. destruct (i_exit _ _ Hi Y) as [-> _]. reflexivity.
Qed.

Lemma latched_class : forall s, finv s -> latched s = true -> lclass (latch s) <> 0.
Proof. intros s F L. pose proof (f_class _ F). unfold latched in L. destruct (latch s); [cbn; congruence | discriminate]. Qed.

Lemma close_reports : forall c s s', good c s -> pc s = ACMagic -> step_api c s = Some s' ->
  exists cl, results s' = results s ++ [(cl, 0)] /\ (0 < wfailed s' \/ latched s = true -> cl <> 0).
Proof.
  intros c s s' [Hi F] Hp H. pose proof (magic_exit c s Hi F Hp) as Y.
  unfold step_api, under_write in H. rewrite Hp in H. cbv beta iota zeta in H.
  destruct (latched s) eqn:L; [|destruct (_ && _)]; apply some_inj in H; subst s'; (eexists; split; [reflexivity|]).
  - intros _. apply latched_class; assumption.
  - discriminate.
  - intros [X|X]; [|discriminate]. cbn in X. destruct (f_latched _ F ltac:(lia)) as [Z|[c1 [n1 Z]]]; congruence.
Qed.

Lemma wait_reports : forall c s s', good c s -> pc s = ATRet -> step_api c s = Some s' ->
  exists cl, results s' = results s ++ [(cl, 0)] /\ (0 < wfailed s -> cl <> 0).
Proof.
  intros c s s' [Hi F] Hp H. unfold step_api in H. rewrite Hp in H. apply some_inj in H; subst s'. eexists; split; [reflexivity|].
  intros X. destruct (f_latched _ F X) as [Z|[c1 [n1 Z]]]; [apply latched_class; assumption|].
  (* between a failed write and setErr the emitter still owes its qwg.Done *)
  pose proof (i_qwg _ _ Hi) as Q. unfold edebt in Q. rewrite Z, (f_wait _ F Hp) in Q. pose proof (zlen_nonneg (queue s)). lia.
Qed.

Lemma latched_calls_fail : forall c s s' o sc, good c s -> pc s = AIdle -> script s = o :: sc -> latched s = true ->
  match o with OWrite _ | OFlush | OWait => True | _ => False end ->
  step_api c s = Some s' -> exists cl n, results s' = results s ++ [(cl, n)] /\ cl <> 0.
Proof.
  intros c s s' o sc [Hi F] Hp Hs L Ho H. pose proof (latched_class _ F L) as NZ.
  unfold step_api in H. rewrite Hp, Hs, L in H.
  destruct o; try contradiction; try destruct (closed s); apply some_inj in H; subst s'; (do 2 eexists; split; [reflexivity|]); auto; discriminate.
Qed.

Lemma ncomp_ge2 : forall wc, (2 <= ncomp_of_wc wc)%nat.
Proof. intros. unfold ncomp_of_wc. lia. Qed.

Definition wcfg (wc k : Z) : cfg := {| ncomp := ncomp_of_wc wc; wk := k; vr := writer_variant |}.

Lemma wcfg_fixed : forall wc k, vr (wcfg wc k) = fixed_variant.
Proof. intros. apply writer_variant_fixed. Qed.

Lemma reach_good : forall wc k sc sched, good (wcfg wc k) (run (wcfg wc k) sched (init (wcfg wc k) sc)).
Proof. intros. apply good_run; [apply wcfg_fixed | apply ncomp_ge2]. Qed.

(** [orig_variant], the emitter that breaks out of its loop on the first
    failure: a reachable state in which Close is blocked and no thread can move. *)
Definition orig_cfg : cfg := {| ncomp := ncomp_of_wc 1; wk := 0; vr := orig_variant |}.
Definition orig_sched : list thread :=
  [TApi; TApi; TApi; TApi; TApi; TApi; TComp 0; TComp 1; TEmit; TEmit; TEmit; TEmit; TEmit; TEmit; TApi; TApi; TApi; TApi; TApi; TApi; TEmit; TEmit].
Definition orig_stuck_state : st := Eval vm_compute in run orig_cfg orig_sched (init orig_cfg [OWrite 195840; OClose]).

Lemma orig_stuck_state_eq : run orig_cfg orig_sched (init orig_cfg [OWrite 195840; OClose]) = orig_stuck_state.
Proof. vm_compute. reflexivity. Qed.

Lemma orig_stuck : api_done orig_stuck_state = false /\ forall t, step orig_cfg orig_stuck_state t = None.
Proof.
  split; [reflexivity|]. intros [| | c0]; [reflexivity | reflexivity |].
  (* no item is pending, whatever compressor is named *)
  unfold step, step_comp, orig_stuck_state. simpl. rewrite !andb_false_r. reflexivity.
Qed.
