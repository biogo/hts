(** C11 — proofs about the text decoder models (Model/DecText.v): CIGAR tables
    and accessors, ParseCigar, Header.UnmarshalText, sam.Reader.Read. *)
From Coq Require Import ZArith Lia List Bool.
From Hts Require Import Base.Prim Base.DecBase Generated Model.DecText Proofs.DecLemmas.
Open Scope Z_scope.

(** The translated look-ups clamp the operation type to the last table entry. *)
Lemma Consumes_safe ct : 0 <= ct -> safe (c11_Consumes ct).
Proof.
  intros H. unfold c11_Consumes. cbv zeta. apply post_inb; [|exact I].
  change (zlen c11_consume) with 11. destruct (Z.ltb_spec 10 ct); lia.
Qed.

Lemma OpString_safe ct : safe (c11_OpString ct).
Proof.
  unfold c11_OpString. cbv zeta. apply post_inb; [|exact I].
  change (zlen c11_cigarOps) with 11. destruct (Z.ltb_spec ct 0); [simpl; lia|]. destruct (Z.ltb_spec 10 ct); simpl; lia.
Qed.

Lemma op_type_nonneg co : 0 <= op_type co.
Proof. unfold op_type. apply Z.land_nonneg. right. lia. Qed.

Lemma op_Consumes_safe co : safe (c11_Consumes (op_type co)).
Proof. apply Consumes_safe, op_type_nonneg. Qed.

Lemma end_loop_safe c : forall pos e, safe (end_loop pos e c).
Proof.
  induction c as [|co t IH]; intros; simpl; [exact I|].
  apply (post_bind (op_Consumes_safe co)). intros con _. apply IH.
Qed.

Lemma record_end_safe um pos c : safe (record_end um pos c).
Proof. unfold record_end. destruct (um || (zlen c =? 0)); [exact I|apply end_loop_safe]. Qed.

Lemma lengths_loop_safe c : forall a b, safe (lengths_loop a b c).
Proof.
  induction c as [|co t IH]; intros; simpl; [exact I|].
  apply (post_bind (op_Consumes_safe co)). intros con _. apply IH.
Qed.

(** c[i-1] and c[i+1] are evaluated for an inner operation only. *)
Lemma is_valid_loop_safe c : forall rest i pos len,
  0 <= i -> i + zlen rest = zlen c -> safe (is_valid_loop c i pos len rest).
Proof.
  induction rest as [|co t IH]; intros i pos len Hi Hlen; simpl; [exact I|].
  rewrite zlen_cons in Hlen. pose proof (zlen_nonneg t) as Ht.
  destruct ((op_type co =? sam_CigarHardClipped) && _); [exact I|].
  apply (post_bind (Q := fun _ => True)).
  - destruct (op_type co =? sam_CigarSoftClipped); [|exact I].
    destruct (Z.eqb_spec i 0); [exact I|]. destruct (Z.eqb_spec i (zlen c - 1)); [exact I|].
    apply post_inb; [lia|].
    destruct (negb (op_type (getz c (i - 1)) =? sam_CigarHardClipped)); [|exact I].
    apply post_inb; [lia|exact I].
  - intros r _. destruct r; [exact I|].
    apply (post_bind (op_Consumes_safe co)). intros con _.
    destruct ((pos <? 0) && negb (fst con =? 0)); [exact I|]. apply IH; lia.
Qed.

Lemma cigar_is_valid_safe c len : safe (cigar_is_valid c len).
Proof. apply is_valid_loop_safe; lia. Qed.

Lemma powers_nonneg x : 0 <= x < 13 -> 0 <= getz c11_powers x.
Proof. intros H. apply Z.leb_le. exact (forallbi_getz (fun _ v => 0 <=? v) c11_powers 0 x eq_refl H). Qed.

(** atoi indexes powers[k-i] with k = len(b)-1 <= 12; its result is not negative. *)
Lemma atoi_loop_ok b : forall k i n,
  0 <= i -> i + zlen b = k + 1 -> k < 13 -> 0 <= n -> post (atoi_loop k i n b) (fun r => 0 <= r).
Proof.
  induction b as [|v t IH]; intros k i n Hi Hk Hlt Hn; simpl; [exact Hn|].
  rewrite zlen_cons in Hk. pose proof (zlen_nonneg t).
  apply post_inb; [change (zlen c11_powers) with 13; lia|].
  apply IH; try lia. pose proof (u8_range (v - 48)). pose proof (powers_nonneg (k - i) ltac:(lia)). nia.
Qed.

Lemma atoi_ok b : post (atoi b) (fun r => 0 <= r).
Proof.
  unfold atoi. change (zlen c11_powers) with 13. destruct (Z.ltb_spec 13 (zlen b)); [exact I|].
  apply atoi_loop_ok; lia.
Qed.

(** NewCigarOp's explicit panic is out of reach: every call passes min(n, 1<<28-1). *)
Lemma new_cigar_op_safe t n : 0 <= n <= maxOpLen -> safe (new_cigar_op t n).
Proof.
  unfold new_cigar_op, maxOpLen, u64, wrapu. intros H. rewrite Z.mod_small by lia.
  destruct (Z.ltb_spec (2 ^ 28 - 1) n); [lia|exact I].
Qed.

Lemma emit_ops_safe fuel : forall op n,
  0 <= n -> n / maxOpLen + 2 <= Z.of_nat fuel -> safe (emit_ops op n fuel).
Proof.
  induction fuel as [|f IH]; intros op n Hn Hf; [unfold maxOpLen in Hf; Z.div_mod_to_equations; lia|].
  cbn [emit_ops]. apply (post_bind (new_cigar_op_safe op (Z.min n maxOpLen) ltac:(unfold maxOpLen; lia))). intros co _.
  destruct (Z.leb_spec (n - maxOpLen) 0); [exact I|].
  apply (post_bind (IH op (n - maxOpLen) ltac:(lia) ltac:(unfold maxOpLen in *; Z.div_mod_to_equations; lia))). intros; exact I.
Qed.

Lemma span_digits_len b : forall d r, span_digits b = (d, r) -> (length r <= length b)%nat.
Proof.
  induction b as [|c t IH]; intros d r H; simpl in H; [injection H as <- <-; simpl; lia|].
  destruct (is_digit c); [|injection H as <- <-; simpl; lia].
  destruct (span_digits t) as [d' r']. injection H as <- <-. specialize (IH _ _ eq_refl). simpl. lia.
Qed.

(** Every round of ParseCigar's outer loop consumes the operation byte. *)
Lemma parse_cigar_loop_safe fuel : forall b, (length b < fuel)%nat -> safe (parse_cigar_loop b fuel).
Proof.
  induction fuel as [|f IH]; intros b Hb; [lia|].
  cbn [parse_cigar_loop]. destruct b as [|c0 t0] eqn:Eb; [exact I|]. rewrite <- Eb in *. clear Eb c0 t0.
  destruct (span_digits b) as [d r] eqn:E. apply span_digits_len in E.
  destruct r as [|opc r']; [exact I|].
  apply (post_bind (atoi_ok d)). intros n Hn.
  destruct (op_lookup opc =? sam_lastCigar); [exact I|].
  apply (post_bind (Q := fun _ => True)).
  { apply emit_ops_safe; [exact Hn|]. rewrite Nat2Z.inj_add, Z2Nat.id by (apply Z.div_pos; [exact Hn|reflexivity]). lia. }
  intros ops _. apply (post_bind (IH r' ltac:(simpl in E; lia))). intros; exact I.
Qed.

Lemma parse_cigar_safe b : safe (parse_cigar b).
Proof.
  unfold parse_cigar. destruct ((zlen b =? 1) && (getz b 0 =? 42)); [exact I|].
  apply parse_cigar_loop_safe. lia.
Qed.

Lemma field_head_safe f : safe (field_head f).
Proof.
  unfold field_head. destruct (Z.ltb_spec (zlen f) 3); [exact I|].
  apply post_inb; [lia|]. destruct (negb (getz f 2 =? 58)); [exact I|].
  apply post_slice; [lia|lia|]. apply post_slice; [lia|lia|exact I].
Qed.

Lemma hex_decode_safe fuel : forall src dstlen i,
  (length src < fuel)%nat -> 0 <= i -> i + zlen src / 2 <= dstlen -> safe (hex_decode dstlen i src fuel).
Proof.
  induction fuel as [|f IH]; intros src dstlen i Hf Hi Hd; [lia|].
  destruct src as [|p [|q rest]]; [exact I|exact I|].
  cbn [hex_decode]. destruct (hexval p); [|exact I]. destruct (hexval q); [|exact I].
  rewrite !zlen_cons in Hd. pose proof (zlen_nonneg rest).
  apply post_chk; [Z.div_mod_to_equations; lia|].
  apply (post_bind (IH rest dstlen (i + 1) ltac:(simpl in Hf; lia) ltac:(lia) ltac:(Z.div_mod_to_equations; lia))). intros; exact I.
Qed.

Lemma header_field_safe lib kind f : safe (header_field lib kind f).
Proof.
  unfold header_field. apply (post_bind (field_head_safe f)). intros [t v] _.
  destruct ((kind =? kSQ) && zeqb t tagM5); [|destruct (h_field lib kind t v); exact I].
  destruct (negb (h_field lib kind t v)); [exact I|].
  destruct (32 <? zlen v); [exact I|]. destruct (Z.ltb_spec 16 (zlen v / 2)); [exact I|].
  apply (post_bind (hex_decode_safe (S (length v)) v 16 0 ltac:(lia) ltac:(lia) ltac:(lia))).
  intros hb _. destruct (zlen hb =? 16); exact I.
Qed.

Lemma header_fields_safe lib kind fs : safe (header_fields lib kind fs).
Proof.
  induction fs as [|f t IH]; simpl; [exact I|].
  apply (post_bind (header_field_safe lib kind f)). intros; exact IH.
Qed.

Lemma tagged_line_safe lib kind minf l : 1 <= minf -> safe (tagged_line lib kind minf l).
Proof.
  intros Hm. unfold tagged_line. destruct (Z.ltb_spec (zlen (split_on 9 l)) minf); [exact I|].
  apply post_chk; [apply Z.leb_le; lia|].
  apply (post_bind (header_fields_safe lib kind _)). intros _ _. destruct (h_line lib kind (split_on 9 l)); exact I.
Qed.

Lemma comment_line_safe l : safe (comment_line l).
Proof.
  unfold comment_line. destruct (Z.ltb_spec (zlen (splitn2 9 l)) 2); [exact I|].
  apply post_inb; [lia|exact I].
Qed.

Lemma header_text_line_safe lib l0 : safe (header_text_line lib l0).
Proof.
  unfold header_text_line. apply (post_bind (Q := fun _ => True)).
  - destruct (Z.ltb_spec 0 (zlen l0)); [|exact I].
    apply post_inb; [lia|]. destruct (getz l0 (zlen l0 - 1) =? 13); [|exact I].
    apply post_slice; [lia|lia|exact I].
  - intros l _. destruct (Z.eqb_spec (zlen l) 0); [exact I|]. pose proof (zlen_nonneg l).
    apply post_inb; [lia|]. destruct (negb (getz l 0 =? 64)); [exact I|].
    destruct (Z.ltb_spec (zlen l) 3); [exact I|]. apply post_slice; [lia|lia|]. cbv zeta.
    destruct (zeqb (sub l 1 3) tagHD); [apply tagged_line_safe; lia|].
    destruct (zeqb (sub l 1 3) tagSQ); [apply tagged_line_safe; lia|].
    destruct (zeqb (sub l 1 3) tagRG); [apply tagged_line_safe; lia|].
    destruct (zeqb (sub l 1 3) tagPG); [apply tagged_line_safe; lia|].
    destruct (zeqb (sub l 1 3) tagCO); [apply comment_line_safe|exact I].
Qed.

Lemma header_text_lines_safe lib ls : safe (header_text_lines lib ls).
Proof.
  induction ls as [|l t IH]; simpl; [exact I|].
  apply (post_bind (header_text_line_safe lib l)). intros; exact IH.
Qed.

Lemma unmarshal_header_text_safe lib text : safe (unmarshal_header_text lib text).
Proof. apply header_text_lines_safe. Qed.

(** The guard in front of hex.Decode matters: without it an M5 value of 34 hex
    digits overruns the 16 byte array (the state of the code before the fix). *)
Lemma hex_decode_unguarded_panics :
  exists v, is_panic (hex_decode 16 0 v (S (length v))) = true.
Proof. exists (repeat 48 34). vm_compute. reflexivity. Qed.

Lemma sam_read_line_safe b eof : (eof = false -> 1 <= zlen b) -> safe (sam_read_line b eof).
Proof.
  intros H. unfold sam_read_line. apply (post_bind (Q := fun _ => True)).
  - destruct eof; [destruct (zlen b =? 0); exact I|].
    specialize (H eq_refl). apply post_slice; [lia|lia|exact I].
  - intros b1 _. apply (post_bind (Q := fun _ => True)); [|intros; exact I].
    destruct (Z.eqb_spec (zlen b1) 0); [exact I|]. pose proof (zlen_nonneg b1).
    apply post_inb; [lia|]. destruct (getz b1 (zlen b1 - 1) =? 13); [|exact I].
    apply post_slice; [lia|lia|exact I].
Qed.
