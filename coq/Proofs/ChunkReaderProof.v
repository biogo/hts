(** C13 — index.ChunkReader returns exactly the flat spans of its chunks, and
    every Read with a non-empty buffer makes [progress], so the stream ends.
    The reader runs in Blocked mode: all that is used of it is [seek_ok],
    [blocked_read] and the order of valid offsets ([off_where]). *)
From Coq Require Import ZArith List Bool Lia.
From Hts Require Import Base.Prim Model.Flat Model.Reader Model.ChunkReader
  Proofs.FlatLemmas Proofs.ReaderFlat.
Import ListNotations.
Open Scope Z_scope.

(** The client-visible situation: Blocked, no error, LastChunk().End is the
    current block's offset, and the current block sits on member [m]. *)
Record okst (F : file) (s : vstate) (pre : file) (m : member) (post : file) : Prop := {
  ok_split : split_at F pre m post;
  ok_on : on_member (v_cur s) m;
  ok_blocked : v_blocked s = true;
  ok_err : v_err s = eNil;
  ok_end : snd (v_lc s) = b_tx (v_cur s) }.
Arguments ok_split {F s pre m post}.
Arguments ok_on {F s pre m post}.

Definition qpos (pre : file) (s : vstate) : Z := total pre + b_pos (v_cur s).

Definition off_ok (F : file) (o : voff) : Prop := valid_off F (fst o) (snd o) = true.

Fixpoint sorted_from (F : file) (lo : Z) (cs : list chunk) : Prop :=
  match cs with
  | [] => True
  | c :: r => off_ok F (fst c) /\ off_ok F (snd c) /\ lo <= tr F (fst c) /\ tr F (fst c) <= tr F (snd c) /\
              sorted_from F (tr F (snd c)) r
  end.

Definition span (F : file) (c : chunk) : list Z :=
  ztake (tr F (snd c) - tr F (fst c)) (zdrop (tr F (fst c)) (flat_data F)).
Definition spans (F : file) (cs : list chunk) : list Z := concat (map (span F) cs).

(** Still owed at flat position [q] inside chunk [c0]. *)
Definition rem (F : file) (q : Z) (c0 : chunk) (rest : list chunk) : list Z :=
  ztake (tr F (snd c0) - q) (zdrop q (flat_data F)) ++ spans F rest.

Record cinv (F : file) (s : vstate) (pre : file) (m : member) (post : file) (c0 : chunk) (rest : list chunk) : Prop := {
  ci_ok : okst F s pre m post;
  ci_end_ok : off_ok F (snd c0);
  ci_le : qpos pre s <= tr F (snd c0);
  ci_sorted : sorted_from F (tr F (snd c0)) rest }.

Definition cr_post (F : file) (s' : vstate) (cs' : list chunk) (R : list Z) : Prop :=
  match cs' with
  | [] => False
  | c0' :: rest' => exists pre' m' post', cinv F s' pre' m' post' c0' rest' /\ R = rem F (qpos pre' s') c0' rest'
  end.

(** All reads but the last report no error; the last reports none or io.EOF,
    and io.EOF only when nothing is left ([tail] = []). *)
Fixpoint reads_ok (l : list (list Z * Z)) (tail : list Z) : Prop :=
  match l with
  | [] => True
  | [(_, e)] => e = eNil \/ (e = eEOF /\ tail = [])
  | (_, e) :: l' => e = eNil /\ reads_ok l' tail
  end.

Fixpoint sizes_ok (l : list (list Z * Z)) (bufs : list Z) : Prop :=
  match l, bufs with
  | [], _ => True
  | (bs, _) :: l', n :: bufs' => zlen bs <= n /\ sizes_ok l' bufs'
  | _ :: _, [] => False
  end.

(** Progress of one Read: a chunk was left behind, or bytes were returned, or
    the reader moved to a later block. *)
Definition progress (s : vstate) (cs : list chunk) (s' : vstate) (cs' : list chunk) (bs : list Z) : Prop :=
  (length cs' < length cs)%nat \/ (length cs' = length cs /\ (1 <= zlen bs \/ b_base (v_cur s) < b_base (v_cur s'))).

Lemma cinv_post {F s pre m post c0 rest} :
  cinv F s pre m post c0 rest -> cr_post F s (c0 :: rest) (rem F (qpos pre s) c0 rest).
Proof. intros Ci. exists pre, m, post. auto. Qed.

Lemma reads_ok_eof : forall l tail, reads_ok l tail -> snd (last l ([], 0)) = eEOF -> tail = [].
Proof.
  induction l as [|[bs e] l IH]; intros tail Hok Hl; [discriminate Hl|].
  destruct l as [|y l'].
  - simpl in *. destruct Hok as [->|[_ Ht]]; [discriminate|exact Ht].
  - destruct Hok as [_ Hok]. apply (IH tail Hok). exact Hl.
Qed.

Definition nafter (F : file) (x : Z) : nat := length (filter (fun m => x <? m_base m) F).

Lemma nafter_le (F : file) (x : Z) : (nafter F x <= length F)%nat.
Proof. unfold nafter. induction F as [|m F IH]; simpl; [lia|]. destruct (x <? m_base m); simpl; lia. Qed.

Lemma nafter_mono (F : file) (x x' : Z) : x <= x' -> (nafter F x' <= nafter F x)%nat.
Proof.
  intros H. unfold nafter. induction F as [|m F IH]; simpl; [lia|].
  destruct (Z.ltb_spec x' (m_base m)), (Z.ltb_spec x (m_base m)); simpl; lia.
Qed.

Lemma nafter_lt (F : file) (x : Z) (m' : member) : In m' F -> x < m_base m' -> (nafter F (m_base m') < nafter F x)%nat.
Proof.
  intros Hin Hlt. induction F as [|m F IH]; [contradiction|].
  pose proof (nafter_mono F x (m_base m') ltac:(lia)). unfold nafter in *. simpl.
  destruct (Z.ltb_spec (m_base m') (m_base m)), (Z.ltb_spec x (m_base m)); simpl; try lia;
    destruct Hin as [->|Hin]; try lia; specialize (IH Hin); lia.
Qed.

(** What [progress] decreases: chunks left, then bytes owed, then members after
    the current block, as one number; [B] bounds the bytes owed. *)
Definition weight (F : file) (B : Z) (s : vstate) (cs : list chunk) (R : list Z) : Z :=
  Z.of_nat (length cs) * ((B + 1) * (Z.of_nat (length F) + 1)) + zlen R * (Z.of_nat (length F) + 1)
  + Z.of_nat (nafter F (b_base (v_cur s))).

Lemma weight_bounds F B s cs R : zlen R <= B ->
  0 <= weight F B s cs R < (Z.of_nat (length cs) + 1) * ((B + 1) * (Z.of_nat (length F) + 1)).
Proof.
  intros HB. unfold weight. pose proof (zlen_nonneg R). pose proof (nafter_le F (b_base (v_cur s))). nia.
Qed.

Lemma weight_decreases (F : file) (B : Z) (s s' : vstate) (cs cs' : list chunk) (R' bs : list Z) :
  progress s cs s' cs' bs -> zlen (bs ++ R') <= B -> cr_post F s' cs' R' ->
  weight F B s' cs' R' < weight F B s cs (bs ++ R').
Proof.
  intros Hp HB Hpost. unfold progress in Hp. unfold weight. rewrite zlen_app in *. pose proof (zlen_nonneg R'). pose proof (zlen_nonneg bs).
  pose proof (weight_bounds F B s' [] R' ltac:(lia)) as Hw'. unfold weight in Hw'. simpl length in Hw'.
  assert (exists m', In m' F /\ b_base (v_cur s') = m_base m') as (m' & Hin & Hb).
  { destruct cs'; [contradiction|]. destruct Hpost as (pre & m' & post & [Ok _ _ _] & _). exists m'. split; [|apply (ok_on Ok)].
    destruct (ok_split Ok) as [-> _]. apply in_or_app. right. left. reflexivity. }
  rewrite Hb in *. clear Hpost.
  set (K := (B + 1) * (Z.of_nat (length F) + 1)) in *. set (N1 := Z.of_nat (length F) + 1) in *.
  assert (0 < N1) by (unfold N1; lia).
  destruct Hp as [Hl|[Hl [Hb1|Hmv]]].
  - assert (Z.of_nat (length cs') * K + K <= Z.of_nat (length cs) * K) by nia. nia.
  - rewrite Hl. pose proof (nafter_le F (b_base (v_cur s))). pose proof (nafter_le F (m_base m')). nia.
  - rewrite Hl. pose proof (nafter_lt F _ m' Hin Hmv). nia.
Qed.

(** want - cursor in Read. *)
Definition cr_lim (M : machine) (s : MS M) (c0 : chunk) : Z :=
  let last := m_lc M s in
  (if (snd (snd c0) =? 0) && (fst (snd last) <? fst (snd c0)) then m_blen M s else snd (snd c0))
  - (if fst (snd last) =? fst (snd c0) then snd (snd last) else 0).

(** The end of Read once the chunk is left: r.chunks = r.chunks[1:], then io.EOF or Seek. *)
Definition cr_next (M : machine) (s : MS M) (rest : list chunk) (bs : list Z) : outcome (MS M * list chunk * list Z * Z) :=
  match rest with
  | [] => Ok (s, [], bs, eEOF)
  | c' :: _ => match m_step M s (OSeek (fst (fst c')) (snd (fst c'))) with
               | Ok (s3, (_, e3)) => Ok (s3, rest, bs, e3)
               | Err e => Err e | Panic w => Panic w | Stuck => Stuck
               end
  end.

Lemma chunk_eqb_eq (a b : chunk) : chunk_eqb a b = true -> a = b.
Proof.
  destruct a as [[a1 a2] [a3 a4]], b as [[b1 b2] [b3 b4]]. unfold chunk_eqb. simpl. intros H.
  apply andb_prop in H as [H H4]. apply andb_prop in H as [H H3]. apply andb_prop in H as [H1 H2].
  apply Z.eqb_eq in H1, H2, H3, H4. congruence.
Qed.

Section ReadBranches.
Variable M : machine.
Variables (s s1 s2 : MS M) (cs rest : list chunk) (c0 : chunk) (n : Z) (bs : list Z) (err : Z).
Hypothesis Hsk : cr_skip M s cs = Ok (s1, c0 :: rest, eNil).
Hypothesis Hlim : 0 <= cr_lim M s1 c0.
Hypothesis Hrd : m_step M s1 (ORead (Z.min n (cr_lim M s1 c0))) = Ok (s2, (bs, err)).

Lemma cr_read_inner : cr_read M s cs n =
  if negb (err =? eNil) then Ok (s2, c0 :: rest, bs, if negb (zlen bs =? 0) && (err =? eEOF) then eNil else err)
  else if (negb (n =? 0) && chunk_eqb (m_lc M s2) (m_lc M s1)) || (voffset (snd c0) <=? voffset (snd (m_lc M s2)))
  then cr_next M s2 rest bs
  else Ok (s2, c0 :: rest, bs, eNil).
Proof.
  unfold cr_read. destruct cs; [discriminate Hsk|]. rewrite Hsk. cbn [negb Z.eqb eNil]. cbv zeta.
  fold (cr_lim M s1 c0). rewrite (proj2 (Z.ltb_ge _ _) Hlim), Hrd. reflexivity.
Qed.

Lemma cr_read_err : err <> eNil ->
  cr_read M s cs n = Ok (s2, c0 :: rest, bs, if negb (zlen bs =? 0) && (err =? eEOF) then eNil else err).
Proof. intros He. rewrite cr_read_inner, (proj2 (Z.eqb_neq _ _) He). reflexivity. Qed.

Lemma cr_read_stay : err = eNil -> (n <> 0 -> m_lc M s2 <> m_lc M s1) ->
  voffset (snd (m_lc M s2)) < voffset (snd c0) -> cr_read M s cs n = Ok (s2, c0 :: rest, bs, eNil).
Proof.
  intros He Hne Hlt. rewrite cr_read_inner, He, (proj2 (Z.leb_gt _ _) Hlt). cbn [negb Z.eqb eNil].
  destruct (Z.eqb_spec n 0) as [|Hn]; [reflexivity|].
  destruct (chunk_eqb (m_lc M s2) (m_lc M s1)) eqn:E; [|reflexivity].
  destruct (Hne Hn (chunk_eqb_eq _ _ E)).
Qed.

Lemma cr_read_done : err = eNil -> voffset (snd c0) <= voffset (snd (m_lc M s2)) ->
  cr_read M s cs n = cr_next M s2 rest bs.
Proof. intros He Hle. rewrite cr_read_inner, He, (proj2 (Z.leb_le _ _) Hle), orb_true_r. reflexivity. Qed.

End ReadBranches.
Arguments cr_read_err {M s s1 s2 cs rest c0 n bs err}.
Arguments cr_read_stay {M s s1 s2 cs rest c0 n bs err}.
Arguments cr_read_done {M s s1 s2 cs rest c0 n bs err}.

Lemma cr_read_eof {M : machine} {s s1 : MS M} {cs cs1 : list chunk} (n : Z) :
  cr_skip M s cs = Ok (s1, cs1, eEOF) -> cr_read M s cs n = Ok (s1, cs1, [], eEOF).
Proof.
  intros H. unfold cr_read. destruct cs; [simpl in H; congruence|]. rewrite H. reflexivity.
Qed.

Lemma before_nonneg (F : file) (f : Z) : 0 <= before F f.
Proof.
  induction F as [|m F IH]; simpl; [lia|]. pose proof (m_len_nonneg m).
  destruct (m_base m <? f); lia.
Qed.

Lemma split_order {F pre1 m1 post1 pre2 m2 post2} :
  split_at F pre1 m1 post1 -> split_at F pre2 m2 post2 -> m_base m1 < m_base m2 ->
  total pre1 + m_len m1 <= total pre2.
Proof.
  intros S1 S2 Hlt. rewrite <- (split_before S2).
  pose proof (split_pre_lt S1) as P1. destruct S1 as [-> _].
  rewrite before_app. simpl.
  rewrite (before_all pre1 (m_base m2)) by (eapply Forall_impl; [|exact P1]; simpl; intros; lia).
  destruct (Z.ltb_spec (m_base m1) (m_base m2)); [|lia].
  pose proof (before_nonneg post1 (m_base m2)). lia.
Qed.

Lemma split_cmp {F pre1 m1 post1 pre2 m2 post2} :
  split_at F pre1 m1 post1 -> split_at F pre2 m2 post2 ->
  (pre1 = pre2 /\ m1 = m2) \/ (m_base m1 < m_base m2 /\ total pre1 + m_len m1 <= total pre2) \/
  (m_base m2 < m_base m1 /\ total pre2 + m_len m2 <= total pre1).
Proof.
  intros S1 S2. destruct (Z.lt_trichotomy (m_base m1) (m_base m2)) as [L|[E|G]].
  - right; left. split; [exact L|apply (split_order S1 S2 L)].
  - left. destruct (split_unique S1 S2 E) as (-> & -> & _). auto.
  - right; right. split; [exact G|apply (split_order S2 S1 G)].
Qed.

Lemma tr_split {F pre m post} (b : Z) : split_at F pre m post -> tr F (m_base m, b) = total pre + b.
Proof. intros S. unfold tr. simpl. rewrite (split_before S). reflexivity. Qed.

Lemma tr_le_total (F : file) (o : voff) : wf_file F = true -> off_ok F o -> tr F o <= total F.
Proof.
  intros W Hv. destruct o as [f b]. destruct (valid_off_split F f b W Hv) as (pre & m & post & S & <- & Hb & _).
  rewrite (tr_split b S). pose proof (split_total S). pose proof (total_nonneg post). lia.
Qed.

Section File.
Variable F : file.
Hypothesis W : wf_file F = true.
Hypothesis Ha : addressable F = true.

Lemma okst_view {s pre m post} : okst F s pre m post ->
  snd (v_lc s) = (m_base m, b_pos (v_cur s)) /\ b_len (v_cur s) = m_len m - b_pos (v_cur s) /\
  0 <= b_pos (v_cur s) <= m_len m /\ m_len m <= 65535 /\ 0 <= total pre.
Proof.
  intros [S On _ _ He]. pose proof (addressable_len S Ha). pose proof On as (Hb & _ & _ & _ & Hp & Ho).
  rewrite He. unfold b_tx. rewrite Hb, Ho, u16_small by lia.
  repeat split; try lia; [apply (on_member_len On)|apply total_nonneg].
Qed.

Lemma seek_ok {s pre0 m0 post0} (o : voff) : okst F s pre0 m0 post0 -> off_ok F o ->
  exists s' pre m post, m_step (vM F) s (OSeek (fst o) (snd o)) = Ok (s', ([], eNil)) /\
    okst F s' pre m post /\ qpos pre s' = tr F o.
Proof.
  intros [S0 On0 Hbl _ _] Hv. destruct o as [f b].
  destruct (valid_off_split F f b W Hv) as (pre & m & post & S & <- & Hb & Hb').
  assert (Hfin : forall blk : block, on_member blk m ->
     let s' := set_lc (set_err (set_cur s (b_seek blk b)) eNil) ((m_base m, b), (m_base m, b)) in
     okst F s' pre m post /\ qpos pre s' = tr F (m_base m, b)).
  { intros blk (B1 & B2 & B3 & B4 & B5 & B6). split; [|symmetry; apply (tr_split b S)].
    constructor; simpl; auto.
    - unfold on_member, b_seek; simpl; auto 10.
    - unfold b_tx, b_seek. simpl. rewrite B1, u16_small by lia. reflexivity. }
  simpl. unfold v_seek.
  destruct (negb (m_base m =? b_base (v_cur s)) || negb (b_has (v_cur s))) eqn:Hre.
  - rewrite (fill_at (v_cur s) S). simpl. eexists _, pre, m, post. split; [reflexivity|].
    apply Hfin, on_member_blk_of. pose proof (m_len_nonneg m). lia.
  - apply orb_false_iff in Hre. destruct Hre as [H1 _]. apply negb_false_iff, Z.eqb_eq in H1.
    destruct (split_unique S S0 ltac:(destruct On0; lia)) as (-> & -> & ->).
    simpl. eexists _, pre0, m0, post0. split; [reflexivity|]. apply Hfin, On0.
Qed.

Lemma blocked_read {s pre m post} (k : Z) : okst F s pre m post -> 0 <= k ->
  let p := b_pos (v_cur s) in
  let q := qpos pre s in
  (exists s', m_step (vM F) s (ORead k) = Ok (s', ([], eEOF)) /\ q = total F) \/
  (exists s' pre' m' post' k', let bs := ztake k' (zdrop q (flat_data F)) in
     m_step (vM F) s (ORead k) = Ok (s', (bs, if k' <? k then eEOF else eNil)) /\ zlen bs = k' /\
     okst F s' pre' m' post' /\ qpos pre' s' = q + k' /\ k' <= k /\ (k' < k -> 0 < k') /\
     ((m' = m /\ pre' = pre /\ k' = Z.min k (m_len m - p) /\ p < m_len m) \/ (p = m_len m /\ m_base m < m_base m'))).
Proof.
  intros [S On Hbl He Hend] Hk p q.
  simpl. unfold v_read. rewrite He. simpl negb. cbv iota.
  destruct (skip_spec F post pre m s (Datatypes.S (length F)) S On He ltac:(pose proof (split_length S); lia))
    as (s1 & e1 & Hsk & [Hlc1 Hbl1] & Hcase).
  rewrite Hsk.
  destruct Hcase as [(-> & He1 & pre' & m' & post' & S' & On' & Hlt' & Hq' & Hb1 & Hno & Hmv)|(-> & _ & Hq')].
  2:{ left. simpl. eexists. split; [reflexivity|exact Hq']. }
  right. simpl negb. cbv iota.
  set (s1b := set_begin s1 (b_tx (v_cur s1))).
  destruct (copy_blocked F k pre' m' post' s1b (fuel_of F) S' On' ltac:(simpl; congruence) Hlt' ltac:(unfold fuel_of; lia) Hk)
    as (s' & Hcp & (Hpb & _ & Hps & He' & _) & On2 & Hp2).
  change (b_pos (v_cur s1b)) with (b_pos (v_cur s1)) in *.
  set (p1 := b_pos (v_cur s1)) in *. set (k' := Z.min k (m_len m' - p1)) in *.
  pose proof On' as (_ & _ & _ & _ & Hp1 & _). fold p1 in Hp1.
  pose proof On as (_ & _ & _ & _ & Hp & _). fold p in Hp.
  rewrite Hcp.
  exists s', pre', m', post', k'. cbv zeta. unfold q, qpos. rewrite <- Hq', (flat_in_member p1 k' S') by (unfold k'; lia). fold p q.
  split; [reflexivity|].
  split; [apply ztake_zlen; rewrite zlen_zdrop_data by lia; unfold k'; lia|].
  split; [constructor; auto; simpl in Hpb; congruence|].
  split; [unfold q, qpos; rewrite Hp2; lia|].
  split; [unfold k'; lia|]. split; [unfold k'; lia|].
  destruct (Z.eq_dec p (m_len m)) as [Hal|Hnal].
  - right. split; [exact Hal|apply (Hmv Hal)].
  - left. assert (Hs1 : s1 = s) by (apply Hno; fold p; lia). subst s1.
    destruct (split_unique S' S ltac:(destruct On, On'; lia)) as (-> & -> & ->).
    fold p in p1. subst p1. split; [reflexivity|]. split; [reflexivity|]. split; [reflexivity|lia].
Qed.

Lemma off_where {s pre m post} (o : voff) : okst F s pre m post -> off_ok F o ->
  0 <= snd o <= 65535 /\
  ((fst o = m_base m /\ tr F o = total pre + snd o) \/
   (fst o < m_base m /\ tr F o <= total pre) \/
   (m_base m < fst o /\ total pre + m_len m <= tr F o - snd o)).
Proof.
  intros Ok Hv. destruct o as [f b]. pose proof (ok_split Ok) as S.
  destruct (valid_off_split F f b W Hv) as (pre' & m' & post' & S' & <- & Hb & Hb').
  rewrite (tr_split b S'). simpl. split; [lia|].
  destruct (split_cmp S' S) as [(-> & ->)|[?|?]]; [left; auto|right; left; lia|right; right; lia].
Qed.

Lemma vo_le_pos {s pre m post} (o : voff) : okst F s pre m post -> off_ok F o ->
  voffset o <= voffset (snd (v_lc s)) -> tr F o <= qpos pre s.
Proof.
  intros Ok Hv. destruct (okst_view Ok) as (-> & _ & Hp & Hl & _). destruct (off_where o Ok Hv) as (Hb & Hc).
  unfold voffset, qpos. simpl. lia.
Qed.

(** Why Read clamps to want - cursor: a Blocked Read of at most that many bytes
    stays inside the chunk. *)
Lemma lim_spec {s pre m post} (c0 : chunk) : okst F s pre m post -> off_ok F (snd c0) ->
  voffset (snd (v_lc s)) < voffset (snd c0) ->
  let p := b_pos (v_cur s) in
  let lim := cr_lim (vM F) s c0 in
  0 <= lim /\ (p < m_len m -> 0 < lim) /\
  forall k', k' <= lim -> (p < m_len m -> k' <= m_len m - p) -> qpos pre s + k' <= tr F (snd c0).
Proof.
  intros Ok Hv. destruct (okst_view Ok) as (Hlc & Hbl & Hp & Hl & _). destruct (off_where _ Ok Hv) as (Hb & Hc).
  destruct c0 as [cb [fe be]]. unfold cr_lim, qpos, voffset. simpl in Hb, Hc |- *. rewrite Hlc, Hbl. simpl. intros Hlt.
  destruct Hc as [[-> Htr]|[[Hlt' _]|[Hgt Htr]]]; [|lia|].
  - rewrite Z.eqb_refl, Z.ltb_irrefl, andb_false_r. repeat split; intros; lia.
  - destruct (Z.eqb_spec (m_base m) fe); [lia|]. destruct (Z.ltb_spec (m_base m) fe); [|lia].
    destruct (Z.eqb_spec be 0); simpl; repeat split; intros; lia.
Qed.

Lemma spans_beyond : forall cs lo, sorted_from F lo cs -> total F <= lo -> spans F cs = [].
Proof.
  induction cs as [|c r IH]; intros lo Hs Hlo; [reflexivity|].
  destruct Hs as (Hb & He & H1 & H2 & Hr).
  pose proof (tr_le_total F _ W He).
  unfold spans. simpl. fold (spans F r). rewrite (IH _ Hr ltac:(lia)).
  unfold span. rewrite ztake_neg by lia. reflexivity.
Qed.

Lemma rem_done (q : Z) (c0 : chunk) (rest : list chunk) : tr F (snd c0) <= q -> rem F q c0 rest = spans F rest.
Proof. intros H. unfold rem. rewrite ztake_neg by lia. reflexivity. Qed.

Lemma rem_split (q k : Z) (c0 : chunk) (rest : list chunk) :
  0 <= q -> 0 <= k -> q + k <= tr F (snd c0) ->
  rem F q c0 rest = ztake k (zdrop q (flat_data F)) ++ rem F (q + k) c0 rest.
Proof.
  intros Hq Hk Hle. unfold rem. rewrite app_assoc. f_equal.
  replace (tr F (snd c0) - q) with (k + (tr F (snd c0) - (q + k))) by lia.
  rewrite <- ztake_ztake_app by lia. rewrite zdrop_zdrop by lia. reflexivity.
Qed.

Lemma next_chunk {s pre m post} (lo : Z) (c1 : chunk) (rest : list chunk) :
  okst F s pre m post -> sorted_from F lo (c1 :: rest) ->
  exists s1, m_step (vM F) s (OSeek (fst (fst c1)) (snd (fst c1))) = Ok (s1, ([], eNil)) /\
             cr_post F s1 (c1 :: rest) (spans F (c1 :: rest)).
Proof.
  intros Ok (Hb & He & _ & Hbe & Hr).
  destruct (seek_ok _ Ok Hb) as (s1 & pre1 & m1 & post1 & Hsk & Ok1 & Hq).
  exists s1. split; [exact Hsk|]. change (spans F (c1 :: rest)) with (rem F (tr F (fst c1)) c1 rest). rewrite <- Hq.
  apply (@cinv_post _ _ _ m1 post1). constructor; auto. rewrite Hq. exact Hbe.
Qed.

Lemma cr_skip_spec : forall cs s R, cr_post F s cs R ->
  exists s1 cs1 e, cr_skip (vM F) s cs = Ok (s1, cs1, e) /\
    ((e = eNil /\ cr_post F s1 cs1 R /\
      (exists c1 r1, cs1 = c1 :: r1 /\ voffset (snd (v_lc s1)) < voffset (snd c1)) /\
      ((length cs1 < length cs)%nat \/ (cs1 = cs /\ s1 = s)))
     \/ (e = eEOF /\ R = [])).
Proof.
  induction cs as [|c0 rest IH]; intros s R Hpost; [contradiction|].
  pose proof Hpost as (pre & m & post & [Ok Hev Hle Hso] & ->).
  cbn [cr_skip]. destruct (Z.leb_spec (voffset (snd c0)) (voffset (snd (m_lc (vM F) s)))) as [Hv|Hv].
  - rewrite (rem_done _ _ _ (vo_le_pos _ Ok Hev Hv)).
    destruct rest as [|c1 rest].
    + eexists _, _, _. split; [reflexivity|]. right. split; reflexivity.
    + destruct (next_chunk _ _ _ Ok Hso) as (s1 & -> & Hpost1). cbn [Z.eqb eNil].
      destruct (IH s1 _ Hpost1) as (s2 & cs2 & e & -> & [(-> & E2 & E3 & E4)|E5]).
      * eexists _, _, _. split; [reflexivity|]. left. repeat split; auto. left.
        destruct E4 as [E4|[-> _]]; simpl in *; lia.
      * eexists _, _, _. split; [reflexivity|]. right. exact E5.
  - eexists _, _, _. split; [reflexivity|]. left. split; [reflexivity|]. split; [exact Hpost|]. split; eauto.
Qed.

Definition read_res (s : vstate) (cs : list chunk) (R : list Z) (n : Z)
    (r : outcome (vstate * list chunk * list Z * Z)) : Prop :=
  exists s' cs' bs e, r = Ok (s', cs', bs, e) /\ zlen bs <= n /\
    ((e = eNil /\ exists R', R = bs ++ R' /\ cr_post F s' cs' R' /\ (1 <= n -> progress s cs s' cs' bs)) \/
     (e = eEOF /\ R = bs)).

Lemma read_res_eof s cs n s' cs' bs : zlen bs <= n -> read_res s cs bs n (Ok (s', cs', bs, eEOF)).
Proof. intros Hz. exists s', cs', bs, eEOF. auto. Qed.

(** [s1], [cs1]: where the skip loop stopped. *)
Lemma read_res_nil {s cs s1 cs1 n s' cs' bs R'} :
  (length cs1 < length cs)%nat \/ (cs1 = cs /\ s1 = s) ->
  zlen bs <= n -> cr_post F s' cs' R' -> (1 <= n -> progress s1 cs1 s' cs' bs) ->
  read_res s cs (bs ++ R') n (Ok (s', cs', bs, eNil)).
Proof.
  intros Hmv Hz Hpost Hprog. exists s', cs', bs, eNil. split; [reflexivity|]. split; [exact Hz|]. left. split; [reflexivity|].
  exists R'. split; [reflexivity|]. split; [exact Hpost|]. intros Hn. specialize (Hprog Hn). unfold progress in *.
  destruct Hmv as [H|[-> ->]]; [left; lia|exact Hprog].
Qed.

Lemma cr_read_spec (s : vstate) (cs : list chunk) (R : list Z) (n : Z) :
  cs = [] /\ R = [] \/ cr_post F s cs R -> 0 <= n -> read_res s cs R n (cr_read (vM F) s cs n).
Proof.
  intros [[-> ->]|Hpost] Hn; [apply read_res_eof; rewrite zlen_nil; exact Hn|].
  destruct (cr_skip_spec cs s R Hpost) as (s1 & cs1 & e1 & Hsk & [(-> & Hpost1 & (c0 & rest & -> & Hin) & Hmv)|(-> & ->)]).
  2:{ rewrite (cr_read_eof n Hsk). apply read_res_eof. rewrite zlen_nil. exact Hn. }
  destruct Hpost1 as (pre1 & m1 & post1 & [Ok1 Hev Hle Hso] & ->).
  destruct (lim_spec c0 Ok1 Hev Hin) as (Hl0 & Hlpos & Hbound).
  destruct (okst_view Ok1) as (Hlc1 & _ & Hp1 & _ & Hpre1).
  set (k := Z.min n (cr_lim (vM F) s1 c0)).
  destruct (blocked_read k Ok1 ltac:(lia))
    as [(s2 & Hrd & Hqe)|(s2 & pre2 & m2 & post2 & k' & Hrd & Hz & Ok2 & Hq2 & Hk' & Hkpos & Hwhere)].
  - (* the data ended *)
    rewrite (cr_read_err Hsk Hl0 Hrd) by discriminate. pose proof (tr_le_total F _ W Hev).
    rewrite rem_done, (spans_beyond _ _ Hso) by lia. apply read_res_eof. rewrite zlen_nil. exact Hn.
  - cbv zeta in Hrd, Hz. set (bs := ztake k' (zdrop (qpos pre1 s1) (flat_data F))) in *.
    pose proof (zlen_nonneg bs) as Hz0. assert (Hzn : zlen bs <= n) by (unfold k in Hk'; lia).
    (* a non-empty Read returns bytes or moves to a later block, so LastChunk() changes *)
    assert (Hmoved : 1 <= n -> (1 <= zlen bs \/ b_base (v_cur s1) < b_base (v_cur s2)) /\ v_lc s2 <> v_lc s1).
    { intros Hn1. destruct (okst_view Ok2) as (Hlc2 & _). destruct (ok_on Ok1) as (-> & _), (ok_on Ok2) as (-> & _).
      destruct Hwhere as [(-> & -> & Hk1 & Hlt)|(_ & Hlt)].
      - specialize (Hlpos Hlt). split; [left; lia|]. intros E. rewrite E, Hlc1 in Hlc2. inversion Hlc2.
        unfold qpos in Hq2. lia.
      - split; [right; exact Hlt|]. intros E. rewrite E, Hlc1 in Hlc2. inversion Hlc2. lia. }
    assert (Hb : qpos pre1 s1 + k' <= tr F (snd c0)).
    { apply Hbound; [exact (Z.le_trans _ _ _ Hk' (Z.le_min_r _ _))|]. destruct Hwhere as [(_ & _ & -> & _)|(-> & _)]; lia. }
    rewrite (rem_split (qpos pre1 s1) k' c0 rest) by (try exact Hb; unfold qpos; lia). fold bs.
    assert (Hpost2 : cr_post F s2 (c0 :: rest) (rem F (qpos pre1 s1 + k') c0 rest)).
    { rewrite <- Hq2. apply (@cinv_post _ _ _ m2 post2). constructor; auto. rewrite Hq2. exact Hb. }
    assert (Hstay : read_res s cs (bs ++ rem F (qpos pre1 s1 + k') c0 rest) n (Ok (s2, c0 :: rest, bs, eNil))).
    { apply (read_res_nil Hmv Hzn Hpost2). intros Hn1. right. split; [reflexivity|apply (Hmoved Hn1)]. }
    destruct (Z.ltb_spec k' k) as [Hshort|Hfull].
    + (* cut short at the end of a block: io.EOF with data is not an error *)
      rewrite (cr_read_err Hsk Hl0 Hrd) by discriminate. fold bs. rewrite Hz.
      rewrite (proj2 (Z.eqb_neq k' 0)) by (specialize (Hkpos Hshort); lia). exact Hstay.
    + destruct (Z.leb_spec (voffset (snd c0)) (voffset (snd (v_lc s2)))) as [Hadv|Hcont].
      * (* the chunk is complete *)
        rewrite (cr_read_done Hsk Hl0 Hrd eq_refl Hadv). unfold cr_next.
        pose proof (vo_le_pos _ Ok2 Hev Hadv) as Hge. rewrite Hq2 in Hge. rewrite (rem_done _ _ _ Hge).
        destruct rest as [|c1 rest].
        -- rewrite app_nil_r. apply read_res_eof, Hzn.
        -- destruct (next_chunk _ _ _ Ok2 Hso) as (s3 & -> & Hpost3).
           apply (read_res_nil Hmv Hzn Hpost3). intros _. left. simpl. lia.
      * rewrite (cr_read_stay Hsk Hl0 Hrd eq_refl); [exact Hstay| |exact Hcont].
        intros Hn0. apply Hmoved. lia.
Qed.

Lemma cr_new_spec (cs : list chunk) : F <> [] -> sorted_from F 0 cs ->
  exists s1, cr_new (vM F) (fst (v_init F)) cs = Ok (s1, eNil) /\
    (cs = [] /\ spans F cs = [] \/ cr_post F s1 cs (spans F cs)).
Proof.
  intros Hne Hso. destruct F as [|m0 F'] eqn:HF; [congruence|]. rewrite <- HF in *.
  assert (S : split_at F [] m0 F') by (split; [exact HF|exact W]).
  assert (Hb0 : m_base m0 = 0) by (rewrite (split_base S); reflexivity).
  pose proof (fill_at b_new S) as Hf. rewrite Hb0 in Hf.
  unfold cr_new. simpl m_step. unfold v_init. rewrite Hf. simpl.
  match goal with |- context [mkV ?b ?e ?c true] => assert (Ok0 : okst F (mkV b e c true) [] m0 F') end.
  { constructor; simpl; auto; [|unfold b_tx; simpl; rewrite Hb0; reflexivity].
    apply on_member_blk_of. pose proof (m_len_nonneg m0). lia. }
  destruct cs as [|c0 rest]; [eauto|].
  destruct (next_chunk _ _ _ Ok0 Hso) as (s1 & Hsk & Hpost). simpl m_step in Hsk. rewrite Hsk. eauto.
Qed.

Lemma cr_reads_spec : forall bufs s cs R, cs = [] /\ R = [] \/ cr_post F s cs R -> Forall (fun n => 0 <= n) bufs ->
  exists l, cr_reads (vM F) s cs bufs = Ok l /\ sizes_ok l bufs /\
    (exists tail, R = concat (map fst l) ++ tail /\ reads_ok l tail) /\
    forall B, Forall (fun n => 1 <= n) bufs -> zlen R <= B -> weight F B s cs R < Z.of_nat (length bufs) ->
      snd (last l ([], 0)) = eEOF.
Proof.
  induction bufs as [|n bufs IH]; intros s cs R Hst Hb.
  - exists []. split; [reflexivity|]. split; [exact I|]. split; [exists R; split; [reflexivity|exact I]|].
    intros B _ HB Hw. pose proof (weight_bounds F B s cs R HB). simpl in Hw. lia.
  - inversion Hb as [|? ? Hn Hb']; subst.
    destruct (cr_read_spec s cs R n Hst Hn) as (s' & cs' & bs & e & Hrd & Hz & [(-> & R' & -> & Hpost' & Hprog)|(-> & ->)]);
      cbn [cr_reads]; rewrite Hrd; cbn [negb Z.eqb eNil eEOF].
    + destruct (IH s' cs' R' (or_intror Hpost') Hb') as (l & -> & Hsz & (tail & Ht & Hok) & Hend).
      exists ((bs, eNil) :: l). split; [reflexivity|]. split; [split; assumption|]. split.
      * exists tail. split; [rewrite Ht; apply app_assoc|].
        simpl. destruct l; [left; reflexivity|]. split; [reflexivity|exact Hok].
      * intros B Hb1 HB Hw. apply Forall_cons_iff in Hb1 as [Hn1 Hb1'].
        pose proof (weight_decreases F B s s' cs cs' R' bs (Hprog Hn1) HB Hpost') as Hdec.
        assert (HB' : zlen R' <= B) by (rewrite zlen_app in HB; pose proof (zlen_nonneg bs); lia).
        specialize (Hend B Hb1' HB' ltac:(simpl length in Hw; lia)).
        destruct l; [discriminate Hend|exact Hend].
    + exists [(bs, eEOF)]. split; [reflexivity|]. split; [simpl; auto|].
      split; [|reflexivity]. exists []. split; [simpl; rewrite !app_nil_r; reflexivity|]. right. split; reflexivity.
Qed.

(** C13, ChunkReader on the reader on block values: exactness of a run, and its
    end once there are enough non-empty buffers. *)
Theorem chunkreader_run (cs : list chunk) (bufs : list Z) :
  F <> [] -> sorted_from F 0 cs -> Forall (fun n => 0 <= n) bufs ->
  exists s1 l, cr_new (vM F) (fst (v_init F)) cs = Ok (s1, eNil) /\ cr_reads (vM F) s1 cs bufs = Ok l /\
    sizes_ok l bufs /\
    (exists tail, spans F cs = concat (map fst l) ++ tail /\ reads_ok l tail) /\
    (Forall (fun n => 1 <= n) bufs ->
     (Z.of_nat (length cs) + 1) * ((zlen (spans F cs) + 1) * (Z.of_nat (length F) + 1)) <= Z.of_nat (length bufs) ->
     snd (last l ([], 0)) = eEOF /\ concat (map fst l) = spans F cs).
Proof.
  intros Hne Hso Hb. destruct (cr_new_spec cs Hne Hso) as (s1 & Hnew & Hst).
  destruct (cr_reads_spec bufs s1 cs _ Hst Hb) as (l & Hl & Hsz & (tail & Ht & Hok) & Hend).
  exists s1, l. split; [exact Hnew|]. split; [exact Hl|]. split; [exact Hsz|]. split; [eauto|].
  intros Hb1 Hlen. destruct (weight_bounds F _ s1 cs (spans F cs) (Z.le_refl _)).
  assert (Hlast := Hend _ Hb1 (Z.le_refl _) ltac:(lia)).
  split; [exact Hlast|]. rewrite Ht, (reads_ok_eof l tail Hok Hlast). symmetry. apply app_nil_r.
Qed.

End File.
