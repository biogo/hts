(** C09 — the reader under faults: what [binv] says survives every failure; a nil Seek lands where sought. *)
From Coq Require Import ZArith List Bool Lia.
From Hts Require Import Model.FaultReader.
Import ListNotations.
Open Scope Z_scope.

(** The block the reader serves bytes from is the member of the file that
    starts at the block's base: base, size and data all belong together. *)
Definition binv (s : rst) : Prop :=
  croff s = r_pos (src s) /\
  (cvalid s = true -> member_at (file s) (cbase s) = Some (chsize s, cdata s)).

(** [binv] over the file [f], which no operation changes. *)
Definition sound (f : list member) (s : rst) : Prop := file s = f /\ binv s.

Lemma fetch_ok : forall s s' e, croff s = r_pos (src s) -> fetch rfixed s = (s', e) ->
  sound (file s) s' /\ (e = 0 -> cvalid s' = true /\ coff s' = 0 /\ cbase s' = croff s) /\ (e = 3 -> flen (file s) <= croff s).
Proof.
  intros s s' e R H. unfold fetch in H. cbn in H. rewrite <- R in H.
  destruct (flen (file s) <=? croff s) eqn:L; [apply Z.leb_le in L|];
    (destruct (member_at (file s) (croff s)) as [[sz d]|] eqn:M;
     repeat match type of H with (if ?b then _ else _) = _ => destruct b end; injection H as <- <-;
     repeat split; cbn; auto; try discriminate; lia).
Qed.

Lemma nba_ok : forall f s off s' e, sound f s -> next_block_at rfixed s off = (s', e) ->
  sound f s' /\ (e = 0 -> cvalid s' = true /\ coff s' = 0 /\ cbase s' = off) /\ (e = 3 -> flen f <= off).
Proof.
  intros f s off s' e [<- [R B]] H. unfold next_block_at in H.
  destruct (croff s =? off) eqn:E.
  - apply Z.eqb_eq in E. subst off. apply fetch_ok; assumption.
  - destruct (_ || _).
    + injection H as <- <-. split; [repeat split; cbn; auto | split; destruct (off <? 0); discriminate].
    + apply fetch_ok in H; [exact H | reflexivity].
Qed.

Lemma skip_ok : forall f fuel s s' e, sound f s -> skip_empty rfixed fuel s = (s', e) -> sound f s'.
Proof.
  induction fuel as [|n IH]; intros s s' e S H; cbn in H.
  - injection H as <- _. exact S.
  - destruct (cur_len s =? 0); [|injection H as <- _; exact S].
    destruct (next_block rfixed s) as [s1 e1] eqn:N. apply (nba_ok f) in N; [|exact S].
    destruct (e1 =? 0); [eapply IH; [apply N | exact H] | injection H as <- _; apply N].
Qed.

Lemma loop_ok : forall f fuel s want got s' e out, sound f s -> read_loop rfixed fuel s want got = (s', e, out) -> sound f s'.
Proof.
  induction fuel as [|n IH]; intros s want got s' e out S H; cbn in H.
  - injection H as <- _ _. exact S.
  - destruct (want <=? 0); [injection H as <- _ _; exact S|].
    destruct (cur_len s =? 0).
    + destruct (next_block rfixed s) as [s1 e1] eqn:N. apply (nba_ok f) in N; [|exact S].
      destruct (e1 =? 0); [eapply IH; [apply N | exact H] | injection H as <- _ _; apply N].
    + eapply IH; [|exact H]. exact S.
Qed.

Lemma read_ok : forall f s n s' e out, sound f s -> do_read rfixed s n = (s', e, out) -> sound f s'.
Proof.
  intros f s n s' e out S H. unfold do_read in H.
  destruct (negb _); [injection H as <- _ _; exact S|].
  destruct (skip_empty _ _ s) as [s1 e1] eqn:K. apply (skip_ok f) in K; [|exact S].
  destruct (negb _); [injection H as <- _ _; exact K|].
  destruct (read_loop _ _ s1 n []) as [[s2 e2] got] eqn:L. apply (loop_ok f) in L; [|exact K].
  injection H as <- _ _. exact L.
Qed.

Lemma seek_ok : forall f s m w s' e, sound f s -> do_seek rfixed s m w = (s', e) -> sound f s'.
Proof.
  intros f s m w s' e S H. unfold do_seek in H.
  destruct (_ || _); [|injection H as <- _; exact S].
  destruct (next_block_at _ s _) as [s1 e1] eqn:N. apply (nba_ok f) in N; [|exact S].
  destruct (e1 =? 0); injection H as <- _; apply N.
Qed.

(** State after a list of operations (mirrors [run_ops]). *)
Fixpoint exec (inval : rvar) (s : rst) (ops : list rop) : rst :=
  match ops with
  | [] => s
  | RRead n :: r => let '(s1, _, _) := do_read inval s n in exec inval s1 r
  | RSeek m w :: r => let '(s1, _) := do_seek inval s (Z.to_nat m) w in exec inval s1 r
  | RClose :: r => exec inval s r
  end.

Lemma exec_ok : forall f ops s, sound f s -> sound f (exec rfixed s ops).
Proof.
  induction ops as [|[n|m w|] r IH]; intros s S; cbn [exec]; auto.
  - destruct (do_read rfixed s n) as [[s1 e] out] eqn:R. eapply IH, read_ok; eassumption.
  - destruct (do_seek rfixed s (Z.to_nat m) w) as [s1 e] eqn:R. eapply IH, seek_ok; eassumption.
Qed.

Lemma ropen_ok : forall f x trans seekk s0 e0, ropen rfixed f x trans seekk = (s0, e0) ->
  sound f s0 /\ (e0 = 0 -> cvalid s0 = true /\ coff s0 = 0 /\ cbase s0 = 0).
Proof. intros f x trans seekk s0 e0 H. apply fetch_ok in H; [exact (conj (proj1 H) (proj1 (proj2 H))) | reflexivity]. Qed.

Lemma loop_bytes_one_block : forall s want, binv s -> 0 < want -> cur_len s <> 0 ->
  exists sz d, member_at (file s) (cbase s) = Some (sz, d) /\
    firstn (Z.to_nat (Z.min (cur_len s) want)) (skipn (Z.to_nat (coff s)) (cdata s))
    = firstn (Z.to_nat (Z.min (cur_len s) want)) (skipn (Z.to_nat (coff s)) d).
Proof.
  intros s want B W L. unfold cur_len in L. destruct (cvalid s) eqn:V; [|congruence].
  exists (chsize s), (cdata s). split; [apply B; exact V | reflexivity].
Qed.

(** Every Seek that returns nil leaves the reader on the member that starts at
    the requested offset, whatever happened before — in particular when an
    earlier Seek to the same (or another) offset failed in the underlying
    seeker: the count reader's offset is only advanced by a successful seek,
    so the retry seeks again instead of trusting a position it never reached. *)
Lemma seek_lands : forall f s m w s', sound f s -> do_seek rfixed s m w = (s', 0) ->
  cvalid s' = true /\ cbase s' = base_of f m /\ coff s' = w /\ rerr s' = 0 /\
  member_at f (base_of f m) = Some (chsize s', cdata s').
Proof.
  intros f s m w s' S H. destruct (seek_ok _ _ _ _ _ _ S H) as [F' [_ B']]. rewrite F' in B'.
  pose proof S as [F _]. unfold do_seek in H. rewrite F in H.
  destruct (_ || _) eqn:C.
  - destruct (next_block_at _ s _) as [s1 e1] eqn:N. destruct (nba_ok _ _ _ _ _ S N) as [_ [K _]].
    destruct (e1 =? 0) eqn:E; [|injection H as _ H; apply Z.eqb_neq in E; congruence].
    apply Z.eqb_eq in E. destruct (K E) as [V [_ Cb]].
    injection H as <-. cbn in *. rewrite <- Cb. repeat split; auto.
  - apply orb_false_elim in C. destruct C as [C1 C2].
    apply negb_false_iff, Z.eqb_eq in C1. apply negb_false_iff in C2.
    injection H as <-. cbn in *. rewrite C1. repeat split; auto.
Qed.
