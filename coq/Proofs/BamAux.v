(** C05 — parseAux (buildAux aa) = aa for well-formed aux fields, and parseAux
    is total on byte strings. *)
From Coq Require Import ZArith Lia List Bool.
From Hts Require Import Base.Prim Base.Bits Generated Model.BamCodec Base.BytesLE.
Import ListNotations.
Open Scope Z_scope.

(** The generated jumps table gives every fixed-size type of the specification
    its width, and is negative for Z, H and B only (checked by computation on
    the table). *)
Lemma spec_width_pos t :
  0 < spec_width t ->
  inb bam_jumps t = true /\ getz bam_jumps t = spec_width t /\ (t =? 90) || (t =? 72) = false /\ (t =? 66) = false.
Proof.
  intros H. unfold spec_width in H.
  do 8 match type of H with context [t =? ?k] => destruct (Z.eqb_spec t k) as [E|_]; [subst t; vm_compute; auto|] end.
  discriminate H.
Qed.

(** A property of position and entry, checked in one pass over a table
    (indexing every position from the front is quadratic, and slow in coqchk). *)
Lemma nth_indexed (P : nat -> Z -> bool) d l : forall k,
  forallb (fun ix => P (fst ix) (snd ix)) (combine (seq k (length l)) l) = true ->
  forall i, (i < length l)%nat -> P (k + i)%nat (nth i l d) = true.
Proof.
  induction l as [|x l IH]; intros k H i Hi; [inversion Hi|].
  cbn [length seq combine forallb fst snd] in H. apply andb_true_iff in H. destruct H as [Hx Hl].
  destruct i as [|i]; [rewrite Nat.add_0_r; exact Hx|].
  rewrite <- Nat.add_succ_comm. apply IH; [exact Hl|cbn [length] in Hi; lia].
Qed.

Lemma jumps_neg_cases t : 0 <= t < 256 -> getz bam_jumps t < 0 -> (t =? 90) || (t =? 72) = true \/ t = 66.
Proof.
  intros Ht Hn.
  pose proof (nth_indexed (fun i x => if x <? 0 then (Z.of_nat i =? 90) || (Z.of_nat i =? 72) || (Z.of_nat i =? 66) else true)
                0 bam_jumps 0 eq_refl (Z.to_nat t) ltac:(change (length bam_jumps) with 256%nat; lia)) as F.
  cbn [Nat.add] in F. fold (getz bam_jumps t) in F. rewrite (proj2 (Z.ltb_lt _ _) Hn), Z2Nat.id in F by lia.
  apply orb_prop in F. rewrite Z.eqb_eq in F. exact F.
Qed.

Lemma app_not_shorter {A} (x rest : list A) : (zlen (x ++ rest) <? zlen x) = false.
Proof. apply Z.ltb_ge. rewrite zlen_app. pose proof (zlen_nonneg rest). lia. Qed.

Lemma zfirstn_app_le {A} n (a b : list A) : n <= zlen a -> zfirstn n (a ++ b) = zfirstn n a.
Proof.
  intros H. unfold zfirstn. rewrite firstn_app.
  replace (Z.to_nat n - length a)%nat with 0%nat by (unfold zlen in H; lia). apply app_nil_r.
Qed.

Lemma zskipn_app_le {A} n (a b : list A) : n <= zlen a -> zskipn n (a ++ b) = zskipn n a ++ b.
Proof.
  intros H. unfold zskipn. rewrite skipn_app.
  replace (Z.to_nat n - length a)%nat with 0%nat by (unfold zlen in H; lia). reflexivity.
Qed.

Lemma zlen_zskipn {A} n (a : list A) : 0 <= n <= zlen a -> zlen (zskipn n a) = zlen a - n.
Proof. intros H. unfold zskipn, zlen in *. rewrite skipn_length. lia. Qed.

Lemma index_byte_app a rest :
  nonzero_bytes a = true -> index_byte (a ++ 0 :: rest) 0 = Some (zlen a).
Proof.
  induction a as [|b t IH]; intros H; [reflexivity|].
  unfold nonzero_bytes in H. cbn [forallb] in H. apply andb_true_iff in H. destruct H as [Hb Ht].
  cbn [app index_byte]. apply negb_true_iff in Hb. rewrite Hb, (IH Ht), zlen_cons. f_equal. lia.
Qed.

(** What buildAux writes: the fields, a NUL after each Z or H value. *)
Definition aux_term (a : list Z) : list Z :=
  if (getz a 2 =? 90) || (getz a 2 =? 72) then [0] else [].

Fixpoint aux_bytes (aa : list (list Z)) : list Z :=
  match aa with [] => [] | a :: t => a ++ aux_term a ++ aux_bytes t end.

Lemma build_aux_cons a t tags :
  3 <= zlen a -> build_aux t = Ok tags -> build_aux (a :: t) = Ok (a ++ aux_term a ++ tags).
Proof.
  intros Hlen Ht. cbn [build_aux]. unfold chk. rewrite inb_true, Ht by lia. reflexivity.
Qed.

Lemma wf_aux_len a : wf_aux a = true -> 3 <= zlen a /\ all_bytes a = true.
Proof.
  unfold wf_aux. intros H. apply andb_true_iff in H. destruct H as [H _].
  apply andb_true_iff in H. destruct H as [H1 H2]. apply Z.leb_le in H2. tauto.
Qed.

Lemma build_aux_bytes aa : forallb wf_aux aa = true -> build_aux aa = Ok (aux_bytes aa).
Proof.
  induction aa as [|a t IH]; intros H; [reflexivity|].
  cbn [forallb] in H. apply andb_true_iff in H. destruct H as [Ha Ht].
  exact (build_aux_cons a t _ (proj1 (wf_aux_len a Ha)) (IH Ht)).
Qed.

Lemma zlen_aux_bytes aa : zlen (aux_bytes aa) = tags_len aa.
Proof.
  induction aa as [|a t IH]; [reflexivity|].
  cbn [aux_bytes tags_len]. rewrite !zlen_app, IH. unfold aux_term.
  destruct ((getz a 2 =? 90) || (getz a 2 =? 72)); rewrite ?zlen_cons, zlen_nil; lia.
Qed.

Lemma tags_len_ge aa : forallb wf_aux aa = true -> Z.of_nat (length aa) <= tags_len aa.
Proof.
  induction aa as [|a t IH]; intros H; [cbn; lia|].
  cbn [forallb] in H. apply andb_true_iff in H. destruct H as [Ha Ht].
  destruct (wf_aux_len a Ha) as [H3 _]. specialize (IH Ht). cbn [tags_len length].
  destruct ((getz a 2 =? 90) || (getz a 2 =? 72)); lia.
Qed.

Lemma parse_step fuel a rest :
  wf_aux a = true ->
  parse_aux_loop (S fuel) (a ++ aux_term a ++ rest)
  = ocons a (parse_aux_loop fuel rest).
Proof.
  intros Hwf. destruct (wf_aux_len a Hwf) as [H3 Hab].
  unfold wf_aux in Hwf. apply andb_true_iff in Hwf. destruct Hwf as [_ Hwf].
  cbn [parse_aux_loop].
  rewrite (proj2 (Z.ltb_lt 2 _)) by (rewrite zlen_app; pose proof (zlen_nonneg (aux_term a ++ rest)); lia).
  cbn [negb]. rewrite getz_app by lia. unfold aux_term, chk3.
  set (t := getz a 2) in *.
  destruct (0 <? spec_width t) eqn:Hfix.
  - apply Z.ltb_lt in Hfix. apply Z.eqb_eq in Hwf.
    destruct (spec_width_pos t Hfix) as (-> & -> & -> & _).
    rewrite (proj2 (Z.ltb_lt _ _) Hfix). cbn [app].
    replace (spec_width t + 3) with (zlen a) by lia.
    rewrite app_not_shorter, zfirstn_app, zskipn_app. reflexivity.
  - destruct ((t =? 90) || (t =? 72)) eqn:HZ.
    + (* Z, H: the field ends before the first zero byte *)
      assert (Hj : inb bam_jumps t = true /\ getz bam_jumps t = -1)
        by (destruct (orb_prop _ _ HZ) as [E|E]; apply Z.eqb_eq in E; rewrite E; split; reflexivity).
      destruct Hj as [-> ->]. cbn [Z.ltb Z.compare app].
      rewrite zskipn_app_le, (index_byte_app _ rest Hwf), zlen_zskipn by lia.
      replace (zlen a - 3 + 3) with (zlen a) by lia.
      rewrite zfirstn_app. change (a ++ 0 :: rest) with (a ++ [0] ++ rest). rewrite app_assoc.
      rewrite zskipn_app_n by (rewrite zlen_app; reflexivity). reflexivity.
    + (* B: sub-type, count, elements *)
      destruct (Z.eqb_spec t 66) as [->|]; [|discriminate].
      change (inb bam_jumps 66) with true. change (getz bam_jumps 66) with (-1).
      cbn [Z.ltb Z.compare Z.eqb Pos.eqb orb app].
      apply andb_true_iff in Hwf. destruct Hwf as [Hwf Hlen]. apply andb_true_iff in Hwf. destruct Hwf as [Hwf Hsub].
      apply andb_true_iff in Hwf. destruct Hwf as [H8 _].
      apply Z.leb_le in H8. apply Z.ltb_lt in Hsub. apply Z.eqb_eq in Hlen.
      rewrite (proj2 (Z.ltb_ge _ 8)) by (rewrite zlen_app; pose proof (zlen_nonneg rest); lia).
      rewrite getz_app by lia.
      destruct (spec_width_pos _ Hsub) as (-> & -> & _).
      rewrite (proj2 (Z.leb_gt _ _) Hsub).
      rewrite (zskipn_app_le 4), zfirstn_app_le by (rewrite ?zlen_zskipn; lia).
      replace (_ * _ + 4 + 4) with (zlen a) by lia.
      rewrite (proj2 (Z.ltb_ge _ 0)), app_not_shorter, zfirstn_app, zskipn_app by lia. reflexivity.
Qed.

Theorem parse_aux_bytes aa : forallb wf_aux aa = true -> parse_aux (aux_bytes aa) = Ok aa.
Proof.
  intros Hwf. pose proof (tags_len_ge aa Hwf) as Hge. rewrite <- zlen_aux_bytes in Hge.
  unfold parse_aux. destruct (Z.eqb_spec (zlen (aux_bytes aa)) 0) as [E|_].
  - destruct aa; [reflexivity|]. cbn [length] in Hge. lia.
  - assert (Hf : (length aa < S (length (aux_bytes aa)))%nat) by (unfold zlen in Hge; lia).
    revert Hf. generalize (S (length (aux_bytes aa))). clear Hge.
    induction aa as [|a t IH]; intros fuel Hf; (destruct fuel; [inversion Hf|]); [reflexivity|].
    cbn [forallb] in Hwf. apply andb_true_iff in Hwf. destruct Hwf as [Ha Ht].
    cbn [aux_bytes]. rewrite parse_step, (IH Ht fuel) by (assumption || (cbn [length] in Hf; lia)). reflexivity.
Qed.

(** * parseAux is total: on every byte string it returns fields or an error,
    it never panics and never loops (the fuel [length aux + 1] suffices). *)
Definition ok_or_err {A} (o : outcome A) : Prop := (exists r, o = Ok r) \/ (exists e, o = Err e).

Lemma ok_or_err_Ok {A} (r : A) : ok_or_err (Ok r).
Proof. left. eexists. reflexivity. Qed.

Lemma ok_or_err_Err {A} e : ok_or_err (@Err A e).
Proof. right. eexists. reflexivity. Qed.

Lemma ocons_total {A} (a : A) o : ok_or_err o -> ok_or_err (ocons a o).
Proof. intros [[r ->]|[e ->]]; [apply ok_or_err_Ok|apply ok_or_err_Err]. Qed.

Lemma getz_byte l i : all_bytes l = true -> 0 <= i < zlen l -> 0 <= getz l i < 256.
Proof.
  intros Hb Hi. apply all_bytes_forall in Hb. rewrite Forall_forall in Hb. apply Hb.
  unfold getz. apply nth_In. unfold zlen in Hi. lia.
Qed.

Lemma index_byte_nonneg l c j : index_byte l c = Some j -> 0 <= j.
Proof.
  revert j; induction l as [|b t IH]; intros j H; [discriminate|].
  cbn [index_byte] in H. destruct (b =? c); [injection H as <-; lia|].
  destruct (index_byte t c) as [k|]; [|discriminate]. injection H as <-. specialize (IH k eq_refl). lia.
Qed.

Theorem parse_aux_loop_total : forall fuel rest,
  all_bytes rest = true -> (length rest < fuel)%nat -> ok_or_err (parse_aux_loop fuel rest).
Proof.
  induction fuel as [|f IH]; intros rest Hb Hf; [inversion Hf|].
  cbn [parse_aux_loop].
  destruct (Z.ltb_spec 2 (zlen rest)) as [H2|_]; cbn [negb]; [|apply ok_or_err_Ok].
  (* every field found is at least one byte long, so the rest is shorter *)
  assert (Hrec : forall k, 1 <= k -> ok_or_err (parse_aux_loop f (zskipn k rest))).
  { intros k Hk. apply IH; [apply all_bytes_skipn; assumption|].
    unfold zskipn, zlen in *. rewrite skipn_length. lia. }
  pose proof (getz_byte rest 2 Hb ltac:(lia)) as Ht.
  set (t := getz rest 2) in *.
  rewrite (inb_true bam_jumps t Ht). unfold chk3 at 1.
  destruct (Z.ltb_spec 0 (getz bam_jumps t)) as [Hpos|_].
  - destruct (zlen rest <? getz bam_jumps t + 3); [apply ok_or_err_Err|]. apply ocons_total, Hrec. lia.
  - destruct (Z.ltb_spec (getz bam_jumps t) 0) as [Hneg|_]; [|apply ok_or_err_Err].
    destruct (jumps_neg_cases t Ht Hneg) as [->| ->].
    + destruct (index_byte (zskipn 3 rest) 0) as [j|] eqn:Ei; [|apply ok_or_err_Err].
      pose proof (index_byte_nonneg _ _ _ Ei). apply ocons_total, Hrec. lia.
    + cbn [Z.eqb Pos.eqb orb].
      destruct (Z.ltb_spec (zlen rest) 8) as [_|H8]; [apply ok_or_err_Err|].
      pose proof (getz_byte rest 3 Hb ltac:(lia)) as Hs.
      rewrite (inb_true bam_jumps _ Hs). unfold chk3.
      destruct (Z.leb_spec (getz bam_jumps (getz rest 3)) 0) as [_|Hsz]; [apply ok_or_err_Err|].
      set (cnt := le_get (zfirstn 4 (zskipn 4 rest))).
      assert (0 <= cnt) by (apply le_get_range, all_bytes_firstn, all_bytes_skipn; assumption).
      destruct (_ || _); [apply ok_or_err_Err|].
      apply ocons_total, Hrec. pose proof (Z.mul_nonneg_nonneg cnt (getz bam_jumps (getz rest 3))). lia.
Qed.

Theorem parse_aux_total aux : all_bytes aux = true -> ok_or_err (parse_aux aux).
Proof.
  intros Hb. unfold parse_aux. destruct (zlen aux =? 0); [apply ok_or_err_Ok|].
  apply parse_aux_loop_total; [assumption|lia].
Qed.
