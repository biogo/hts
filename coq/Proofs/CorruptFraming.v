(** C10 — substitutions in the framing bytes of a member header. *)
From Coq Require Import ZArith List Bool Lia.
From Hts Require Import Base.Prim Base.WrList Generated Model.Corrupt Proofs.Corrupt.
Import ListNotations.
Open Scope Z_scope.

Section Laws3.
Variable inflate : list Z -> option (list Z * list Z).
Variable crc32 : list Z -> Z.
Variable deflate : list Z -> list Z.
Hypothesis inflate_deflate : forall d r, inflate (deflate d ++ r) = Some (d, r).
(** The second law about DEFLATE: a proper prefix of a deflate stream does not decode. *)
Hypothesis inflate_prefix : forall d (t : nat), (t < length (deflate d))%nat -> inflate (firstn t (deflate d)) = None.

Notation mk := (mk_member crc32 deflate).
Notation strm := (stream crc32 deflate).
Notation wfd := (wf crc32 deflate).
Notation bdy := (body crc32 deflate).
Notation trl := (trailer crc32).

(** A member whose two BSIZE bytes are [lo], [hi] (everything else as written). *)
Definition header' (lo hi : Z) : list Z := [31; 139; 8; 4; 0; 0; 0; 0; 0; 255; 6; 0; 66; 67; 2; 0; lo; hi].

Lemma gz_body_cut : forall d (t : nat) f acc, (t < length (bdy d))%nat ->
  gz_body inflate crc32 (S f) (firstn t (bdy d)) acc = None.
Proof.
  intros d t f acc Ht. unfold body in *. rewrite app_length in Ht. change (length (trl d)) with 8%nat in Ht.
  cbn [gz_body]. destruct (Nat.ltb t (length (deflate d))) eqn:E.
  - apply Nat.ltb_lt in E. rewrite firstn_app_lt by lia. rewrite inflate_prefix by exact E. reflexivity.
  - apply Nat.ltb_ge in E. rewrite firstn_app_ge by exact E. rewrite inflate_deflate.
    (* fewer than the eight bytes of a trailer are left *)
    assert (L : (length (firstn (t - length (deflate d)) (trl d)) < 8)%nat) by (rewrite firstn_length; lia).
    revert L. generalize (firstn (t - length (deflate d)) (trl d)). intros l L.
    do 8 (destruct l as [|? l]; [reflexivity|]). simpl in L. lia.
Qed.

(** The gzip layer over a whole member body followed by the first k bytes of
    the members after it (what a larger BSIZE hands to it): it fails, or k is
    exactly the end of j following members and the data of all of them is
    returned in order — gzip's multistream mode joins the members. *)
Lemma gz_body_span : forall ds d (k f : nat) acc, wfd d -> Forall wfd ds -> (k < S f)%nat ->
  (k <= length (strm ds))%nat ->
  gz_body inflate crc32 (S f) (bdy d ++ firstn k (strm ds)) acc = None \/
  exists j, k = length (strm (firstn j ds)) /\
    gz_body inflate crc32 (S f) (bdy d ++ firstn k (strm ds)) acc = Some (acc ++ d ++ concat (firstn j ds)).
Proof.
  induction ds as [|d2 ds IH]; intros d k f acc W Ws F Hk; rewrite (gz_body_unfold inflate crc32 deflate inflate_deflate) by exact W.
  all: destruct (bgzf_MaxBlockSize <? zlen (acc ++ d)); [left; reflexivity|].
  all: destruct k as [|k']; [right; exists 0%nat; split; [reflexivity|]; cbn; rewrite !app_nil_r; reflexivity|].
  - cbn in Hk. lia.
  - inversion Ws as [|? ? W2 Ws']; subst. rewrite stream_cons in *.
    set (k := S k') in *.
    destruct (firstn k (mk d2 ++ strm ds)) as [|x0 xs] eqn:EF.
    { exfalso. assert (length (firstn k (mk d2 ++ strm ds)) = k) by (apply firstn_length_le; exact Hk). rewrite EF in H. simpl in H. unfold k in H. lia. }
    rewrite <- EF. clear EF x0 xs.
    destruct (Nat.leb (length (mk d2)) k) eqn:E.
    + apply Nat.leb_le in E. rewrite firstn_app_ge by exact E.
      rewrite gz_header_member.
      destruct f as [|f']; [unfold k in F; lia|].
      rewrite app_length in Hk.
      assert (Lm : (18 <= length (mk d2))%nat) by (unfold mk_member; rewrite app_length, header_len; lia).
      destruct (IH d2 (k - length (mk d2))%nat f' (acc ++ d) W2 Ws' ltac:(lia) ltac:(lia)) as [N | [j [Hj G]]].
      * left. exact N.
      * right. exists (S j). cbn [firstn]. rewrite stream_cons, app_length. split; [lia|].
        rewrite G. cbn [concat]. rewrite <- !app_assoc. reflexivity.
    + apply Nat.leb_gt in E. rewrite firstn_app_lt by lia. left.
      unfold mk_member. destruct (Nat.ltb k 18) eqn:E18.
      * apply Nat.ltb_lt in E18. rewrite firstn_app_lt by (rewrite header_len; lia).
        rewrite (cut_header crc32 deflate) by (unfold k; lia). reflexivity.
      * apply Nat.ltb_ge in E18. rewrite firstn_app_ge, header_len by (rewrite header_len; exact E18).
        change (gz_header crc32 (header crc32 deflate d2 ++ firstn (k - 18) (bdy d2)))
          with (@ROk (list Z * list Z) ([66; 67; 2; 0; bsize crc32 deflate d2 mod 256; bsize crc32 deflate d2 / 256], firstn (k - 18) (bdy d2))).
        destruct f as [|f']; [unfold k in F; lia|].
        apply gz_body_cut. unfold mk_member in E. rewrite app_length, header_len in E. lia.
Qed.

Lemma stream_skipn : forall ds j, skipn (length (strm (firstn j ds))) (strm ds) = strm (skipn j ds).
Proof.
  intros ds j. rewrite <- (firstn_skipn j ds) at 2. rewrite stream_app, skipn_app, Nat.sub_diag, skipn_all. reflexivity.
Qed.

Lemma bsize_member : forall lo hi d ds, wfd d -> Forall wfd ds ->
  read_member inflate crc32 true (header' lo hi ++ bdy d ++ strm ds) = RErr \/
  exists j, read_member inflate crc32 true (header' lo hi ++ bdy d ++ strm ds) = ROk (d ++ concat (firstn j ds), strm (skipn j ds)).
Proof.
  intros lo hi d ds W Ws. unfold header'. rewrite read_member_sized. cbv zeta. set (need := le16 lo hi + 1 - 18).
  pose proof (body_len crc32 deflate d) as Hbody.
  destruct (need =? 0); [left; reflexivity|].
  destruct (need <? 0) eqn:E2; [left; reflexivity|]. apply Z.ltb_ge in E2.
  rewrite zlen_app'. pose proof (zlen_nonneg (strm ds)) as Hs.
  destruct (zlen (bdy d) + zlen (strm ds) =? 0) eqn:E3; [apply Z.eqb_eq in E3; lia|].
  destruct (zlen (bdy d) + zlen (strm ds) <? need) eqn:E4; [left; reflexivity|]. apply Z.ltb_ge in E4.
  destruct (Nat.ltb (Z.to_nat need) (length (bdy d))) eqn:E5.
  - apply Nat.ltb_lt in E5. rewrite firstn_app_lt by lia. rewrite gz_body_cut by exact E5. left. reflexivity.
  - apply Nat.ltb_ge in E5. rewrite firstn_app_ge by exact E5.
    set (k := (Z.to_nat need - length (bdy d))%nat).
    assert (Hk : (k <= length (strm ds))%nat) by (unfold k, zlen in *; lia).
    assert (Lm : length (bdy d ++ firstn k (strm ds)) = (length (bdy d) + k)%nat) by (rewrite app_length, firstn_length_le; lia).
    rewrite Lm.
    destruct (gz_body_span ds d k (length (bdy d) + k) [] W Ws ltac:(lia) Hk) as [N | [j [Hj Gs]]].
    + rewrite N. left. reflexivity.
    + rewrite Gs. right. exists j. simpl app. f_equal. f_equal.
      rewrite skipn_app. rewrite skipn_all2 by lia. simpl.
      fold k. rewrite Hj. apply stream_skipn.
Qed.

Lemma bsize_corruption_gen : forall lo hi d ds fuel, wfd d -> Forall wfd ds -> (length ds < fuel)%nat ->
  let r := read_stream inflate crc32 true (S fuel) (header' lo hi ++ bdy d ++ strm ds) in
  r = ([], false) \/ r = (concat (d :: ds), true).
Proof.
  intros lo hi d ds fuel W Ws F r. unfold r. cbn [read_stream].
  destruct (bsize_member lo hi d ds W Ws) as [E | [j E]]; rewrite E.
  - left. reflexivity.
  - right. rewrite (read_stream_full inflate crc32 deflate inflate_deflate).
    + f_equal. cbn [concat]. rewrite <- app_assoc. f_equal. rewrite <- concat_app. rewrite firstn_skipn. reflexivity.
    + rewrite <- (firstn_skipn j ds) in Ws. apply Forall_app in Ws. apply Ws.
    + rewrite skipn_length. lia.
Qed.

Lemma header'_orig : forall d, header' (bsize crc32 deflate d mod 256) (bsize crc32 deflate d / 256) = header crc32 deflate d.
Proof. reflexivity. Qed.

Lemma flg_ignored_bits : forall v tl, Z.testbit v 2 = true -> Z.testbit v 1 = false -> Z.testbit v 3 = false -> Z.testbit v 4 = false ->
  gz_header crc32 (31 :: 139 :: 8 :: v :: tl) = gz_header crc32 (31 :: 139 :: 8 :: 4 :: tl).
Proof.
  intros v tl H2 H1 H3 H4. do 6 (destruct tl as [|? tl]; [reflexivity|]).
  unfold gz_header. rewrite H2, H1, H3, H4. reflexivity.
Qed.

End Laws3.

Lemma gz_body_capacity : forall (inflate : list Z -> option (list Z * list Z)) (crc32 : list Z -> Z) f bdy acc out,
  gz_body inflate crc32 f bdy acc = Some out -> zlen out <= bgzf_MaxBlockSize.
Proof.
  intros inflate crc32 f. induction f as [|f IH]; intros bdy acc out H; [discriminate|].
  cbn [gz_body] in H.
  destruct (inflate bdy) as [[d1 rest]|]; [|discriminate].
  do 8 (destruct rest as [|? rest]; [discriminate|]).
  match type of H with (if ?c then _ else _) = _ => destruct c; [discriminate|] end.
  destruct (bgzf_MaxBlockSize <? zlen (acc ++ d1)) eqn:E.
  - change (bgzf_readToEOF_guard =? bgzf_MaxBlockSize) with true in H. discriminate.
  - apply Z.ltb_ge in E. destruct rest as [|x rest'].
    + injection H as H; subst. exact E.
    + destruct (gz_header crc32 (x :: rest')) as [[ex b2]| |]; try discriminate. eapply IH; eauto.
Qed.
