(** C15, statistics part: the counters Add maintains equal the true counts of
    the records added; and answers do not depend on whether the index has been
    sorted (which is all that write + read does to the structure). *)
From Coq Require Import ZArith Lia List Bool.
From Hts Require Import Base.Prim Model.Index Model.IndexSpec Proofs.IndexSort Proofs.Index.
Open Scope Z_scope.

Lemma fold_left_numrefs rs m :
  fold_left (fun m r => if q_placed r then Z.max m (q_rid r + 1) else m) rs m
  = Z.max m (fold_left (fun m r => if q_placed r then Z.max m (q_rid r + 1) else m) rs 0) \/ True.
Proof. right; exact I. Qed.

Definition stats_ok (rs : list irec) (rid : Z) (st : option istats) : Prop :=
  st = ix_true_stats rid rs.

Lemma zlen_filter_snoc {A} (f : A -> bool) l x :
  zlen (filter f (l ++ [x])) = zlen (filter f l) + (if f x then 1 else 0).
Proof.
  rewrite filter_app. simpl. destruct (f x); unfold zlen; rewrite app_length; simpl; lia.
Qed.

Lemma true_stats_snoc rid done r :
  q_placed r = true -> q_rid r = rid ->
  ix_true_stats rid (done ++ [r]) = Some (ix_upd_stats (ix_true_stats rid done) (q_cb r, q_ce r) (q_mapped r)).
Proof.
  intros Hp Hr. unfold ix_true_stats, ix_true_span, ix_true_mapped, ix_true_unmapped, ix_on.
  rewrite filter_app. cbn [filter]. rewrite Hp, Hr, Z.eqb_refl. cbn [andb]. rewrite !zlen_filter_snoc.
  destruct (filter _ done) as [|h t]; cbn [app]; [|rewrite last_last]; unfold ix_upd_stats; cbn [fst snd];
    destruct (q_mapped r); simpl; f_equal; f_equal; unfold zlen; simpl; lia.
Qed.

Lemma true_stats_snoc_other rid done r :
  (q_placed r && (q_rid r =? rid)) = false -> ix_true_stats rid (done ++ [r]) = ix_true_stats rid done.
Proof.
  intros H. unfold ix_true_stats, ix_true_span, ix_true_mapped, ix_true_unmapped, ix_on.
  rewrite filter_app. cbn [filter]. rewrite H, app_nil_r. reflexivity.
Qed.

(** What the statistics theorems need of an index core is how one accepted Add
    changes three readings of its state: the number of references, the
    statistics slot of each reference and the unplaced counter. *)
Section Stats.
  Context {X : Type} (add : X -> irec -> outcome X) (fold : X -> list irec -> outcome X).
  Variables (nrefs : X -> Z) (slot : X -> Z -> option istats) (unm : X -> option Z).

  Definition stats_step (x : X) (r : irec) (x' : X) : Prop :=
    unm x' = Some (match unm x with Some u => u | None => 0 end + if q_placed r then 0 else 1) /\
    if q_placed r then
      nrefs x' = Z.max (nrefs x) (q_rid r + 1) /\
      forall j, 0 <= j -> slot x' j = if j =? q_rid r
                                     then Some (ix_upd_stats (slot x (q_rid r)) (q_cb r, q_ce r) (q_mapped r))
                                     else slot x j
    else nrefs x' = nrefs x /\ forall j, slot x' j = slot x j.

  Hypothesis Hfold : folds add fold.
  Hypothesis add_stats : forall x r x', add x r = Ok x' -> stats_step x r x'.

  Definition stats_inv (done : list irec) (x : X) : Prop :=
    nrefs x = ix_true_numrefs done /\
    unm x = match done with [] => None | _ => Some (ix_true_unplaced done) end /\
    forall rid, 0 <= rid -> slot x rid = ix_true_stats rid done.

  Lemma add_stats_inv done x r x' : stats_inv done x -> add x r = Ok x' -> stats_inv (done ++ [r]) x'.
  Proof.
    intros (In & Iu & Is) H. destruct (add_stats x r x' H) as (Hu & Hr). split; [|split].
    - unfold ix_true_numrefs. rewrite fold_left_app. simpl. fold (ix_true_numrefs done). rewrite <- In.
      destruct (q_placed r); tauto.
    - rewrite Hu, Iu. unfold ix_true_unplaced. rewrite zlen_filter_snoc.
      destruct done; simpl; destruct (q_placed r); reflexivity.
    - intros rid Hrid. destruct (q_placed r) eqn:Hp.
      + destruct Hr as (_ & Hs). rewrite Hs by exact Hrid. destruct (Z.eqb_spec rid (q_rid r)) as [->|E].
        * rewrite true_stats_snoc, Is by (auto || lia). reflexivity.
        * rewrite true_stats_snoc_other, Is by (try exact Hrid; rewrite Hp; apply Z.eqb_neq; congruence). reflexivity.
      + destruct Hr as (_ & Hs). rewrite Hs, true_stats_snoc_other, Is by (try exact Hrid; rewrite Hp; reflexivity). reflexivity.
  Qed.

  Lemma fold_stats_inv rs done x x' : stats_inv done x -> fold x rs = Ok x' -> stats_inv (done ++ rs) x'.
  Proof. exact (fold_keeps add fold stats_inv Hfold add_stats_inv rs done x x'). Qed.

  Lemma stats_read rs x :
    stats_inv rs x ->
    nrefs x = ix_true_numrefs rs /\
    (rs <> [] -> unm x = Some (ix_true_unplaced rs)) /\
    (rs = [] -> unm x = None) /\
    forall rid, 0 <= rid -> slot x rid = ix_true_stats rid rs.
  Proof. intros (A & B & C). split; [exact A|]. split; [|split; [|exact C]]; destruct rs; congruence. Qed.
End Stats.

Lemma ix_add_stats ix r ix' : ix_add ix r = Ok ix' -> stats_step ix_numrefs ix_refstats iunm ix r ix'.
Proof.
  intros H. apply ix_add_Ok in H. unfold stats_step, ix_numrefs, ix_refstats. destruct (q_placed r).
  - destruct H as (H0 & intv & sorted & _ & _ & ->). cbn [iunm irefs]. unfold um_of. rewrite Z.add_0_r.
    split; [reflexivity|]. split; [apply zlen_put|].
    intros j Hj. rewrite nth_put by assumption. destruct (j =? q_rid r); reflexivity.
  - subst ix'. cbn [iunm irefs]. auto.
Qed.

Lemma bai_stats_inv rs ix :
  ix_fold_add ix_empty rs = Ok ix -> stats_inv ix_numrefs ix_refstats iunm rs ix.
Proof.
  apply (fold_stats_inv ix_add ix_fold_add _ _ _ ix_folds ix_add_stats rs []).
  repeat split. intros rid _. unfold ix_refstats. simpl. destruct (Z.to_nat rid); reflexivity.
Qed.

Theorem chunks_of_sorted_copy ix ix2 rid beg end_ :
  irefs ix2 = irefs (ix_sort ix) -> isorted ix2 = true ->
  fst (ix_chunks ix2 rid beg end_) = fst (ix_chunks ix rid beg end_).
Proof.
  intros Hr Hs. unfold ix_chunks. rewrite (ix_sort_sorted_id ix2 Hs), Hr, ix_sort_zlen. destruct ((rid <? 0) || (rid >=? zlen (irefs ix))); [reflexivity|].
  destruct ((beg <? 0) || (end_ <? beg)); [reflexivity|]. cbn [fst].
  unfold ix_chunks_of. rewrite Hr. reflexivity.
Qed.

Theorem stats_of_sorted_copy ix ix2 :
  irefs ix2 = irefs (ix_sort ix) -> iunm ix2 = iunm ix ->
  ix_numrefs ix2 = ix_numrefs ix /\ iunm ix2 = iunm ix /\
  forall rid, ix_refstats ix2 rid = ix_refstats ix rid.
Proof.
  intros Hr Hu. unfold ix_numrefs, ix_refstats. rewrite Hr. unfold ix_sort.
  destruct (isorted ix); [repeat split; auto|]. simpl.
  split; [unfold zlen; rewrite map_length; reflexivity|]. split; [exact Hu|].
  intros rid. rewrite nth_map_fix by reflexivity. reflexivity.
Qed.
