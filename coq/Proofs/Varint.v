(** The scheme ITF-8 and LTF-8 share, for any value and length n: an n-byte form is a first
    byte of n-1 one bits, a zero bit and the top 8-n bits of the value, then
    the low n-1 bytes big-endian.  Nothing here mentions a generated function;
    Itf8.v and Ltf8.v instantiate it arm by arm. *)
From Coq Require Import ZArith Lia List Bool.
From Hts Require Import Base.Prim Base.Bits Model.Itf8Spec.
Open Scope Z_scope.

Lemma zlen_cons {A} (a : A) l : zlen (a :: l) = 1 + zlen l.
Proof. unfold zlen. cbn [length]. lia. Qed.

Lemma firstn_app_exact {A} (a b : list A) : firstn (length a) (a ++ b) = a.
Proof. rewrite firstn_app, Nat.sub_diag, firstn_all. cbn [firstn]. apply app_nil_r. Qed.

Lemma skipn_app_exact {A} (a b : list A) : skipn (length a) (a ++ b) = b.
Proof. rewrite skipn_app, Nat.sub_diag, skipn_all. reflexivity. Qed.

Lemma forallb_firstn {A} (f : A -> bool) n l : forallb f l = true -> forallb f (firstn n l) = true.
Proof.
  revert n; induction l as [|a l IH]; intros [|n] H; cbn in *; auto.
  apply andb_prop in H. destruct H as [Ha Hl]. rewrite Ha, IH by assumption. reflexivity.
Qed.

Lemma is_byte_true x : 0 <= x < 256 -> is_byte x = true.
Proof. intros H. unfold is_byte. apply andb_true_intro. split; [apply Z.leb_le|apply Z.ltb_lt]; lia. Qed.

Lemma all_bytes_cons b t : all_bytes (b :: t) = true -> 0 <= b < 256 /\ all_bytes t = true.
Proof.
  unfold all_bytes; cbn [forallb]. intros H. apply andb_prop in H. destruct H as [H1 H2].
  apply andb_prop in H1. destruct H1 as [Ha Hb]. apply Z.leb_le in Ha. apply Z.ltb_lt in Hb. auto.
Qed.

Lemma all_bytes_intro b t : 0 <= b < 256 -> all_bytes t = true -> all_bytes (b :: t) = true.
Proof. intros Hb Ht. cbn [all_bytes forallb]. rewrite is_byte_true by assumption. exact Ht. Qed.

Lemma all_bytes_app a b : all_bytes a = true -> all_bytes b = true -> all_bytes (a ++ b) = true.
Proof. unfold all_bytes. intros Ha Hb. rewrite forallb_app, Ha, Hb. reflexivity. Qed.

(** No bound on [i]: outside the slice [getz] yields 0. *)
Lemma getz_byte l i : all_bytes l = true -> 0 <= getz l i < 256.
Proof.
  unfold getz. revert l. induction (Z.to_nat i) as [|n IH]; intros [|a l] H; cbn [nth]; try lia.
  - apply (all_bytes_cons _ _ H).
  - apply IH, (all_bytes_cons _ _ H).
Qed.

Lemma if_ltb_lt {A} x c (a b : A) : x < c -> (if x <? c then a else b) = a.
Proof. intros H. rewrite (proj2 (Z.ltb_lt x c) H). reflexivity. Qed.

Lemma if_ltb_ge {A} x c (a b : A) : c <= x -> (if x <? c then a else b) = b.
Proof. intros H. rewrite (proj2 (Z.ltb_ge x c) H). reflexivity. Qed.

(** Walks the cascades on [x] down to the arm the context puts [x] in. *)
Ltac take_arm x := rewrite ?(if_ltb_ge x) by lia; rewrite ?(if_ltb_lt x) by lia.

Lemma if_ltb_elim {A} (P : A -> Prop) x c k rest :
  (x < c -> P k) -> (c <= x -> P rest) -> P (if x <? c then k else rest).
Proof. intros Hk Hr. destruct (Z.ltb_spec x c); auto. Qed.

(** The same step down two cascades over the same comparisons at once: the Go
    [if] chain in the goal, and the length function, of which [n] is the value. *)
Lemma if_ltb_both {A} x c (a b r : A) (n k rest : Z) :
  (x < c -> n = k -> a = r) -> (c <= x -> n = rest -> b = r) ->
  n = (if x <? c then k else rest) -> (if x <? c then a else b) = r.
Proof. intros Ha Hb. destruct (Z.ltb_spec x c); auto. Qed.

Lemma if_eqb_split {A} x c (a b r : A) :
  (x = c -> a = r) -> (x <> c -> b = r) -> (if x =? c then a else b) = r.
Proof. intros Ha Hb. destruct (Z.eqb_spec x c); auto. Qed.

Lemma if_Ok {A} (c : bool) (a b : A) : (if c then Ok a else Ok b) = Ok (if c then a else b).
Proof. destruct c; reflexivity. Qed.

Lemma inb_true {A} (l : list A) i k : k <= zlen l -> 0 <= i < k -> inb l i = true.
Proof. intros Hk Hi. unfold inb. apply andb_true_intro. split; [apply Z.leb_le|apply Z.ltb_lt]; lia. Qed.

Lemma inb_short {A} (l : list A) i : zlen l <= i -> inb l i = false.
Proof. intros H. unfold inb. rewrite (proj2 (Z.ltb_ge i (zlen l)) H). apply andb_false_r. Qed.

Lemma chk_idem {A} c (r : outcome A) : chk c (chk c r) = chk c r.
Proof. destruct c; reflexivity. Qed.

Lemma updz_at pre y (b : list Z) x : updz (pre ++ y :: b) (zlen pre) x = pre ++ x :: b.
Proof.
  unfold updz, zlen. rewrite Nat2Z.id. induction pre as [|a pre IH]; cbn; congruence.
Qed.

(** [_ = b[i]; b[i] = x] for each [x] of [xs] at consecutive indices, then
    [return n, b]: the body of an Encode arm, whose text is convertible to
    [chk (inb b (k-1)) (put b 0 [x0; ...] k)]. *)
Fixpoint put (b : list Z) (i : Z) (xs : list Z) (n : Z) : outcome (Z * list Z) :=
  match xs with
  | [] => Ok (n, b)
  | x :: t => chk (inb b i) (put (updz b i x) (i + 1) t n)
  end.

Lemma put_app xs : forall pre b n, zlen xs <= zlen b ->
  put (pre ++ b) (zlen pre) xs n = Ok (n, pre ++ xs ++ skipn (length xs) b).
Proof.
  induction xs as [|x t IH]; intros pre b n Hl; [reflexivity|].
  rewrite zlen_cons in Hl. pose proof (zlen_nonneg t).
  destruct b as [|y b]; [change (zlen (@nil Z)) with 0 in Hl; lia|]. rewrite zlen_cons in Hl.
  cbn [put]. rewrite (inb_true _ _ (zlen pre + 1)), updz_at
    by (rewrite ?zlen_app, ?zlen_cons; pose proof (zlen_nonneg pre); pose proof (zlen_nonneg b); lia).
  change (pre ++ x :: b) with (pre ++ [x] ++ b). rewrite app_assoc.
  replace (zlen pre + 1) with (zlen (pre ++ [x])) by apply zlen_app.
  cbn [chk]. rewrite IH by lia. rewrite <- app_assoc. reflexivity.
Qed.

(** An arm: the first statement [_ = b[k-1]] panics on a short buffer before
    anything is written; otherwise the [k] bytes replace the first [k]. *)
Lemma put_arm b xs ys k : 0 < k -> zlen xs = k -> xs = ys ->
  chk (inb b (k - 1)) (put b 0 xs k) =
  if zlen b <? k then Panic 1 else Ok (k, ys ++ skipn (Z.to_nat k) b).
Proof.
  intros H0 Hk <-. destruct (Z.ltb_spec (zlen b) k) as [Hs|Hl].
  - rewrite inb_short by lia. reflexivity.
  - rewrite (inb_true b _ k) by lia. cbn [chk]. rewrite <- Hk in Hl.
    rewrite (put_app xs [] b k Hl : put b 0 xs k = _), <- Hk. unfold zlen. rewrite Nat2Z.id. reflexivity.
Qed.

(** On a goal [(let x := t in body) = r]: substitutes this [let] only.  An
    Encode arm binds the buffer after each store; with those bindings written
    out ([unfold], [cbv zeta]) an arm is quadratic in its length. *)
Ltac open_outer_let :=
  match goal with |- (let x := ?t in @?f x) = ?r => change (f t = r); cbv beta end.

Lemma be_bytes_shifts k u :
  be_bytes k u = map (fun j => u8 (Z.shiftr u (8 * Z.of_nat j))) (rev (seq 0 k)).
Proof.
  induction k as [|k IH]; [reflexivity|].
  rewrite seq_S, rev_app_distr. cbn [be_bytes rev app map plus]. rewrite <- IH, shiftr_div by lia. reflexivity.
Qed.

Lemma be_bytes_length k u : length (be_bytes k u) = k.
Proof. induction k; cbn; congruence. Qed.

Lemma be_bytes_all_bytes k u : all_bytes (be_bytes k u) = true.
Proof.
  induction k as [|k IH]; [reflexivity|]. cbn [be_bytes all_bytes forallb].
  fold (all_bytes (be_bytes k u)). rewrite IH, is_byte_true; [reflexivity|].
  apply Z.mod_pos_bound. reflexivity.
Qed.

(** The n-byte form of [u]: n-1 one bits, a zero bit and the bits of [u]
    above its low n-1 bytes, then those bytes. *)
Definition form (n u : Z) : list Z :=
  (256 - 2 ^ (9 - n) + u / 2 ^ (8 * (n - 1))) :: be_bytes (Z.to_nat (n - 1)) u.

Lemma top_bits n u : 1 <= n <= 8 -> 0 <= u < 2 ^ (7 * n) -> 0 <= u / 2 ^ (8 * (n - 1)) < 2 ^ (8 - n).
Proof.
  intros Hn Hu. assert (0 < 2 ^ (8 * (n - 1))) by (apply Z.pow_pos_nonneg; lia). split.
  - apply Z.div_pos; lia.
  - apply Z.div_lt_upper_bound; [assumption|]. rewrite <- Z.pow_add_r by lia.
    replace (8 * (n - 1) + (8 - n)) with (7 * n) by lia. apply Hu.
Qed.

Lemma prefix_multiple n : 1 <= n <= 8 -> 256 - 2 ^ (9 - n) = (2 ^ n - 2) * 2 ^ (8 - n).
Proof.
  intros Hn. rewrite Z.mul_sub_distr_r, <- Z.pow_add_r, <- (Z.pow_succ_r 2 (8 - n)) by lia.
  replace (n + (8 - n)) with 8 by lia. replace (Z.succ (8 - n)) with (9 - n) by lia. reflexivity.
Qed.

Lemma form_length n u : 1 <= n -> zlen (form n u) = n.
Proof. intros Hn. unfold form. rewrite zlen_cons. unfold zlen. rewrite be_bytes_length. lia. Qed.

Lemma form_all_bytes n u : 1 <= n <= 8 -> 0 <= u < 2 ^ (7 * n) -> all_bytes (form n u) = true.
Proof.
  intros Hn Hu. apply all_bytes_intro; [|apply be_bytes_all_bytes]. pose proof (top_bits n u Hn Hu).
  replace (9 - n) with (Z.succ (8 - n)) by lia. rewrite Z.pow_succ_r by lia.
  assert (2 ^ (8 - n) <= 2 ^ 7) by (apply Z.pow_le_mono_r; lia). change (2 ^ 7) with 128 in *. lia.
Qed.

Lemma form_1 u : form 1 u = [u].
Proof. unfold form. cbn. rewrite Z.div_1_r. reflexivity. Qed.

(** What an Encode arm writes, [byte(u >> 8(n-1)) & mask | prefix] and then
    [byte(u >> 8j)] for j = n-2 .. 0, is the n-byte form. *)
Lemma form_written n u : 1 <= n <= 8 -> 0 <= u < 2 ^ (7 * n) ->
  Z.lor (Z.land (u8 (Z.shiftr u (8 * (n - 1)))) (2 ^ (8 - n) - 1)) (256 - 2 ^ (9 - n))
    :: map (fun j => u8 (Z.shiftr u (8 * Z.of_nat j))) (rev (seq 0 (Z.to_nat (n - 1))))
  = form n u.
Proof.
  intros Hn Hu. unfold form. rewrite <- be_bytes_shifts. f_equal.
  pose proof (top_bits n u Hn Hu) as Ht.
  assert (2 ^ (8 - n) <= 2 ^ 8) by (apply Z.pow_le_mono_r; lia).
  rewrite shiftr_div, land_ones_mod by lia. unfold u8, wrapu.
  rewrite (Z.mod_small _ (2 ^ 8)), Z.mod_small by lia.
  rewrite prefix_multiple, lor_low_high by lia. apply Z.add_comm.
Qed.

Lemma be_value_acc t : forall acc, be_value t acc = acc * 2 ^ (8 * zlen t) + be_value t 0.
Proof.
  induction t as [|b t IH]; intros acc; cbn [be_value]; [change (zlen (@nil Z)) with 0; lia|].
  rewrite IH, (IH (0 * 256 + b)), zlen_cons, Z.mul_add_distr_l, Z.pow_add_r by (pose proof (zlen_nonneg t); lia).
  change (2 ^ (8 * 1)) with 256. ring.
Qed.

Lemma be_value_snoc t x : forall acc, be_value (t ++ [x]) acc = be_value t acc * 256 + x.
Proof. induction t as [|b t IH]; intros acc; cbn [app be_value]; [reflexivity|apply IH]. Qed.

Lemma be_value_bound t : all_bytes t = true -> 0 <= be_value t 0 < 2 ^ (8 * zlen t).
Proof.
  induction t as [|b t IH]; intros Hb; [cbn; lia|]. apply all_bytes_cons in Hb. destruct Hb as [B Ht].
  cbn [be_value]. rewrite be_value_acc, zlen_cons, Z.mul_add_distr_l, Z.pow_add_r by (pose proof (zlen_nonneg t); lia).
  change (2 ^ (8 * 1)) with 256. specialize (IH Ht). nia.
Qed.

Lemma be_value_be_bytes k u acc :
  be_value (be_bytes k u) acc = acc * 2 ^ (8 * Z.of_nat k) + u mod 2 ^ (8 * Z.of_nat k).
Proof.
  revert acc; induction k as [|k IH]; intros acc.
  - cbn [be_bytes be_value]. change (8 * Z.of_nat 0) with 0. change (2 ^ 0) with 1. rewrite Z.mod_1_r. lia.
  - cbn [be_bytes be_value]. rewrite IH.
    replace (8 * Z.of_nat (S k)) with (8 * Z.of_nat k + 8) by lia.
    rewrite Z.pow_add_r by lia. change (2 ^ 8) with 256.
    assert (Hp : 0 < 2 ^ (8 * Z.of_nat k)) by (apply Z.pow_pos_nonneg; lia).
    rewrite (Z.rem_mul_r u (2 ^ (8 * Z.of_nat k)) 256) by lia.
    ring.
Qed.

(** Read back: the low bits of the first byte on top of the payload are [u]. *)
Lemma form_value n u : 1 <= n <= 8 -> 0 <= u < 2 ^ (7 * n) ->
  be_value (be_bytes (Z.to_nat (n - 1)) u) ((256 - 2 ^ (9 - n) + u / 2 ^ (8 * (n - 1))) mod 2 ^ (8 - n)) = u.
Proof.
  intros Hn Hu. rewrite prefix_multiple, Z.add_comm, Z_mod_plus_full, Z.mod_small by (assumption || apply top_bits; assumption).
  rewrite be_value_be_bytes, Z2Nat.id, Z.mul_comm by lia. symmetry. apply Z.div_mod. apply Z.pow_nonzero; lia.
Qed.

Lemma wraps_small W x : 0 < W -> - 2 ^ (W - 1) <= x < 2 ^ (W - 1) -> wraps W x = x.
Proof.
  intros HW Hx. unfold wraps. replace (2 ^ W) with (2 * 2 ^ (W - 1)).
  - rewrite Z.mod_small; lia.
  - rewrite <- Z.pow_succ_r by lia. f_equal. lia.
Qed.

Lemma wraps_wrapu W v : 0 < W -> - 2 ^ (W - 1) <= v < 2 ^ (W - 1) -> wraps W (wrapu W v) = v.
Proof.
  intros HW Hv. unfold wraps, wrapu. rewrite Zplus_mod_idemp_l. apply (wraps_small W v HW Hv).
Qed.

(** Or-ing a value shifted to bit [s] and wrapped to [W] bits onto one below
    2^s is addition under the wrap: the shifted value keeps its low [s] bits
    clear when it wraps, and adding less than 2^s does not cross the wrap. *)
Lemma lor_wraps_shift W lo x s :
  0 <= s < W -> 0 <= lo < 2 ^ s -> - 2 ^ (W - 1) <= x < 2 ^ (W - 1) ->
  Z.lor lo (wraps W (Z.shiftl (wraps W x) s)) = wraps W (x * 2 ^ s + lo).
Proof.
  intros Hs Hlo Hx. rewrite (wraps_small W x), shiftl_mul by lia. unfold wraps.
  assert (Hh : 2 ^ (W - 1) = 2 ^ (W - 1 - s) * 2 ^ s) by (rewrite <- Z.pow_add_r by lia; f_equal; lia).
  assert (HW : 2 ^ W = 2 ^ (W - s) * 2 ^ s) by (rewrite <- Z.pow_add_r by lia; f_equal; lia).
  assert (Hp : 0 < 2 ^ s) by (apply Z.pow_pos_nonneg; lia).
  assert (Hq : 0 < 2 ^ (W - s)) by (apply Z.pow_pos_nonneg; lia).
  set (r := (x + 2 ^ (W - 1 - s)) mod 2 ^ (W - s)).
  assert (Hr : 0 <= r < 2 ^ (W - s)) by (apply Z.mod_pos_bound; assumption).
  assert (E : (x * 2 ^ s + 2 ^ (W - 1)) mod 2 ^ W = r * 2 ^ s).
  { rewrite Hh, HW, <- Z.mul_add_distr_r. apply Z.mul_mod_distr_r; lia. }
  replace (x * 2 ^ s + lo + 2 ^ (W - 1)) with (x * 2 ^ s + 2 ^ (W - 1) + lo) by ring.
  rewrite <- (Zplus_mod_idemp_l (x * 2 ^ s + 2 ^ (W - 1)) lo), E, (Z.mod_small (r * 2 ^ s + lo)) by nia.
  rewrite Hh, <- Z.mul_sub_distr_r, lor_low_high by lia. ring.
Qed.

(** The expression of a Decode arm: [lo] in the low [s0] bits, the bytes [mid]
    above it (big-endian, the first one highest), [hi] on top; every operand
    converted to the result type before and after its shift, as Go does. *)
Fixpoint or_be (W s0 lo hi : Z) (mid : list Z) : Z :=
  match mid with
  | [] => Z.lor (wraps W lo) (wraps W (Z.shiftl (wraps W hi) s0))
  | p :: t => Z.lor (or_be W s0 lo p t) (wraps W (Z.shiftl (wraps W hi) (s0 + 8 * zlen mid)))
  end.

(** Only the topmost operand can reach the sign bit, and it is or-ed in last. *)
Lemma or_be_value W s0 lo mid : forall hi,
  8 < W -> 0 <= s0 -> s0 + 8 * zlen mid < W ->
  0 <= lo < 2 ^ s0 -> 0 <= hi < 256 -> all_bytes mid = true ->
  or_be W s0 lo hi mid = wraps W (be_value mid hi * 2 ^ s0 + lo).
Proof.
  induction mid as [|p t IH]; intros hi HW Hs Hlen Hlo Hhi Hb; cbn [or_be be_value];
    assert (2 ^ 8 <= 2 ^ (W - 1)) by (apply Z.pow_le_mono_r; lia).
  - change (zlen (@nil Z)) with 0 in Hlen.
    assert (2 ^ s0 <= 2 ^ (W - 1)) by (apply Z.pow_le_mono_r; lia).
    rewrite (wraps_small W lo) by lia. apply lor_wraps_shift; lia.
  - apply all_bytes_cons in Hb. destruct Hb as [Hp Ht]. rewrite zlen_cons in *. pose proof (zlen_nonneg t) as Hz.
    set (s := s0 + 8 * (1 + zlen t)) in *.
    pose proof (be_value_bound t Ht) as Hv.
    assert (E : 2 ^ s = 2 ^ s0 * (256 * 2 ^ (8 * zlen t))).
    { subst s. rewrite Z.mul_add_distr_l, !Z.pow_add_r by lia. reflexivity. }
    assert (0 < 2 ^ s0) by (apply Z.pow_pos_nonneg; lia).
    assert (Hlow : 0 <= be_value t p * 2 ^ s0 + lo < 2 ^ s) by (rewrite (be_value_acc t p), E; nia).
    assert (2 ^ s <= 2 ^ (W - 1)) by (apply Z.pow_le_mono_r; lia).
    rewrite IH, wraps_small, lor_wraps_shift by (assumption || lia).
    f_equal. rewrite (be_value_acc t (hi * 256 + p)), (be_value_acc t p), E. ring.
Qed.

(** The bytes [bs[i]], ..., [bs[i+m-1]] as an arm names them. *)
Definition bytes_at (bs : list Z) (i m : nat) : list Z := map (fun j => getz bs (Z.of_nat j)) (seq i m).

Lemma firstn_skipn_bytes_at m : forall i bs, Z.of_nat (i + m) <= zlen bs -> firstn m (skipn i bs) = bytes_at bs i m.
Proof.
  unfold bytes_at, getz, zlen. induction m as [|m IH]; intros i bs H; [reflexivity|].
  cbn [seq map]. rewrite Nat2Z.id, <- IH by lia. clear IH.
  revert bs H. induction i as [|i IH]; intros [|b bs] H; cbn [length] in H; try lia; [reflexivity|].
  apply (IH bs). lia.
Qed.

Lemma bytes_at_all_bytes bs m : all_bytes bs = true -> forall i, all_bytes (bytes_at bs i m) = true.
Proof.
  intros Hb. induction m as [|m IH]; intros i; [reflexivity|].
  apply all_bytes_intro; [apply getz_byte, Hb|apply IH].
Qed.

(** An arm that reads [hi] on top of the [m+1] bytes from [bs[i]] on, each a
    byte lower than the one before: its value is what the specification makes
    of the same bytes.  The buffer stays a variable. *)
Lemma or_be_bytes W bs i m hi e :
  8 * Z.of_nat (S m) < W -> all_bytes bs = true -> 0 <= hi < 256 -> Z.of_nat (i + S m) <= zlen bs ->
  e = or_be W 8 (getz bs (Z.of_nat (i + m))) hi (bytes_at bs i m) ->
  e = wraps W (be_value (firstn (S m) (skipn i bs)) hi).
Proof.
  intros HW Hb Hhi Hl ->. rewrite firstn_skipn_bytes_at by assumption. unfold bytes_at at 2.
  rewrite seq_S, map_app. cbn [map]. rewrite be_value_snoc. fold (bytes_at bs i m).
  rewrite or_be_value; [f_equal; ring|lia|lia| |apply getz_byte, Hb|assumption|apply bytes_at_all_bytes, Hb].
  unfold bytes_at, zlen. rewrite map_length, seq_length. lia.
Qed.

(** The head both decoders share: nothing to read, or too short for the
    count the first byte announces, is said before an arm is looked at. *)
Lemma decode_head (bs : list Z) n v (nil arms : outcome (Z * Z * bool)) :
  bs <> [] -> (n <= zlen bs -> arms = Ok (v, n, true)) ->
  (if zlen bs =? 0 then nil else chk (inb bs 0) (if zlen bs <? n then Ok (0, n, false) else arms))
  = Ok (if zlen bs <? n then (0, n, false) else (v, n, true)).
Proof.
  intros Hne Harms. destruct bs as [|b0 t]; [now elim Hne|]. pose proof (zlen_nonneg t). rewrite zlen_cons in *.
  rewrite (proj2 (Z.eqb_neq _ 0)), (inb_true (b0 :: t) 0 1) by (rewrite ?zlen_cons; lia). cbn [chk].
  destruct (Z.ltb_spec (1 + zlen t) n); [reflexivity|auto].
Qed.

Lemma chk_inb {A B} (l : list A) i k (r x : outcome B) :
  k <= zlen l -> 0 <= i < k -> r = x -> chk (inb l i) r = x.
Proof. intros Hk Hi <-. rewrite (inb_true l i k Hk Hi). reflexivity. Qed.

Lemma land_mask a k m : 0 <= k -> m = 2 ^ k - 1 -> Z.land a m = a mod 2 ^ k.
Proof. intros Hk ->. apply land_ones_mod; assumption. Qed.

Lemma mod_byte x k : 0 <= k <= 8 -> 0 <= x mod 2 ^ k < 256.
Proof.
  intros Hk. assert (0 < 2 ^ k) by (apply Z.pow_pos_nonneg; lia).
  assert (2 ^ k <= 2 ^ 8) by (apply Z.pow_le_mono_r; lia).
  pose proof (Z.mod_pos_bound x (2 ^ k)). change (2 ^ 8) with 256 in *. lia.
Qed.

(** Closes such an arm from [Hb : all_bytes bs = true], [Hlong : k <= zlen bs]
    (its bounds checks) and [Hhi : 0 <= hi < 256].  That the arm's expression
    is [or_be ...] holds by conversion, but [or_be] has to be unfolded first:
    left to itself the conversion test unfolds [Z.lor] on the other side and
    compares the two chains in exponential time. *)
Ltac read_arm Hb Hlong W i m Hhi :=
  repeat (apply (chk_inb _ _ _ _ _ Hlong); [split; [discriminate|reflexivity]|]);
  match type of Hb with all_bytes ?bs = true => match type of Hhi with _ <= ?hi < _ =>
    apply (f_equal (fun v => Ok (v, _, true))), (or_be_bytes W bs i m hi) end end;
  [reflexivity|exact Hb|exact Hhi|exact Hlong|cbv [or_be bytes_at map seq]; reflexivity].

(** A decoder in item form: the first byte announces the count; short input
    gives (0, n, false), otherwise the first n bytes determine the value. *)
Definition item_form (dec : list Z -> outcome (Z * Z * bool)) (spec_n : Z -> Z) (val : list Z -> Z) : Prop :=
  dec [] = Ok (0, 0, false) /\
  forall b0 t, all_bytes (b0 :: t) = true ->
    dec (b0 :: t) = Ok (let n := spec_n b0 in
                        if zlen (b0 :: t) <? n then (0, n, false)
                        else (val (firstn (Z.to_nat n) (b0 :: t)), n, true)).

Lemma item_no_overread dec spec_n val bs :
  item_form dec spec_n val -> (forall b, 1 <= spec_n b) -> all_bytes bs = true ->
  exists v n ok,
    dec bs = Ok (v, n, ok) /\
    (bs = [] -> n = 0 /\ ok = false) /\
    (bs <> [] -> n = spec_n (hd 0 bs) /\ ok = (n <=? zlen bs)) /\
    (ok = true -> dec (firstn (Z.to_nat n) bs) = Ok (v, n, true)) /\
    (ok = false -> v = 0).
Proof.
  intros [Hnil Hdec] Hn Hb. destruct bs as [|b0 t].
  { exists 0, 0, false. rewrite Hnil. repeat split; try discriminate; congruence. }
  rewrite (Hdec b0 t Hb). cbv zeta. cbn [hd]. pose proof (Hn b0) as Hr. set (n := spec_n b0) in *.
  destruct (Z.ltb_spec (zlen (b0 :: t)) n) as [Hs|Hs].
  { exists 0, n, false. repeat split; try discriminate. symmetry. apply Z.leb_gt. assumption. }
  eexists _, n, true. split; [reflexivity|]. repeat split; try discriminate.
  { symmetry. apply Z.leb_le. assumption. }
  intros _. replace (Z.to_nat n) with (S (Z.to_nat (n - 1))) by lia. cbn [firstn].
  apply all_bytes_cons in Hb.
  rewrite Hdec by (cbn [all_bytes forallb]; rewrite is_byte_true by apply Hb; apply forallb_firstn, Hb).
  cbv zeta. fold n.
  assert (Hl : zlen (b0 :: firstn (Z.to_nat (n - 1)) t) = n).
  { rewrite zlen_cons in *. unfold zlen in *. rewrite firstn_length. lia. }
  rewrite Hl, Z.ltb_irrefl. replace (Z.to_nat n) with (S (Z.to_nat (n - 1))) by lia. cbn [firstn].
  rewrite firstn_firstn, Nat.min_id. reflexivity.
Qed.
