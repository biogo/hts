(** C15, BAI at byte level: reading what WriteIndex wrote gives the sorted
    index, and writing that again gives the same bytes. *)
From Coq Require Import ZArith Lia List Bool.
From Hts Require Import Base.Prim Base.Bits Generated Model.Index Model.IndexIO Proofs.IndexSort Proofs.IndexIO.
Open Scope Z_scope.

Definition u64_fits (x : Z) : Prop := 0 <= x < 2 ^ 64.

Definition bin_fits (b : ibin) : Prop :=
  0 <= bnum b < 2 ^ 32 /\ bnum b <> internal_StatsDummyBin /\
  Forall chunk_fits (bchunks b) /\ zlen (bchunks b) < 2 ^ 31 /\ key_sorted fst (bchunks b).

Definition stats_fits (s : istats) : Prop :=
  u64_fits (sbeg s) /\ u64_fits (send s) /\ u64_fits (smapped s) /\ u64_fits (sunmapped s).

(** [+ 1]: the n_bin field counts the statistics pseudo-bin as well. *)
Definition ref_fits (r : iref) : Prop :=
  Forall bin_fits (rbins r) /\ zlen (rbins r) + 1 < 2 ^ 31 /\ key_sorted bnum (rbins r) /\
  match rstats r with Some s => stats_fits s | None => True end /\
  Forall u64_fits (rintv r) /\ zlen (rintv r) < 2 ^ 31 /\ key_sorted (fun x => x) (rintv r).

(** Everything fits its field and is in the order [Index.sort] establishes. *)
Definition idx_fits (ix : index) : Prop :=
  Forall ref_fits (irefs ix) /\ zlen (irefs ix) < 2 ^ 31 /\
  match iunm ix with Some u => u64_fits u | None => True end.

Lemma loop_bin_step k acc st b rest :
  bin_fits b ->
  rd_bins_loop (S k) acc st (wr_bin b ++ rest) = rd_bins_loop k (b :: acc) st rest.
Proof.
  intros (Hn & Hd & Hf & Hl & Hs). cbn [rd_bins_loop]. unfold wr_bin, wr_chunks. rewrite <- !app_assoc.
  erewrite rd_bind_ok by (apply rd_u32_wr; exact Hn).
  erewrite rd_bind_ok by (apply rd_i32_wr; pose proof (zlen_nonneg (bchunks b)); lia).
  destruct (bnum b =? internal_StatsDummyBin) eqn:E; [apply Z.eqb_eq in E; contradiction|].
  erewrite rd_bind_ok by (apply rd_chunks_wr; assumption).
  rewrite ix_isort_sorted_id by exact Hs. destruct b; reflexivity.
Qed.

Lemma loop_bins bins : forall k acc st rest,
  Forall bin_fits bins ->
  rd_bins_loop (length bins + k) acc st (flat_map wr_bin bins ++ rest) = rd_bins_loop k (rev bins ++ acc) st rest.
Proof.
  induction bins as [|b t IH]; intros k acc st rest H; [reflexivity|].
  inversion H; subst. cbn [length flat_map plus]. rewrite <- app_assoc.
  rewrite loop_bin_step by assumption. rewrite IH by assumption.
  cbn [rev]. rewrite <- app_assoc. reflexivity.
Qed.

Lemma rd_stats_wr s rest : stats_fits s -> rd_stats (wr_stats_body s ++ rest) = Ok (s, rest).
Proof.
  intros (A & B & C & D). unfold rd_stats, wr_stats_body. rewrite <- !app_assoc.
  do 4 (erewrite rd_bind_ok by (apply rd_u64_wr; assumption)). destruct s; reflexivity.
Qed.

Definition wr_stats_entry (st : option istats) : list Z :=
  match st with
  | Some s => io_u32 internal_StatsDummyBin ++ io_u32 2 ++ wr_stats_body s
  | None => []
  end.

Definition stats_count (st : option istats) : nat := match st with Some _ => 1%nat | None => 0%nat end.

Lemma loop_stats k acc st rest :
  match st with Some s => stats_fits s | None => True end ->
  rd_bins_loop (stats_count st + k) acc None (wr_stats_entry st ++ rest) = rd_bins_loop k acc st rest.
Proof.
  destruct st as [s|]; intros Hs; [|reflexivity]. cbn [rd_bins_loop wr_stats_entry stats_count plus]. rewrite <- !app_assoc.
  erewrite rd_bind_ok by (apply rd_u32_wr; vm_compute; split; congruence).
  erewrite rd_bind_ok by (apply rd_i32_wr; lia).
  rewrite Z.eqb_refl. change (2 =? 2) with true. cbv iota.
  erewrite rd_bind_ok by (apply rd_stats_wr; exact Hs). reflexivity.
Qed.

Lemma rd_bins_wr bins st rest :
  Forall bin_fits bins -> zlen bins + 1 < 2 ^ 31 -> key_sorted bnum bins ->
  match st with Some s => stats_fits s | None => True end ->
  rd_bins (io_u32 (zlen bins + match st with Some _ => 1 | None => 0 end)
           ++ flat_map wr_bin bins ++ wr_stats_entry st ++ rest) = Ok ((bins, st), rest).
Proof.
  intros Hb Hl Hs Hst. unfold rd_bins. pose proof (zlen_nonneg bins) as Hn.
  set (n := zlen bins + match st with Some _ => 1 | None => 0 end).
  assert (Hn' : 0 <= n < 2 ^ 31) by (unfold n; destruct st; lia).
  erewrite rd_bind_ok by (apply rd_i32_wr; exact Hn').
  destruct (n =? 0) eqn:E.
  - apply Z.eqb_eq in E. destruct bins; [|unfold n, zlen in E; simpl length in E; destruct st; lia].
    destruct st; [discriminate E|reflexivity].
  - erewrite rd_bind_ok by (apply rd_count_ok; lia).
    replace (Z.to_nat n) with (length bins + (stats_count st + 0))%nat by (unfold n, zlen; destruct st; simpl; lia).
    rewrite loop_bins, loop_stats by assumption.
    cbn [rd_bins_loop]. unfold rd_ret. rewrite app_nil_r, rev_involutive, ix_isort_sorted_id by exact Hs. reflexivity.
Qed.

Lemma rd_intervals_wr l rest :
  Forall u64_fits l -> zlen l < 2 ^ 31 -> key_sorted (fun x => x) l ->
  rd_intervals (io_u32 (zlen l) ++ flat_map io_u64 l ++ rest) = Ok (l, rest).
Proof.
  intros Hf Hl Hs. unfold rd_intervals. pose proof (zlen_nonneg l).
  erewrite rd_bind_ok by (apply rd_i32_wr; lia).
  destruct (zlen l =? 0) eqn:E.
  - apply Z.eqb_eq in E. destruct l; [reflexivity|]. unfold zlen in E. simpl in E. lia.
  - erewrite rd_bind_ok by (apply rd_count_ok; lia).
    replace (Z.to_nat (zlen l)) with (length l) by (unfold zlen; lia).
    erewrite rd_bind_ok by (apply (rd_rep_wr io_u64 rd_u64 u64_fits); [intros; apply rd_u64_wr; assumption|exact Hf]).
    unfold rd_ret. rewrite ix_sort_intv_eq, ix_isort_sorted_id by exact Hs. reflexivity.
Qed.

Lemma wr_ref_shape r :
  wr_ref r = io_u32 (zlen (rbins r) + match rstats r with Some _ => 1 | None => 0 end)
             ++ flat_map wr_bin (rbins r) ++ wr_stats_entry (rstats r)
             ++ io_u32 (zlen (rintv r)) ++ flat_map io_u64 (rintv r).
Proof. unfold wr_ref, wr_stats_entry. destruct (rstats r); reflexivity. Qed.

Lemma rd_ref_wr r rest : ref_fits r -> rd_ref (wr_ref r ++ rest) = Ok (r, rest).
Proof.
  intros (A & B & C & D & E & F & G). rewrite wr_ref_shape. unfold rd_ref. rewrite <- !app_assoc.
  erewrite rd_bind_ok by (apply rd_bins_wr; assumption).
  erewrite rd_bind_ok by (apply rd_intervals_wr; assumption).
  destruct r; reflexivity.
Qed.

Lemma rd_trailer_wr u :
  match u with Some n => u64_fits n | None => True end -> rd_trailer (wr_trailer u) = Ok (u, []).
Proof.
  destruct u as [n|]; intros H; [|reflexivity]. unfold wr_trailer.
  pose proof (rd_u64_wr n [] H) as R. unfold rd_u64, rd_bind, rd_bytes, rd_ret in R.
  rewrite app_nil_r in R. unfold rd_trailer.
  destruct (io_u64 n) as [|b t] eqn:E; [apply (f_equal (@length Z)) in E; unfold io_u64 in E; rewrite io_le_length in E; discriminate|].
  destruct (io_take 8 (b :: t)) as [[a r]|]; [|discriminate]. inversion R; subst. reflexivity.
Qed.

Lemma rd_core_wr refs u :
  Forall ref_fits refs -> zlen refs < 2 ^ 31 -> match u with Some n => u64_fits n | None => True end ->
  rd_core (zlen refs) (flat_map wr_ref refs ++ wr_trailer u) = Ok (mkIdx refs u true io_maxint, []).
Proof.
  intros Hr Hl Hu. unfold rd_core. pose proof (zlen_nonneg refs).
  erewrite rd_bind_ok by (apply rd_count_ok; lia).
  replace (Z.to_nat (zlen refs)) with (length refs) by (unfold zlen; lia).
  erewrite rd_bind_ok by (apply (rd_rep_wr wr_ref rd_ref ref_fits); [intros; apply rd_ref_wr; assumption|exact Hr]).
  erewrite rd_bind_ok by (apply rd_trailer_wr; exact Hu). reflexivity.
Qed.

Theorem bai_read_write ix :
  idx_fits (ix_sort ix) ->
  bai_read (fst (bai_write ix)) = Ok (Some (mkIdx (irefs (ix_sort ix)) (iunm ix) true io_maxint)).
Proof.
  intros (Hr & Hl & Hu). unfold bai_write, wr_core. cbn [fst]. unfold bai_read.
  erewrite rd_bind_ok by (exact (rd_bytes_wr bai_magic _)).
  change (negb (io_bytes_eqb bai_magic bai_magic)) with false. cbv iota.
  rewrite <- ix_sort_zlen. pose proof (zlen_nonneg (irefs (ix_sort ix))).
  erewrite rd_bind_ok by (apply rd_i32_wr; lia).
  erewrite rd_bind_ok by (apply rd_core_wr; assumption).
  unfold rd_ret. rewrite ix_sort_unm. reflexivity.
Qed.

Theorem bai_write_read_write ix :
  fst (bai_write (mkIdx (irefs (ix_sort ix)) (iunm ix) true io_maxint)) = fst (bai_write ix).
Proof.
  set (t := mkIdx (irefs (ix_sort ix)) (iunm ix) true io_maxint).
  assert (Ht : ix_sort t = t) by reflexivity.
  unfold bai_write, wr_core. rewrite Ht. cbn [fst]. subst t. cbn [irefs iunm].
  rewrite ix_sort_zlen, ix_sort_unm. reflexivity.
Qed.

(** An index that has never been sorted (flag false, as after Add) is put in
    the canonical order by [ix_sort]; only the field ranges remain to be assumed. *)
Definition bin_ranges (b : ibin) : Prop :=
  0 <= bnum b < 2 ^ 32 /\ bnum b <> internal_StatsDummyBin /\ Forall chunk_fits (bchunks b) /\ zlen (bchunks b) < 2 ^ 31.
Definition ref_ranges (r : iref) : Prop :=
  Forall bin_ranges (rbins r) /\ zlen (rbins r) + 1 < 2 ^ 31 /\
  match rstats r with Some s => stats_fits s | None => True end /\
  Forall u64_fits (rintv r) /\ zlen (rintv r) < 2 ^ 31.
Definition idx_ranges (ix : index) : Prop :=
  Forall ref_ranges (irefs ix) /\ zlen (irefs ix) < 2 ^ 31 /\
  match iunm ix with Some u => u64_fits u | None => True end.

Lemma ranges_fits_sorted ix : isorted ix = false -> idx_ranges ix -> idx_fits (ix_sort ix).
Proof.
  intros Hs (Hr & Hl & Hu). unfold ix_sort. rewrite Hs. split; [|split]; simpl.
  - apply Forall_map. eapply Forall_impl; [|exact Hr]. intros r (A & B & C & D & E).
    unfold ix_sort_ref. split; [|split; [|split; [|split; [|split; [|split]]]]]; simpl.
    + apply Forall_isort, Forall_map. eapply Forall_impl; [|exact A]. intros b (A1 & A2 & A3 & A4).
      unfold bin_fits, ix_sort_bin. simpl. split; [exact A1|]. split; [exact A2|]. split; [apply Forall_isort; exact A3|].
      split; [unfold zlen in *; rewrite ix_isort_length; exact A4|apply ix_isort_sorted].
    + unfold zlen in *. rewrite ix_isort_length, map_length. exact B.
    + apply ix_isort_sorted.
    + exact C.
    + rewrite ix_sort_intv_eq. apply Forall_isort. exact D.
    + rewrite ix_sort_intv_eq. unfold zlen in *. rewrite ix_isort_length. exact E.
    + rewrite ix_sort_intv_eq. apply ix_isort_sorted.
  - unfold zlen in *. rewrite map_length. exact Hl.
  - exact Hu.
Qed.
