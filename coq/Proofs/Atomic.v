(** C14 — linearizability of lock; body; unlock operations whose bodies are
    arbitrary micro-step programs over the shared state (Model/Atomic.v).

    The invariant has three independent parts: the mutex against the threads
    inside a critical section ([lock_ok]), the history against the phases
    ([hist_ok]), and the shared state against the sequential run of the
    finished operations ([seq_ok], which needs [lock_ok]). *)
From Coq Require Import List Bool Arith Lia.
From Hts Require Import Model.Atomic.
Import ListNotations.

#[local] Arguments Idle {Op Rs Lc}.
#[local] Arguments Waiting {Op Rs Lc}.
#[local] Arguments Body {Op Rs Lc}.
#[local] Arguments Ran {Op Rs Lc}.
#[local] Arguments Released {Op Rs Lc}.
#[local] Arguments EInv {Op Rs}.
#[local] Arguments ELin {Op Rs}.
#[local] Arguments ERes {Op Rs}.
#[local] Arguments mkcfg {St Op Rs Lc}.
#[local] Arguments sh {St Op Rs Lc}.
#[local] Arguments lk {St Op Rs Lc}.
#[local] Arguments prog {St Op Rs Lc}.
#[local] Arguments ph {St Op Rs Lc}.
#[local] Arguments hist {St Op Rs Lc}.
#[local] Arguments lin {St Op Rs Lc}.
#[local] Arguments release {St Op Rs Lc}.
#[local] Arguments init {St Op Rs Lc}.
#[local] Arguments last_of {Op Rs}.
#[local] Arguments ev_thread {Op Rs}.
#[local] Arguments bracketed {Op Rs}.
#[local] Arguments lin_of {Op Rs}.
#[local] Arguments seq_run {St Op Rs}.

Section Proofs.
  Variables (St Op Rs Lc : Type).
  Variable l0 : Op -> Lc.
  Variable bstep : Op -> St -> Lc -> St * (Lc + Rs).
  Variable is_read : Op -> bool.
  (** a body that runs under the read lock does not store *)
  Hypothesis read_pure : forall o s l, is_read o = true -> fst (bstep o s l) = s.
  Variable s0 : St.

  Notation config := (config St Op Rs Lc).
  Notation tstep := (tstep St Op Rs Lc l0 bstep is_read).
  Notation exec := (exec St Op Rs Lc l0 bstep is_read).
  Notation acquire := (acquire St Op Rs Lc is_read).
  Notation iterp := (iterp St Op Rs Lc bstep).
  Notation runs := (runs St Op Rs Lc l0 bstep).
  Notation seq_rel := (seq_rel St Op Rs Lc l0 bstep).
  Notation no_writer_mid := (no_writer_mid St Op Rs Lc is_read).
  Notation phase := (phase Op Rs Lc).

  Definition op_of (e : nat * Op * Rs) : Op := snd (fst e).
  Definition res_of (e : nat * Op * Rs) : Rs := snd e.

  Lemma upd_same {A} (f : nat -> A) t v : upd f t v t = v.
  Proof. unfold upd. rewrite Nat.eqb_refl. reflexivity. Qed.
  Lemma upd_other {A} (f : nat -> A) t v x : x <> t -> upd f t v x = f x.
  Proof. unfold upd. intros H. destruct (Nat.eqb_spec x t); congruence. Qed.

  Ltac upd_cases t' t :=
    destruct (Nat.eq_dec t' t) as [->|?]; [rewrite ?upd_same | rewrite ?upd_other by auto].

  (** [hop p]: the operation a thread in phase [p] holds the mutex for *)
  Definition hop (p : phase) : option Op :=
    match p with Body o _ | Ran o _ => Some o | _ => None end.

  Definition lock_inv (l : lockst) (h : nat -> option Op) : Prop :=
    match l with
    | LFree => forall t, h t = None
    | LW t0 => forall t, h t <> None -> t = t0
    | LR ts => NoDup ts /\
               forall t, (h t <> None <-> In t ts) /\ (forall o, h t = Some o -> is_read o = true)
    end.

  Definition lock_ok (c : config) : Prop := lock_inv (lk c) (fun t => hop (ph c t)).

  Lemma lock_inv_ext l h h' : (forall t, h' t = h t) -> lock_inv l h -> lock_inv l h'.
  Proof.
    intros E. destruct l as [|t0|ts]; simpl.
    - intros L t. rewrite E. apply L.
    - intros L t. rewrite E. apply L.
    - intros (ND & L). split; auto. intros t. rewrite E. apply L.
  Qed.

  Lemma lock_ok_keep c t p' s' pr' h' li' :
    hop p' = hop (ph c t) -> lock_ok c -> lock_ok (mkcfg s' (lk c) pr' (upd (ph c) t p') h' li').
  Proof. intros E. apply lock_inv_ext. intros t'. simpl. upd_cases t' t; auto. Qed.

  Lemma lock_ok_acquire c t o l' p' s' pr' h' li' :
    hop (ph c t) = None -> hop p' = Some o -> acquire c t o = Some l' -> lock_ok c ->
    lock_ok (mkcfg s' l' pr' (upd (ph c) t p') h' li').
  Proof.
    unfold acquire, lock_ok. simpl. intros N P A L.
    destruct (is_read o) eqn:RD, (lk c) as [|t0|ts]; inversion A; subst; simpl in *.
    - split; [constructor; [simpl; tauto | constructor]|].
      intros t'. upd_cases t' t.
      + rewrite P. split; [split; [simpl; auto | discriminate] | intros o' E; inversion E; subst; auto].
      + rewrite L. split; [split; [congruence | intros [?|[]]; congruence] | discriminate].
    - destruct L as (ND & L).
      assert (~ In t ts) by (intros I; apply L in I; auto).
      split; [constructor; auto|].
      intros t'. upd_cases t' t.
      + rewrite P. split; [split; [simpl; auto | discriminate] | intros o' E; inversion E; subst; auto].
      + split; [split; [intros I; right; apply L, I | intros [?|I]; [congruence | apply L, I]] | apply L].
    - intros t'. upd_cases t' t; auto. rewrite L. congruence.
  Qed.

  Lemma in_remove1 t x l : In x (remove1 t l) -> In x l.
  Proof.
    induction l as [|a l IH]; simpl; auto. destruct (Nat.eqb_spec a t); auto.
    intros [H|H]; auto.
  Qed.
  Lemma remove1_spec t l : NoDup l -> forall x, In x (remove1 t l) <-> (In x l /\ x <> t).
  Proof.
    induction l as [|a l IH]; simpl; intros ND x; [tauto|].
    inversion ND; subst. destruct (Nat.eqb_spec a t).
    - subst. split; [intros H; split; auto; intros ->; auto | intros [[H|H] H']; congruence].
    - simpl. rewrite IH by auto. split; [intros [H|[H H']]; subst; auto | intros [[H|H] H']; auto].
  Qed.
  Lemma nodup_remove1 t l : NoDup l -> NoDup (remove1 t l).
  Proof.
    induction l as [|a l IH]; simpl; intros ND; auto. inversion ND; subst.
    destruct (Nat.eqb_spec a t); auto. constructor; auto.
    intros H. apply in_remove1 in H. auto.
  Qed.

  Lemma lock_ok_release c t p' s' pr' h' li' :
    hop (ph c t) <> None -> hop p' = None -> lock_ok c ->
    lock_ok (mkcfg s' (release c t) pr' (upd (ph c) t p') h' li').
  Proof.
    unfold release, lock_ok. simpl. intros S P L. destruct (lk c) as [|t0|ts]; simpl in *.
    - intros t'. upd_cases t' t; auto.
    - intros t'. upd_cases t' t; [rewrite P; congruence|].
      destruct (hop (ph c t')) eqn:E; auto. exfalso.
      assert (t' = t0) by (apply L; congruence). assert (t = t0) by auto. congruence.
    - destruct L as (ND & L). pose proof (remove1_spec t ts ND) as RS.
      destruct (remove1 t ts) as [|a ts'] eqn:RM; simpl.
      + intros t'. upd_cases t' t; auto.
        destruct (hop (ph c t')) eqn:E; auto. exfalso.
        apply (proj2 (RS t')). split; auto. apply L. congruence.
      + repeat split; [rewrite <- RM; apply nodup_remove1; auto | | |]; upd_cases t0 t.
        * congruence.
        * intros H. apply RS. split; auto. apply L, H.
        * intros H. apply RS in H. tauto.
        * intros H. apply L, RS, H.
        * congruence.
        * apply L.
  Qed.

  Lemma lock_ok_tstep c t : lock_ok c -> lock_ok (tstep c t).
  Proof.
    intros L. unfold tstep. destruct (ph c t) as [|o|o l|o r|o r] eqn:PH.
    - destruct (prog c t); auto. apply lock_ok_keep; auto. rewrite PH. reflexivity.
    - destruct (acquire c t o) eqn:A; auto. eapply lock_ok_acquire; eauto; [rewrite PH|]; reflexivity.
    - destruct (bstep o (sh c) l) as [s' [l'|r]]; apply lock_ok_keep; auto; rewrite PH; reflexivity.
    - apply lock_ok_release; auto. rewrite PH. discriminate.
    - apply lock_ok_keep; auto. rewrite PH. reflexivity.
  Qed.

  Lemma writer_alone c t o :
    lock_ok c -> hop (ph c t) = Some o -> is_read o = false ->
    forall t', t' <> t -> hop (ph c t') = None.
  Proof.
    unfold lock_ok. intros L P W t' NE. destruct (lk c) as [|t0|ts]; simpl in L.
    - apply L.
    - destruct (hop (ph c t')) eqn:E; auto. exfalso.
      assert (t' = t0) by (apply L; congruence). assert (t = t0) by (apply L; congruence). congruence.
    - destruct L as (_ & L). rewrite (proj2 (L t) o P) in W. discriminate.
  Qed.

  Lemma acquire_no_writer c t o l' : lock_ok c -> acquire c t o = Some l' -> no_writer_mid c.
  Proof.
    unfold lock_ok, acquire. intros L A t' o' b PH.
    assert (H : hop (ph c t') = Some o') by (rewrite PH; reflexivity).
    destruct (lk c) as [|t0|ts]; simpl in L.
    - rewrite L in H. discriminate.
    - destruct (is_read o); discriminate.
    - destruct L as (_ & L). apply (L t'), H.
  Qed.

  Definition expects (p : phase) (t : nat) (e : option (event Op Rs)) : Prop :=
    match p with
    | Idle => e = None \/ exists o r, e = Some (ERes t o r)
    | Waiting o | Body o _ => e = Some (EInv t o)
    | Ran o r | Released o r => e = Some (ELin t o r)
    end.

  Definition hist_ok (c : config) : Prop := forall t, expects (ph c t) t (last_of t (hist c)).

  Lemma hist_ok_quiet c t p' s' l' pr' li' :
    (forall e, expects (ph c t) t e -> expects p' t e) -> hist_ok c ->
    hist_ok (mkcfg s' l' pr' (upd (ph c) t p') (hist c) li').
  Proof. intros E H t'. simpl. upd_cases t' t; auto. Qed.

  Lemma hist_ok_event c t p' e s' l' pr' li' :
    ev_thread e = t -> expects p' t (Some e) -> hist_ok c ->
    hist_ok (mkcfg s' l' pr' (upd (ph c) t p') (e :: hist c) li').
  Proof.
    intros T E H t'. simpl. rewrite T. upd_cases t' t.
    - rewrite Nat.eqb_refl. exact E.
    - destruct (Nat.eqb_spec t t'); [congruence | apply H].
  Qed.

  Lemma hist_tstep c t :
    hist_ok c /\ bracketed (hist c) /\ lin_of (hist c) = lin c ->
    let c' := tstep c t in hist_ok c' /\ bracketed (hist c') /\ lin_of (hist c') = lin c'.
  Proof.
    intros (H & B & LI). pose proof (H t) as Ht. unfold tstep.
    destruct (ph c t) as [|o|o l|o r|o r] eqn:PH; simpl in Ht.
    - destruct (prog c t) as [|o rest]; [auto|]. simpl. repeat split; auto.
      + apply hist_ok_event; simpl; auto.
      + constructor; auto. simpl. destruct Ht as [->|(o' & r' & ->)]; constructor.
    - destruct (acquire c t o); [|auto]. simpl. repeat split; auto.
      apply hist_ok_quiet; auto. rewrite PH. auto.
    - destruct (bstep o (sh c) l) as [s' [l'|r]]; simpl; repeat split; auto.
      + apply hist_ok_quiet; auto. rewrite PH. auto.
      + apply hist_ok_event; simpl; auto.
      + constructor; auto. simpl. rewrite Ht. constructor.
      + rewrite LI. reflexivity.
    - simpl. repeat split; auto. apply hist_ok_quiet; auto. rewrite PH. auto.
    - simpl. repeat split; auto.
      + apply hist_ok_event; simpl; eauto.
      + constructor; auto. simpl. rewrite Ht. constructor.
  Qed.

  Lemma iterp_snoc k : forall o s l s1 l1 s2 l2,
    iterp k o s l = Some (s1, l1) -> bstep o s1 l1 = (s2, inl l2) ->
    iterp (S k) o s l = Some (s2, l2).
  Proof.
    induction k as [|k IH]; intros o s l s1 l1 s2 l2 H B; simpl in *.
    - inversion H; subst. rewrite B. reflexivity.
    - destruct (bstep o s l) as [s' [l'|r]] eqn:E; [|discriminate].
      specialize (IH o s' l' s1 l1 s2 l2 H B). simpl in IH. exact IH.
  Qed.

  Lemma iterp_read k : forall o s l s1 l1,
    is_read o = true -> iterp k o s l = Some (s1, l1) -> s1 = s.
  Proof.
    induction k as [|k IH]; intros o s l s1 l1 RD H; simpl in *.
    - inversion H; auto.
    - pose proof (read_pure o s l RD) as P.
      destruct (bstep o s l) as [s' [l'|r]] eqn:E; [|discriminate].
      simpl in P. subst s'. eapply IH; eauto.
  Qed.

  (** [sg]: the state after the sequential execution of the finished
      operations; every thread inside its body has got from [sg] to the
      current shared state by its own micro-steps alone *)
  Definition seq_ok (c : config) : Prop :=
    exists sg, seq_rel s0 (lin c) sg
      /\ (no_writer_mid c -> sg = sh c)
      /\ forall t o l, ph c t = Body o l -> exists k, iterp k o sg (l0 o) = Some (sh c, l).

  Lemma seq_ok_frame c t p' lk' pr' h' :
    (forall o l, ph c t <> Body o l) -> (forall o l, p' <> Body o l) ->
    seq_ok c -> seq_ok (mkcfg (sh c) lk' pr' (upd (ph c) t p') h' (lin c)).
  Proof.
    intros NB NB' (sg & S1 & S2 & S3). exists sg. simpl. repeat split; auto.
    - intros NW. apply S2. intros t' o l H. apply (NW t' o l). simpl.
      upd_cases t' t; auto. exfalso. eapply NB; eauto.
    - intros t' o l. upd_cases t' t; [intros H; exfalso; eapply NB'; eauto|]. apply S3.
  Qed.

  Lemma seq_ok_tstep c t : lock_ok c -> seq_ok c -> seq_ok (tstep c t).
  Proof.
    intros L SEQ. unfold tstep. destruct (ph c t) as [|o|o l|o r|o r] eqn:PH.
    - destruct (prog c t); auto. apply seq_ok_frame; auto; try rewrite PH; discriminate.
    - (* acquire: only readers are inside, so [sg] is the shared state *)
      destruct (acquire c t o) eqn:A; auto.
      destruct SEQ as (sg & S1 & S2 & S3). specialize (S2 (acquire_no_writer _ _ _ _ L A)).
      exists sg. simpl. repeat split; auto.
      intros t' o' l'. upd_cases t' t; [|apply S3].
      intros H; inversion H; subst. exists O. reflexivity.
    - (* a micro-step of the body, on the shared state *)
      destruct SEQ as (sg & S1 & S2 & S3). destruct (S3 t o l PH) as [k IT].
      assert (ALONE : is_read o = false -> forall t' o' l', t' <> t -> ph c t' <> Body o' l').
      { intros W t' o' l' NE H. pose proof (writer_alone c t o L) as X.
        rewrite PH in X. specialize (X eq_refl W t' NE). rewrite H in X. discriminate. }
      assert (PURE : is_read o = true -> fst (bstep o (sh c) l) = sh c /\ sh c = sg).
      { intros RD. split; [apply read_pure, RD | eapply iterp_read; eauto]. }
      destruct (bstep o (sh c) l) as [s' [l'|r]] eqn:ST; simpl in PURE.
      + exists sg. simpl. repeat split; auto.
        * intros NW. specialize (NW t o l'). simpl in NW. rewrite upd_same in NW.
          destruct (PURE (NW eq_refl)). congruence.
        * intros t' o' l''. upd_cases t' t.
          { intros H; inversion H; subst. exists (S k). eapply iterp_snoc; eauto. }
          destruct (is_read o) eqn:RD; [destruct (PURE eq_refl) as [-> _]; apply S3 | intros H; edestruct ALONE; eauto].
      + (* finishes: the linearization point *)
        exists s'. simpl. repeat split; auto.
        * eapply seq_snoc; eauto. exists k, (sh c), l; auto.
        * intros t' o' l''. upd_cases t' t; [discriminate|]. intros H.
          destruct (is_read o) eqn:RD; [|edestruct ALONE; eauto].
          destruct (PURE eq_refl) as [-> <-]. apply (S3 t'), H.
    - apply seq_ok_frame; auto; try rewrite PH; discriminate.
    - apply seq_ok_frame; auto; try rewrite PH; discriminate.
  Qed.

  Record ainv (c : config) : Prop := mk_ainv {
    a_seq : seq_ok c;
    a_lock : lock_ok c;
    a_hist : hist_ok c /\ bracketed (hist c) /\ lin_of (hist c) = lin c }.

  Lemma tstep_inv c t : ainv c -> ainv (tstep c t).
  Proof.
    intros [S L H]. constructor; [apply seq_ok_tstep | apply lock_ok_tstep | apply hist_tstep]; auto.
  Qed.

  Lemma init_inv p : ainv (init s0 p).
  Proof.
    constructor; simpl.
    - exists s0. simpl. repeat split; auto; [constructor | discriminate].
    - intros t. reflexivity.
    - repeat split; [intros t; simpl; auto | constructor].
  Qed.

  Lemma exec_inv sched : forall c, ainv c -> ainv (exec c sched).
  Proof. induction sched as [|t r IH]; intros c H; simpl; auto. apply IH. apply tstep_inv; auto. Qed.

  (** Every interleaved execution, under every schedule, with bodies cut
      into micro-steps in any way, is linearizable ([linearizable] in
      Props/C14.v says what that means here). *)
  Theorem linearizable_gen p sched :
    let c := exec (init s0 p) sched in
    (exists sg, seq_rel s0 (lin c) sg /\ (no_writer_mid c -> sg = sh c))
    /\ lin_of (hist c) = lin c
    /\ bracketed (hist c).
  Proof.
    intros c. destruct (exec_inv sched _ (init_inv p)) as [(sg & H1 & H2 & _) _ (_ & H5 & H6)].
    split; eauto.
  Qed.

  Lemma seq_run_app (step : St -> Op -> St * Rs) os1 os2 : forall a,
    seq_run step a (os1 ++ os2) =
    let '(s1, r1) := seq_run step a os1 in
    let '(s2, r2) := seq_run step s1 os2 in (s2, r1 ++ r2).
  Proof.
    induction os1 as [|x os1 IH]; intros a; simpl.
    - destruct (seq_run step a os2); reflexivity.
    - destruct (step a x) as [a' y]. rewrite IH.
      destruct (seq_run step a' os1) as [s1 r1]. destruct (seq_run step s1 os2). reflexivity.
  Qed.

  Lemma seq_rel_run (step : St -> Op -> St * Rs) :
    (forall o s s' r, runs o s s' r -> step s o = (s', r)) ->
    forall s l s', seq_rel s l s' -> seq_run step s (map op_of l) = (s', map res_of l).
  Proof.
    intros IMP s l s' H. induction H; simpl; auto.
    rewrite !map_app, seq_run_app, IHseq_rel. simpl. unfold op_of at 1. simpl.
    rewrite (IMP _ _ _ _ H0). reflexivity.
  Qed.

  Theorem linearizable_step (step : St -> Op -> St * Rs) p sched :
    (forall o s s' r, runs o s s' r -> step s o = (s', r)) ->
    let c := exec (init s0 p) sched in
    (exists sg, seq_run step s0 (map op_of (lin c)) = (sg, map res_of (lin c))
                /\ (no_writer_mid c -> sg = sh c))
    /\ lin_of (hist c) = lin c
    /\ bracketed (hist c).
  Proof.
    intros IMP c. destruct (linearizable_gen p sched) as ((sg & H1 & H2) & H3 & H4).
    split; auto. exists sg. split; auto. apply seq_rel_run; auto.
  Qed.
End Proofs.
