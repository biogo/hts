(** C07 — binary round trip: DecodeBinary (EncodeBinary h) rebuilds a header
    with the same exposed values. *)
From Coq Require Import ZArith List Bool Lia.
From Hts Require Import Base.Prim Model.Header Proofs.HeaderBase Proofs.HeaderInv Proofs.HeaderWorld Proofs.HeaderRT.
Import ListNotations.
Open Scope Z_scope.

(** the four bytes are the base-256 digits of [x mod 2^32] *)
Lemma rd32_le32 : forall x s, - 2 ^ 31 <= x < 2 ^ 31 -> rd32 (le32 x ++ s) = Some (x, s).
Proof.
  intros x s H. unfold le32, rd32. cbn [app].
  change (2 ^ 32) with 4294967296. change (2 ^ 31) with 2147483648 in *.
  assert (Hx := Z.div_mod x 4294967296 ltac:(discriminate)).
  assert (Hu := Z.mod_pos_bound x 4294967296 eq_refl). set (u := x mod 4294967296) in *.
  change 65536 with (256 * 256). change 16777216 with (256 * 256 * 256). rewrite <- !Z.div_div by lia.
  assert (D1 := Z.div_mod u 256 ltac:(discriminate)). assert (M1 := Z.mod_pos_bound u 256 eq_refl). set (q1 := u / 256) in *.
  assert (D2 := Z.div_mod q1 256 ltac:(discriminate)). assert (M2 := Z.mod_pos_bound q1 256 eq_refl). set (q2 := q1 / 256) in *.
  assert (D3 := Z.div_mod q2 256 ltac:(discriminate)). assert (M3 := Z.mod_pos_bound q2 256 eq_refl).
  replace (u mod 256 + 256 * (q1 mod 256) + 256 * 256 * (q2 mod 256) + 256 * 256 * 256 * ((q2 / 256) mod 256)) with u.
  2:{ rewrite (Z.mod_small (q2 / 256)); lia. }
  destruct (u <? 2147483648) eqn:L; [apply Z.ltb_lt in L|apply Z.ltb_ge in L]; f_equal; f_equal; lia.
Qed.

Lemma rd_n_app : forall (a b : str), a ++ b <> [] -> rd_n (zlen a) (a ++ b) = Some (a, b).
Proof.
  intros a b NE. unfold rd_n. destruct (a ++ b) as [|c t] eqn:E; [contradiction|]. rewrite <- E.
  replace (zlen (a ++ b) <? zlen a) with false by (symmetry; apply Z.ltb_ge; unfold zlen; rewrite app_length; lia).
  unfold zlen. rewrite Nat2Z.id. f_equal. f_equal.
  - clear. induction a; simpl; [destruct b; reflexivity|f_equal; assumption].
  - clear. induction a; simpl; auto.
Qed.

Definition rec_of (o : obj refpay) : str := le32 (zlen (o_name o) + 1) ++ o_name o ++ [0] ++ le32 (rp_len (o_pay o)).
Fixpoint bares (i : Z) (rs : list (obj refpay)) : list (obj refpay) :=
  match rs with [] => [] | o :: r => bare_ref i (o_name o) (rp_len (o_pay o)) :: bares (i + 1) r end.
Definition rec_ok (o : obj refpay) : Prop := zlen (o_name o) + 1 < 2 ^ 31 /\ - 2 ^ 31 <= rp_len (o_pay o) < 2 ^ 31.

Lemma read_ref_records_enc : forall rs fuel i acc, Forall rec_ok rs ->
  (length (concat (map rec_of rs)) < fuel)%nat ->
  read_ref_records fuel i (i + zlen rs) (concat (map rec_of rs)) acc = Ok (rev acc ++ bares i rs).
Proof.
  induction rs as [|o rs IH]; intros fuel i acc F L.
  - destruct fuel; [simpl in L; lia|]. cbn [read_ref_records]. unfold zlen; simpl. rewrite Z.add_0_r, Z.leb_refl, app_nil_r. reflexivity.
  - destruct fuel; [simpl in L; lia|]. inversion F as [|? ? (R1 & R2) F']; subst. cbn [read_ref_records map concat].
    replace (i + zlen (o :: rs)) with (i + 1 + zlen rs) by (unfold zlen; simpl length; lia).
    replace (i + 1 + zlen rs <=? i) with false by (symmetry; apply Z.leb_gt; unfold zlen; lia).
    unfold rec_of at 1. rewrite <- !app_assoc. rewrite rd32_le32 by (unfold zlen in *; lia).
    replace (zlen (o_name o) + 1 <? 1) with false by (symmetry; apply Z.ltb_ge; unfold zlen; lia).
    replace (zlen (o_name o) + 1) with (zlen (o_name o ++ [0])) by (unfold zlen; rewrite app_length; simpl; lia).
    rewrite (app_assoc (o_name o) [0]). rewrite rd_n_app by (destruct (o_name o); discriminate).
    rewrite last_last, Z.eqb_refl. cbn [negb]. rewrite rd32_le32 by exact R2. rewrite removelast_last.
    rewrite (IH fuel (i + 1) (bare_ref i (o_name o) (rp_len (o_pay o)) :: acc) F').
    + cbn [rev bares]. rewrite <- app_assoc. reflexivity.
    + cbn [map concat] in L. rewrite app_length in L. assert (1 <= length (rec_of o))%nat by (unfold rec_of, le32; simpl; lia). lia.
Qed.

Lemma nv_inherit_bare : forall i (er : obj refpay) h d,
  nv (with_ident (inherit (bare_ref i (o_name er) (rp_len (o_pay er))) er) h d) = nv er.
Proof. intros i [ow id nm [len md5 as_ sp uri other]] h d. unfold nv, inherit, bare_ref; simpl. destruct uri; reflexivity. Qed.

Lemma equal_bare_bare : forall i n l, equal_refs (bare_ref i n l) (bare_ref (-1) n l) = true.
Proof.
  intros. unfold equal_refs, bare_ref. cbn [o_id o_name o_pay rp_len rp_md5 rp_as rp_sp rp_uri rp_other].
  rewrite str_eqb_refl, !Z.eqb_refl. destruct (i =? -1); reflexivity.
Qed.

Lemma view_refs : forall w hd w' hd', view w' hd' = view w hd ->
  option_map (map nv) (objs (w_r w') (t_items (h_R hd'))) = option_map (map nv) (objs (w_r w) (t_items (h_R hd))).
Proof. unfold view. intros. congruence. Qed.

(** adding the binary record of a listed reference changes no exposed value *)
Lemma add_bare_view : forall w h hd os i er,
  WInv w -> nth_error (w_h w) h = Some hd -> objs (w_r w) (t_items (h_R hd)) = Some os -> nth_error os i = Some er ->
  exists w' hd',
    add_reference (set_r w (w_r w ++ [bare_ref (Z.of_nat i) (o_name er) (rp_len (o_pay er))])) h (length (w_r w)) = Ok (w', 0) /\
    WInv w' /\ nth_error (w_h w') h = Some hd' /\ view w' hd' = view w hd.
Proof.
  intros w h hd os i er I Hh Ho Hi.
  destruct (proj1 (objs_nth _ _ _ Ho i er) Hi) as (erh & Hit & Her).
  assert (TI : TInv h (w_r w) (h_R hd)) by exact (lens_TInv kR invR w h hd I Hh).
  assert (Lh : (h < length (w_h w))%nat) by (eapply nth_error_valid; eauto).
  assert (Le : (erh < length (w_r w))%nat) by (eapply nth_error_valid; eauto).
  assert (Hm : mget (o_name er) (t_seen (h_R hd)) = Some (Z.of_nat i)) by (apply (ti_seen _ _ _ TI); eauto 8).
  set (b := bare_ref (Z.of_nat i) (o_name er) (rp_len (o_pay er))).
  destruct (alloc_good kR invR w b I eq_refl) as (Ia & Xa).
  destruct (add_reference_good (set_r w (w_r w ++ [b])) h (length (w_r w)) Ia) as (w2 & e2 & R2 & I2 & X2).
  { exact Lh. } { simpl. rewrite app_length; simpl; lia. }
  assert (R2o := R2). unfold add_reference in R2. cbn [set_r w_h w_r] in R2. rewrite Hh, nth_error_app_last in R2.
  change (o_name b) with (o_name er) in R2. rewrite Hm, idx_of_nat, Hit in R2. rewrite nth_error_app1 in R2 by exact Le. rewrite Her in R2.
  assert (EB : equal_refs b (bare_ref (-1) (o_name er) (rp_len (o_pay er))) = true) by apply equal_bare_bare.
  assert (Ho' := objs_app_st _ _ _ b Ho).
  destruct (equal_refs er b) eqn:EQ.
  - inversion R2; subst w2 e2. exists (set_r w (w_r w ++ [b])), hd.
    split; [exact R2o|]. split; [exact I2|]. split; [exact Hh|]. unfold view; simpl. rewrite Ho', Ho. reflexivity.
  - rewrite EB in R2. cbn [negb] in R2. change (owned b) with false in R2. cbn iota in R2.
    unfold install_over in R2. rewrite Nat2Z.id in R2. inversion R2; subst w2 e2; clear R2.
    eexists _, _. split; [exact R2o|]. split; [exact I2|]. split; [apply nth_put_hdr; exact Lh|].
    unfold view. cbn [put_hdr set_r set_h w_r w_g w_p set_R h_R h_G h_P h_vn h_so h_go h_other h_co t_items].
    rewrite (objs_install _ _ _ i erh _ _ _ Ho' Hit), Ho.
    + simpl. rewrite map_upd, upd_same; [reflexivity|]. rewrite nth_error_map, Hi. simpl. f_equal. symmetry. apply nv_inherit_bare.
    + intro Hin. apply (objs_valid _ _ _ Ho) in Hin. lia.
    + rewrite app_length; simpl; lia.
    + eapply TInv_NoDup; eauto.
Qed.

Lemma skipn_cons : forall {A} (l : list A) k x t, skipn k l = x :: t -> nth_error l k = Some x /\ skipn (S k) l = t.
Proof.
  induction l as [|a l IH]; intros k x t H; [destruct k; discriminate|]. destruct k; [|exact (IH k x t H)].
  inversion H; subst. split; reflexivity.
Qed.

Lemma add_all_view : forall (rs : list (obj refpay)) suffix k w h hd,
  WInv w -> nth_error (w_h w) h = Some hd -> option_map (map nv) (objs (w_r w) (t_items (h_R hd))) = Some (map nv rs) ->
  skipn k rs = suffix ->
  exists w' hd', add_all w h (bares (Z.of_nat k) suffix) = Ok (w', 0) /\ WInv w' /\ nth_error (w_h w') h = Some hd' /\ view w' hd' = view w hd.
Proof.
  intros rs. induction suffix as [|o suffix IH]; intros k w h hd I Hh Hv Hs.
  - exists w, hd. simpl. auto.
  - destruct (objs (w_r w) (t_items (h_R hd))) as [os|] eqn:Ho; [|discriminate]. simpl in Hv. inversion Hv as [Hv'].
    destruct (skipn_cons _ _ _ _ Hs) as (Hk & Hs').
    assert (E : nth_error (map nv os) k = Some (nv o)) by (rewrite Hv', nth_error_map, Hk; reflexivity).
    rewrite nth_error_map in E. destruct (nth_error os k) as [er|] eqn:Hek; [|discriminate]. inversion E as [[Hn Hp]].
    destruct (add_bare_view w h hd os k er I Hh Ho Hek) as (w1 & hd1 & R1 & I1 & Hh1 & V1).
    cbn [bares add_all]. rewrite <- Hn, <- Hp. rewrite R1. cbn [Z.eqb].
    destruct (IH (S k) w1 h hd1 I1 Hh1) as (w' & hd' & R' & I' & Hh' & V').
    { rewrite (view_refs _ _ _ _ V1), Ho. exact Hv. }
    { exact Hs'. }
    replace (Z.of_nat k + 1) with (Z.of_nat (S k)) by lia.
    exists w', hd'. split; [exact R'|]. split; [exact I'|]. split; [exact Hh'|]. congruence.
Qed.

Section BIN.
  Variable pt : str -> option str.
  Variable pu : str -> option str.

  (** sizes fit the int32 fields of the BAM header block *)
  Definition fits_int32 (text : str) (rs : list (obj refpay)) : Prop :=
    zlen text < 2 ^ 31 /\ zlen rs < 2 ^ 31 /\ Forall (fun o => zlen (o_name o) + 1 < 2 ^ 31) rs.

  Theorem binary_roundtrip : forall w h hd text rs b, WInv w -> nth_error (w_h w) h = Some hd -> WFH pt pu w hd ->
    marshal_text w hd = Ok text -> objs (w_r w) (t_items (h_R hd)) = Some rs -> fits_int32 text rs ->
    encode_binary w hd = Ok b ->
    exists w' hd', decode_binary pt pu w b = Ok (w', 0) /\ WInv w' /\
      nth_error (w_h w') (length (w_h w)) = Some hd' /\ view w' hd' = view w hd /\
      marshal_text w' hd' = Ok text /\ encode_binary w' hd' = Ok b.
  Proof.
    intros w h hd text rs b I Hh WF MT Hr (Ft & Fn & Fnames) EB.
    destruct (text_roundtrip pt pu w h hd text I Hh WF MT) as (w1 & hd1 & NH & I1 & Hn1 & V1 & M1 & E1).
    set (n := length (w_h w)) in *.
    assert (RO : Forall rec_ok rs).
    { destruct WF as (_ & rs' & gs & ps & Hr' & _ & _ & Fr & _). rewrite Hr in Hr'. inversion Hr'; subst rs'.
      rewrite Forall_forall in *. intros o Ho. split; [apply Fnames; exact Ho|].
      destruct (Fr o Ho) as (_ & Vl & _). unfold valid_len in Vl. apply andb_true_iff in Vl. destruct Vl as (V1' & V2'). apply Z.leb_le in V1'. apply Z.leb_le in V2'. lia. }
    assert (Bf : b = bam_magic ++ le32 (zlen text) ++ text ++ le32 (zlen rs) ++ concat (map rec_of rs)).
    { unfold encode_binary in EB. rewrite MT, Hr in EB. inversion EB. reflexivity. }
    unfold decode_binary. fold n. rewrite Bf.
    change 4 with (zlen bam_magic). rewrite rd_n_app by discriminate. rewrite str_eqb_refl. cbn [negb].
    rewrite rd32_le32 by (unfold zlen in *; lia).
    replace (zlen text <? 0) with false by (symmetry; apply Z.ltb_ge; unfold zlen; lia).
    rewrite rd_n_app by (unfold le32; destruct text; discriminate).
    (* the text part is NewHeader's UnmarshalText *)
    assert (UT : unmarshal_text pt pu (set_h w (w_h w ++ [hdr0])) n text = Ok (w1, 0)) by exact NH.
    rewrite UT. cbn [Z.eqb negb].
    rewrite rd32_le32 by (unfold zlen in *; lia).
    replace (zlen rs <? 0) with false by (symmetry; apply Z.ltb_ge; unfold zlen; lia).
    assert (RR := read_ref_records_enc rs (S (length (concat (map rec_of rs)))) 0 [] RO ltac:(lia)).
    rewrite Z.add_0_l in RR. rewrite RR. cbn [rev app].
    assert (HR : option_map (map nv) (objs (w_r w1) (t_items (h_R hd1))) = Some (map nv rs)).
    { rewrite (view_refs _ _ _ _ V1), Hr. reflexivity. }
    destruct (add_all_view rs rs 0 w1 n hd1 I1 Hn1 HR eq_refl) as (w2 & hd2 & R2 & I2 & Hn2 & V2).
    change (Z.of_nat 0) with 0 in R2. rewrite R2.
    exists w2, hd2. split; [reflexivity|]. split; [exact I2|]. split; [exact Hn2|].
    assert (VW : view w2 hd2 = view w hd) by congruence.
    split; [exact VW|]. destruct (view_marshal _ _ _ _ VW) as (MM & EE). split; [rewrite MM; exact MT|rewrite EE, <- Bf; exact EB].
  Qed.
End BIN.
