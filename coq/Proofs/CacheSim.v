(** C03 — with an LRU, FIFO or Random cache the rd = 1 reader with store objects
    behaves exactly like the reader on block values (which ignores SetCache):
    simulation through the ownership invariant. *)
From Coq Require Import ZArith List Bool Lia.
From Hts Require Import Base.Prim Base.Bits Model.Flat Model.Reader Proofs.FlatLemmas Proofs.ReaderFlat Proofs.ReaderStore.
Import ListNotations.
Open Scope Z_scope.

Lemma sget_sset_same (st : store) (i : nat) (b : block) : (i < length st)%nat -> sget (sset st i b) i = b.
Proof. apply nth_upd_nat_same. Qed.

Lemma sget_sset_other (st : store) (i j : nat) (b : block) : i <> j -> sget (sset st i b) j = sget st j.
Proof. apply nth_upd_nat_other. Qed.

Lemma sset_length (st : store) (i : nat) (b : block) : length (sset st i b) = length st.
Proof. apply length_upd_nat. Qed.

Lemma sget_app_old (st : store) (b : block) (j : nat) : (j < length st)%nat -> sget (st ++ [b]) j = sget st j.
Proof. intros. unfold sget. apply app_nth1. exact H. Qed.

(** Equality of blocks up to [used]. *)
Definition beq (b b' : block) : Prop :=
  b_base b = b_base b' /\ b_hsize b = b_hsize b' /\ b_data b = b_data b' /\
  b_pos b = b_pos b' /\ b_oblk b = b_oblk b' /\ b_has b = b_has b'.

Lemma beq_refl b : beq b b. Proof. unfold beq; auto 10. Qed.

Lemma beq_trans (b1 b2 b3 : block) : beq b1 b2 -> beq b2 b3 -> beq b1 b3.
Proof.
  intros (Q1 & Q2 & Q3 & Q4 & Q5 & Q6) (P1 & P2 & P3 & P4 & P5 & P6). unfold beq. repeat split; congruence.
Qed.

Lemma beq_len {b b'} : beq b b' -> b_len b = b_len b'.
Proof. intros (B1 & B2 & B3 & B4 & B5 & B6). unfold b_len. rewrite B3, B4, B6. reflexivity. Qed.

Lemma beq_tx {b b'} : beq b b' -> b_tx b = b_tx b'.
Proof. intros (B1 & B2 & B3 & B4 & B5 & B6). unfold b_tx. rewrite B1, B5. reflexivity. Qed.

Lemma beq_next {b b'} : beq b b' -> b_next b = b_next b'.
Proof. intros (B1 & B2 & _). unfold b_next. rewrite B1, B2. reflexivity. Qed.

Lemma beq_read {b b'} (n : Z) : beq b b' ->
  beq (fst (fst (b_read b n))) (fst (fst (b_read b' n))) /\ snd (fst (b_read b n)) = snd (fst (b_read b' n)) /\
  snd (b_read b n) = snd (b_read b' n).
Proof.
  intros (B1 & B2 & B3 & B4 & B5 & B6). unfold b_read. rewrite B3, B4.
  destruct (zlen (b_data b') <=? b_pos b'); simpl.
  - split; [unfold beq; auto 10|]. split; reflexivity.
  - split; [unfold beq; simpl; rewrite B1, B2, B5, B6; auto 10|]. split; reflexivity.
Qed.

Lemma beq_seek {b b'} (o : Z) : beq b b' -> beq (b_seek b o) (b_seek b' o).
Proof. intros (B1 & B2 & B3 & B4 & B5 & B6). unfold beq, b_seek; simpl. auto 10. Qed.

(** The block holds the member that starts at file offset [k]. *)
Definition good (F : file) (b : block) (k : Z) : Prop :=
  exists pre m post, split_at F pre m post /\ m_base m = k /\
    b_base b = k /\ b_hsize b = m_size m /\ b_data b = m_data m /\ b_has b = true.

Definition vgood (F : file) (b : block) : Prop := b_has b = true -> good F b (b_base b).

(** [b'] is [b] after Read, ReadByte or seek: the same block of the same member.  Goodness, NextBase
    and hasData only look at these fields. *)
Definition same_blk (b b' : block) : Prop :=
  b_base b' = b_base b /\ b_hsize b' = b_hsize b /\ b_data b' = b_data b /\ b_has b' = b_has b.

Lemma read_same (b : block) (n : Z) : same_blk b (fst (fst (b_read b n))).
Proof. unfold same_blk, b_read. destruct (zlen (b_data b) <=? b_pos b); simpl; auto. Qed.

Lemma seek_same (b : block) (o : Z) : same_blk b (b_seek b o).
Proof. unfold same_blk, b_seek; simpl; auto. Qed.

Lemma same_blk_beq {b bv b' bv'} : beq b bv -> beq b' bv' -> same_blk bv bv' -> same_blk b b'.
Proof.
  intros (B1 & B2 & B3 & _ & _ & B6) (P1 & P2 & P3 & _ & _ & P6) (E1 & E2 & E3 & E4).
  unfold same_blk. repeat split; congruence.
Qed.

Lemma good_same {F b b' k} : good F b k -> same_blk b b' -> good F b' k.
Proof.
  intros (pre & m & post & S & Hk & H) (E1 & E2 & E3 & E4). exists pre, m, post.
  split; [exact S|]. split; [exact Hk|]. rewrite E1, E2, E3, E4. exact H.
Qed.

Lemma vgood_same {F b b'} : vgood F b -> same_blk b b' -> vgood F b'.
Proof.
  intros Hv E Hh. pose proof E as (E1 & _ & _ & E4). rewrite E1. rewrite E4 in Hh. exact (good_same (Hv Hh) E).
Qed.

Lemma next_same {b b'} : same_blk b b' -> b_next b' = b_next b.
Proof. intros (E1 & E2 & _). unfold b_next. rewrite E1, E2. reflexivity. Qed.

Lemma good_seek {F b k} o : good F b k -> good F (b_seek b o) k.
Proof. intros (pre & m & post & H). exists pre, m, post. exact H. Qed.

Lemma good_base {F b k} : good F b k -> b_base b = k.
Proof. intros (pre & m & post & _ & _ & H & _). exact H. Qed.

Lemma good_next {F b k} : good F b k -> b_next b <> k /\ 0 <= b_next b.
Proof.
  intros (pre & m & post & S & Hk & H1 & H2 & _). unfold b_next. rewrite H1, H2.
  pose proof (split_size_pos S). pose proof (split_base_nonneg S).
  destruct (Z.eqb_spec (m_size m) (-1)); lia.
Qed.

Lemma fetch_nonneg (F : file) (k : Z) : 0 <= k -> fetch F k <> FSeekErr.
Proof.
  intros Hk. unfold fetch. destruct (Z.ltb_spec k 0); [lia|].
  destruct (find_member F k); [discriminate|destruct (fsize F <=? k); discriminate].
Qed.

(** What a fetch at a non-negative offset leaves in the block, whatever block it is given: the member
    there, or an empty block and an error. *)
Lemma fill_cases (F : file) (b : block) (k : Z) : wf_file F = true -> 0 <= k ->
  (exists pre m post, split_at F pre m post /\ m_base m = k /\ b_fill F b k = (blk_of m 0 (b_used b), eNil)) \/
  (exists e, e <> eNil /\ b_fill F b k = (blk_eof k, e)).
Proof.
  intros W Hk. pose proof (fetch_nonneg F k Hk) as Hn. unfold b_fill. destruct (fetch F k) as [m| | |] eqn:E.
  - destruct (fetch_ok F k m W E) as (pre & post & S & <-). left. exists pre, m, post. auto.
  - right. exists eEOF. split; [discriminate|reflexivity].
  - right. exists eOther. split; [discriminate|reflexivity].
  - contradiction.
Qed.

Lemma fill_beq (F : file) (k : Z) (b1 b2 : block) : 0 <= k ->
  beq (fst (b_fill F b1 k)) (fst (b_fill F b2 k)) /\ snd (b_fill F b1 k) = snd (b_fill F b2 k).
Proof.
  intros Hk. pose proof (fetch_nonneg F k Hk) as Hn. unfold b_fill.
  destruct (fetch F k); simpl; try contradiction; (split; [|reflexivity]); [unfold beq; simpl; auto 10|apply beq_refl..].
Qed.

Lemma fill_vgood (F : file) (k : Z) (b : block) : wf_file F = true -> 0 <= k -> vgood F (fst (b_fill F b k)).
Proof.
  intros W Hk. destruct (fill_cases F b k W Hk) as [(pre & m & post & S & Hb & ->)|(e & _ & ->)]; intros Hh; [|discriminate].
  exists pre, m, post. simpl. auto 10.
Qed.

Lemma fill_base (F : file) (k : Z) (b : block) : wf_file F = true -> 0 <= k -> b_base (fst (b_fill F b k)) = k.
Proof.
  intros W Hk. destruct (fill_cases F b k W Hk) as [(pre & m & post & S & Hb & ->)|(e & _ & ->)]; [exact Hb|reflexivity].
Qed.

Lemma fill_has (F : file) (k : Z) (b : block) : wf_file F = true -> 0 <= k ->
  (b_has (fst (b_fill F b k)) = true <-> snd (b_fill F b k) = eNil).
Proof.
  intros W Hk. destruct (fill_cases F b k W Hk) as [(pre & m & post & S & Hb & ->)|(e & He & ->)]; simpl; [tauto|].
  split; [discriminate|contradiction].
Qed.

Lemma good_fill {F : file} {k : Z} {b : block} (b' : block) : good F b k ->
  beq (b_seek b 0) (fst (b_fill F b' k)) /\ snd (b_fill F b' k) = eNil.
Proof.
  intros (pre & m & post & S & <- & G1 & G2 & G3 & G4). rewrite (fill_at b' S). split; [|reflexivity].
  unfold beq, b_seek; simpl. auto 10.
Qed.

Lemma nb_has (F : file) (v : vstate) : wf_file F = true -> b_has (v_cur v) = true -> vgood F (v_cur v) ->
  snd (v_nextBlock F v) = eNil -> b_has (v_cur (fst (v_nextBlock F v))) = true.
Proof.
  intros W Hh Hvg. unfold v_nextBlock. destruct (good_next (Hvg Hh)) as [_ Hk].
  pose proof (fill_has F _ (v_cur v) W Hk) as H.
  destruct (b_fill F (v_cur v) (b_next (v_cur v))) as [b e]. apply H.
Qed.

Lemma b_len_has (b : block) : b_len b <> 0 -> b_has b = true.
Proof. unfold b_len. destruct (b_has b); congruence. Qed.

Lemma b_read_nonempty (b : block) (n : Z) : b_len b <> 0 -> snd (b_read b n) = eNil.
Proof. unfold b_len, b_read. destruct (b_has b), (zlen (b_data b) <=? b_pos b); simpl; congruence. Qed.

(** (key, block id) pairs held by the cache. *)
Definition c_entries (c : cstate) : list (Z * nat) :=
  match c_kind c with
  | KRandom => c_table c
  | _ => map (fun kv => (fst kv, nth (snd kv) (c_nodes c) O)) (c_table c)
  end.
Definition bids (c : cstate) : list nat := map snd (c_entries c).

(** LRU and FIFO: table, nodes and list agree. *)
Definition lru_ok (c : cstate) : Prop :=
  NoDup (map snd (c_table c)) /\ NoDup (c_order c) /\
  (forall nid, In nid (c_order c) <-> In nid (map snd (c_table c))) /\
  (forall nid, In nid (map snd (c_table c)) -> (nid < length (c_nodes c))%nat).

Record cache_ok (F : file) (st : store) (c : cstate) : Prop := {
  co_cap : 1 <= c_cap c;
  co_keys : NoDup (map fst (c_entries c));
  co_bids : NoDup (bids c);
  co_good : forall k bid, In (k, bid) (c_entries c) -> (bid < length st)%nat /\ good F (sget st bid) k;
  co_lru : c_kind c <> KRandom -> lru_ok c }.

(** What the reader needs from a cache (proved for the three kinds below). *)
Definition get_contract (F : file) : Prop :=
  forall st c k, cache_ok F st c ->
    match c_get st c k with
    | Ok (c', Some bid) =>
        In (k, bid) (c_entries c) /\ cache_ok F st c' /\ c_kind c' = c_kind c /\
        (forall e, In e (c_entries c') -> In e (c_entries c)) /\
        (c_kind c <> KFIFO -> forall e, In e (c_entries c') -> e <> (k, bid))
    | Ok (c', None) => c' = c /\ (forall bid, ~ In (k, bid) (c_entries c))
    | _ => False
    end.

Definition put_contract (F : file) : Prop :=
  forall st c bid kb, cache_ok F st c -> (bid < length st)%nat -> good F (sget st bid) kb ->
    (~ In bid (bids c) \/ c_kind c = KFIFO) ->
    match c_put st c bid with
    | Ok (c', back, false) =>
        c' = c /\ ((back = Some bid /\ ~ In bid (bids c)) \/ (back = None /\ In bid (bids c)))
    | Ok (c', back, true) =>
        ~ In bid (bids c) /\ cache_ok F st c' /\ c_kind c' = c_kind c /\
        (forall e, In e (c_entries c') -> e = (kb, bid) \/ In e (c_entries c))
    | _ => False
    end.

Definition peek_contract : Prop :=
  forall st c k, (forall bid, ~ In (k, bid) (c_entries c)) -> c_peek st c k = (false, -1).

Lemma in_bids (c : cstate) (bid : nat) : In bid (bids c) <-> exists k, In (k, bid) (c_entries c).
Proof.
  unfold bids. rewrite in_map_iff. split.
  - intros ([k b] & E & H). simpl in E. subst b. eauto.
  - intros (k & H). exists (k, bid). auto.
Qed.

Lemma bids_sub (c c' : cstate) : (forall e, In e (c_entries c') -> In e (c_entries c)) ->
  forall bid, In bid (bids c') -> In bid (bids c).
Proof. intros Hsub bid. rewrite !in_bids. intros (k & H). eauto. Qed.

Lemma bids_lt {F st c} : cache_ok F st c -> forall b, In b (bids c) -> (b < length st)%nat.
Proof. intros Hok b Hb. apply in_bids in Hb. destruct Hb as (k & Hin). apply (co_good _ _ _ Hok k b Hin). Qed.

Lemma entry_of_bid (F : file) (st : store) (c : cstate) (bid : nat) (kb : Z) :
  cache_ok F st c -> In bid (bids c) -> good F (sget st bid) kb -> In (kb, bid) (c_entries c).
Proof.
  intros Hok Hin Hg. apply in_bids in Hin. destruct Hin as (k' & Hin).
  destruct (co_good _ _ _ Hok k' bid Hin) as [_ Hg']. rewrite <- (good_base Hg), (good_base Hg'). exact Hin.
Qed.

Lemma cached_has {F st c} (bid : nat) : cache_ok F st c -> In bid (bids c) -> b_has (sget st bid) = true.
Proof.
  intros Hok Hin. apply in_bids in Hin. destruct Hin as (k & Hin).
  destruct (co_good _ _ _ Hok k bid Hin) as [_ (_ & _ & _ & _ & _ & _ & _ & _ & H)]. exact H.
Qed.

(** The invariant survives any change of the store that keeps the cached blocks good. *)
Lemma frame_holds (F : file) (st st' : store) (c : cstate) :
  cache_ok F st c -> (length st <= length st')%nat ->
  (forall bid k, In (k, bid) (c_entries c) -> good F (sget st bid) k -> good F (sget st' bid) k) -> cache_ok F st' c.
Proof.
  intros [C Nk Nb G L] Hlen Hsame. constructor; auto.
  intros k bid Hin. destruct (G k bid Hin) as [Hl Hg]. split; [lia|]. apply (Hsame bid k Hin Hg).
Qed.

Lemma cache_ok_sset (F : file) (st : store) (c : cstate) (i : nat) (b : block) :
  cache_ok F st c -> (In i (bids c) -> forall k, good F (sget st i) k -> good F b k) -> cache_ok F (sset st i b) c.
Proof.
  intros Hok Hg. apply (frame_holds F st _ c Hok); [rewrite sset_length; lia|].
  intros bid k Hin G. destruct (Nat.eq_dec i bid) as [->|Hne].
  - assert (Hb : In bid (bids c)) by (apply in_bids; eauto).
    rewrite sget_sset_same by exact (bids_lt Hok _ Hb). exact (Hg Hb k G).
  - rewrite sget_sset_other by exact Hne. exact G.
Qed.

Lemma cache_ok_app (F : file) (st : store) (c : cstate) (b : block) : cache_ok F st c -> cache_ok F (st ++ [b]) c.
Proof.
  intros Hok. apply (frame_holds F st _ c Hok); [rewrite app_length; lia|].
  intros bid k Hin G. rewrite sget_app_old; [exact G|]. apply (co_good _ _ _ Hok k bid Hin).
Qed.

Lemma ckind_eq_dec (a b : ckind) : {a = b} + {a <> b}.
Proof. decide equality. Qed.

Section WithContracts.
Variable F : file.
Hypothesis W : wf_file F = true.
Hypothesis HGet : get_contract F.
Hypothesis HPut : put_contract F.
Hypothesis HPeek : peek_contract.

(* [i] is the current block; a FIFO may hold it, since FIFO.Get leaves a used block indexed. *)
Definition cache_rel (st : store) (i : nat) (oc : option cstate) : Prop :=
  match oc with None => True | Some c => cache_ok F st c /\ (c_kind c <> KFIFO -> ~ In i (bids c)) end.

Record csr (s : rstate) (v : vstate) : Prop := {
  cs_err : r_err s = v_err v;
  cs_lc : r_lc s = v_lc v;
  cs_bl : r_blocked s = v_blocked v;
  cs_vgood : vgood F (v_cur v);
  cs_cur : exists i, r_cur s = Some i /\ (i < length (r_st s))%nat /\ beq (sget (r_st s) i) (v_cur v) /\
                     cache_rel (r_st s) i (r_cache s) }.

Lemma cachePut_spec (s : rstate) (c : cstate) (i : nat) (kb : Z) :
  cache_ok F (r_st s) c -> (i < length (r_st s))%nat ->
  (b_has (sget (r_st s) i) = true -> good F (sget (r_st s) i) kb) ->
  (~ In i (bids c) \/ c_kind c = KFIFO) ->
  exists c2 back ret, r_cachePut s c (Some i) = Ok (c2, back, ret) /\
    cache_ok F (r_st s) c2 /\ c_kind c2 = c_kind c /\
    (forall e, In e (c_entries c2) -> e = (kb, i) \/ In e (c_entries c)) /\
    (ret = false -> back = Some i /\ ~ In i (bids c2) \/ back = None).
Proof.
  intros Hok Hil Hg Hpre. unfold r_cachePut. destruct (b_has (sget (r_st s) i)) eqn:Hhas; simpl negb; cbv iota.
  - pose proof (HPut (r_st s) c i kb Hok Hil (Hg eq_refl) Hpre) as HP.
    destruct (c_put (r_st s) c i) as [[[c2 back] [|]]| | |]; try contradiction; exists c2, back; eexists; (split; [reflexivity|]).
    + destruct HP as (_ & Hok2 & Hk2 & Hsub). split; [exact Hok2|]. split; [exact Hk2|]. split; [exact Hsub|discriminate].
    + destruct HP as [-> HP]. split; [exact Hok|]. split; [reflexivity|]. split; [auto|]. intros _. destruct HP as [[-> Hn]|[-> _]]; auto.
  - exists c, (Some i), false. split; [reflexivity|]. split; [exact Hok|]. split; [reflexivity|]. split; [auto|]. intros _. left. split; [reflexivity|].
    intros Hin. rewrite (cached_has i Hok Hin) in Hhas. discriminate.
Qed.

(** The reader [s] is about to fetch the block at [k] for [v]: the cache does not have it, and the current
    block, if there is one, is the reader's alone. *)
Definition fetchable (s : rstate) (v : vstate) (k : Z) : Prop :=
  r_err s = v_err v /\ r_lc s = v_lc v /\ r_blocked s = v_blocked v /\
  (forall i, r_cur s = Some i -> (i < length (r_st s))%nat) /\
  match r_cache s with
  | None => True
  | Some c => cache_ok F (r_st s) c /\ (forall bid, ~ In (k, bid) (c_entries c)) /\
              (forall i, r_cur s = Some i -> ~ In i (bids c))
  end.

(** cacheSwap for a key that is not the current block's: on a hit the cached block becomes the current
    one, as a fetch would have made it; after a miss the reader may fetch (the current block stayed
    outside the cache, or the cache took it). *)
Lemma cacheSwap_sim (s : rstate) (v : vstate) (k : Z) :
  csr s v -> (b_has (v_cur v) = true -> b_base (v_cur v) <> k) -> 0 <= k ->
  (exists s', r_cacheSwap s k = Ok (s', true) /\
     csr s' (set_cur v (fst (b_fill F (v_cur v) k))) /\ snd (b_fill F (v_cur v) k) = eNil)
  \/ (exists s', r_cacheSwap s k = Ok (s', false) /\ fetchable s' v k).
Proof.
  intros [He Hlc Hbl Hvg (i & Hci & Hil & Hbeq & Hcr)] Hne Hk.
  unfold r_cacheSwap. destruct (r_cache s) as [c|] eqn:Hc.
  2:{ right. exists s. unfold fetchable. rewrite Hc, Hci. repeat (split; [assumption || reflexivity|]).
      split; [|exact I]. intros i' E. inversion E; subst. exact Hil. }
  destruct Hcr as [Hok Hnin].
  pose proof Hbeq as (B1 & _ & _ & _ & _ & B6).
  assert (Hgcur : b_has (sget (r_st s) i) = true -> good F (sget (r_st s) i) (b_base (v_cur v))).
  { intros Hh. refine (good_same (Hvg _) (same_blk_beq (beq_refl _) Hbeq _)); [congruence|].
    unfold same_blk. auto. }
  (* a cache with no more entries than [c] does not hold the current block, unless it is a FIFO *)
  assert (Hpre : forall c0, c_kind c0 = c_kind c -> (forall e, In e (c_entries c0) -> In e (c_entries c)) ->
                 ~ In i (bids c0) \/ c_kind c0 = KFIFO).
  { intros c0 Hk0 Hsub0. destruct (ckind_eq_dec (c_kind c) KFIFO) as [Ef|Nf]; [right; congruence|].
    left. intros Hx. exact (Hnin Nf (bids_sub _ _ Hsub0 _ Hx)). }
  pose proof (HGet (r_st s) c k Hok) as HG.
  destruct (c_get (r_st s) c k) as [[c1 [bid|]]| | |] eqn:Hget; try contradiction.
  - (* hit *)
    left. destruct HG as (Hin & Hok1 & Hkind1 & Hsub & Hrem).
    destruct (co_good _ _ _ Hok k bid Hin) as [Hbl1 Hgood].
    rewrite (cached_has bid Hok ltac:(apply in_bids; eauto)). simpl negb. cbv iota.
    assert (Hbi : bid <> i).
    { intros ->. pose proof Hgood as (_ & _ & _ & _ & _ & G1 & _ & _ & G4). apply Hne; congruence. }
    set (st1 := sset (r_st s) bid (b_seek (sget (r_st s) bid) 0)).
    assert (Hok1' : cache_ok F st1 c1) by (apply cache_ok_sset; [exact Hok1|intros _ kk; apply good_seek]).
    assert (Hsgi : sget st1 i = sget (r_st s) i) by (apply sget_sset_other; exact Hbi).
    destruct (cachePut_spec (rs_st s st1) c1 i (b_base (v_cur v)) Hok1')
      as (c2 & back & ret & Hput & Hok2 & Hk2 & Hsub2 & _).
    { simpl. unfold st1. rewrite sset_length. exact Hil. }
    { simpl. rewrite Hsgi. exact Hgcur. }
    { exact (Hpre c1 Hkind1 Hsub). }
    simpl r_cur. rewrite Hci. simpl r_cur in Hput. rewrite Hput.
    destruct (good_fill (v_cur v) Hgood) as [Hres1 Hres2].
    eexists. split; [reflexivity|]. split; [|exact Hres2].
    constructor; simpl; auto.
    { apply fill_vgood; assumption. }
    exists bid. split; [reflexivity|]. unfold st1 at 1 2. rewrite sset_length, sget_sset_same by exact Hbl1.
    split; [exact Hbl1|]. split; [exact Hres1|]. split; [exact Hok2|].
    (* the new current block has left the cache, unless the cache is a FIFO *)
    intros Hkf Hx. apply in_bids in Hx. destruct Hx as (k' & Hin').
    destruct (Hsub2 _ Hin') as [E|I1]; [inversion E; congruence|].
    assert (k' = k) by (rewrite <- (good_base (proj2 (co_good _ _ _ Hok _ _ (Hsub _ I1)))); exact (good_base Hgood)). subst k'.
    exact (Hrem ltac:(congruence) _ I1 eq_refl).
  - (* miss *)
    right. destruct HG as [-> Hmiss].
    destruct (cachePut_spec s c i (b_base (v_cur v)) Hok Hil Hgcur (Hpre c eq_refl (fun _ H => H)))
      as (c2 & back & ret & Hput & Hok2 & Hk2 & Hsub2 & Hret).
    rewrite Hci, Hput. eexists. split; [reflexivity|]. unfold fetchable. simpl. repeat (split; [assumption|]).
    assert (Hcur : forall i', (if ret then None else back) = Some i' -> i' = i /\ ~ In i (bids c2)).
    { intros i' E. destruct ret; [discriminate|]. destruct (Hret eq_refl) as [[-> Hn]| ->]; inversion E; subst; auto. }
    split; [intros i' E; destruct (Hcur i' E) as [-> _]; exact Hil|]. split; [exact Hok2|]. split.
    + intros b Hx. destruct (Hsub2 _ Hx) as [E|I2]; [|exact (Hmiss _ I2)].
      inversion E as [[Ek Eb]]. subst b. apply Hne; [|exact (eq_sym Ek)].
      rewrite <- B6. apply (cached_has i Hok2). apply in_bids. eauto.
    + intros i' E. destruct (Hcur i' E) as [-> Hn]. exact Hn.
Qed.

Lemma fetch_sim (s : rstate) (v : vstate) (k : Z) :
  fetchable s v k -> 0 <= k ->
  exists s2, r_fetch F s k = Ok (s2, snd (b_fill F (v_cur v) k)) /\ csr s2 (set_cur v (fst (b_fill F (v_cur v) k))).
Proof.
  intros (He & Hlc & Hbl & Hil & Hc) Hk. unfold r_fetch.
  assert (Hpk : forall n, r_peekchain (S n) s k = Ok k).
  { intros n. simpl. destruct (r_cache s) as [c|]; [|reflexivity].
    destruct Hc as (_ & Hmiss & _). rewrite (HPeek (r_st s) c k Hmiss). reflexivity. }
  rewrite Hpk.
  (* the block fetched into: the current one, or a new one if that went into the cache; not held by the cache *)
  assert (Hj : exists st' j,
            match r_cur s with Some i => (r_st s, i) | None => (r_st s ++ [b_new], length (r_st s)) end = (st', j) /\
            (j < length st')%nat /\
            match r_cache s with None => True | Some c => cache_ok F st' c /\ ~ In j (bids c) end).
  { destruct (r_cur s) as [i|]; eexists _, _; (split; [reflexivity|]).
    - split; [exact (Hil i eq_refl)|]. destruct (r_cache s) as [c|]; [|exact I].
      destruct Hc as (Hok & _ & Hn). split; [exact Hok|exact (Hn i eq_refl)].
    - split; [rewrite app_length; simpl; lia|]. destruct (r_cache s) as [c|]; [|exact I].
      destruct Hc as (Hok & _). split; [apply cache_ok_app; exact Hok|]. intros Hx. pose proof (bids_lt Hok _ Hx). lia. }
  destruct Hj as (st' & j & -> & Hj & Hrel).
  destruct (fill_beq F k (sget st' j) (v_cur v) Hk) as (Hb & Hs).
  destruct (b_fill F (sget st' j) k) as [b e]. simpl in Hb, Hs. rewrite <- Hs.
  eexists. split; [reflexivity|]. constructor; simpl; try assumption; [apply fill_vgood; assumption|].
  exists j. rewrite sset_length, sget_sset_same by exact Hj. split; [reflexivity|]. split; [exact Hj|]. split; [exact Hb|].
  destruct (r_cache s) as [c|]; [|exact I]. destruct Hrel as [Hok Hn]. split; [|intros _; exact Hn].
  apply cache_ok_sset; [exact Hok|]. intros Hin. contradiction.
Qed.

Lemma nextBlock_sim (s : rstate) (v : vstate) :
  csr s v -> b_has (v_cur v) = true ->
  exists s', r_nextBlock F s = Ok (s', snd (v_nextBlock F v)) /\ csr s' (fst (v_nextBlock F v)).
Proof.
  intros Hcs Hhas. pose proof Hcs as [_ _ _ Hvg (i & Hci & _ & Hbeq & _)].
  unfold r_nextBlock, with_cur. rewrite Hci, (beq_next Hbeq).
  destruct (good_next (Hvg Hhas)) as [Hne Hk]. unfold v_nextBlock.
  destruct (cacheSwap_sim s v (b_next (v_cur v)) Hcs ltac:(intros _; congruence) Hk)
    as [(s1 & -> & Hcs1 & He)|(s1 & -> & Hf)]; [|apply (fetch_sim s1 v _ Hf) in Hk];
    destruct (b_fill F (v_cur v) (b_next (v_cur v))) as [b e]; [simpl in He; subst e; eauto|exact Hk].
Qed.

Lemma csr_set_cur (s : rstate) (v : vstate) (i : nat) (b bv : block) :
  csr s v -> r_cur s = Some i -> beq b bv -> same_blk (v_cur v) bv ->
  csr (rs_st s (sset (r_st s) i b)) (set_cur v bv).
Proof.
  intros [He Hlc Hbl Hvg (i' & Hci & Hil & Hbeq & Hcr)] Hi Hb Hsame.
  rewrite Hi in Hci. inversion Hci; subst i'.
  constructor; simpl; auto; [exact (vgood_same Hvg Hsame)|].
  exists i. rewrite sset_length, sget_sset_same by exact Hil. split; [exact Hi|]. split; [exact Hil|]. split; [exact Hb|].
  destruct (r_cache s) as [c|]; [|exact I]. destruct Hcr as [Hok Hnin]. split; [|exact Hnin].
  apply cache_ok_sset; [exact Hok|]. intros _ k G. exact (good_same G (same_blk_beq Hbeq Hb Hsame)).
Qed.

Lemma csr_cur_tx (s : rstate) (v : vstate) : csr s v -> cur_tx s = b_tx (v_cur v).
Proof.
  intros [_ _ _ _ (i & Hci & _ & Hbeq & _)]. unfold cur_tx. rewrite Hci. apply (beq_tx Hbeq).
Qed.

Lemma csr_misc (s : rstate) (v : vstate) (e : Z) (l : chunk) :
  csr s v -> csr (rs_lc (rs_err s e) l) (set_lc (set_err v e) l).
Proof. intros [He Hlc Hbl Hvg Hc]. constructor; simpl; auto. Qed.

Lemma csr_err (s : rstate) (v : vstate) (e : Z) : csr s v -> csr (rs_err s e) (set_err v e).
Proof. intros [He Hlc Hbl Hvg Hc]. constructor; simpl; auto. Qed.

Lemma csr_end_err (s : rstate) (v : vstate) (e : Z) (o : voff) :
  csr s v -> csr (rs_end (rs_err s e) o) (set_end (set_err v e) o).
Proof. intros [He Hlc Hbl Hvg Hc]. constructor; simpl; auto. rewrite Hlc. reflexivity. Qed.

Lemma csr_begin (s : rstate) (v : vstate) (o : voff) : csr s v -> csr (rs_begin s o) (set_begin v o).
Proof. intros [He Hlc Hbl Hvg Hc]. constructor; simpl; auto. rewrite Hlc. reflexivity. Qed.

Lemma skip_sim : forall fuel s v x, csr s v -> b_has (v_cur v) = true -> v_skip F fuel v = Ok x ->
  exists s', r_skip F fuel s = Ok (s', snd x) /\ csr s' (fst x) /\ (snd x = eNil -> b_len (v_cur (fst x)) <> 0).
Proof.
  induction fuel as [|fuel IH]; intros s v x Hcs Hhas Hv;
    pose proof Hcs as [_ _ _ Hvg (i & Hci & _ & Hbeq & _)];
    simpl in Hv |- *; unfold with_cur; rewrite Hci, (beq_len Hbeq); destruct (Z.eqb_spec (b_len (v_cur v)) 0) as [E|E]; try discriminate.
  1,3: (* the block is not exhausted *)
    inversion Hv; subst; exists s; (split; [reflexivity|]); split; [exact Hcs|intros _; exact E].
  destruct (nextBlock_sim s v Hcs Hhas) as (s1 & Hnb & Hcs1). rewrite Hnb.
  pose proof (nb_has F v W Hhas Hvg) as Hh1.
  destruct (v_nextBlock F v) as [v1 e]. simpl in Hcs1, Hh1 |- *.
  destruct (Z.eqb_spec e eNil) as [Ee|Ee]; [subst e|].
  - exact (IH s1 v1 x Hcs1 (Hh1 eq_refl) Hv).
  - inversion Hv; subst. simpl. exists (rs_err s1 e). split; [reflexivity|]. split; [apply csr_err; exact Hcs1|contradiction].
Qed.

Lemma copy_sim (n : Z) : forall fuel s v acc x, csr s v -> b_has (v_cur v) = true -> v_copy F fuel v n acc = Ok x ->
  exists s', r_copy F fuel s n acc = Ok (s', snd (fst x), snd x) /\ csr s' (fst (fst x)).
Proof.
  induction fuel as [|fuel IH]; intros s v acc x Hcs Hhas Hv;
    simpl in Hv |- *; destruct (zlen acc <? n); try discriminate.
  1,3: (* nothing more is wanted *)
    inversion Hv; subst; simpl; eexists; (split; [reflexivity|]);
    rewrite (csr_cur_tx s v Hcs); apply csr_end_err; exact Hcs.
  pose proof Hcs as [_ _ Hbl _ (i & Hci & _ & Hbeq & _)].
  unfold with_cur. rewrite Hci.
  destruct (beq_read (n - zlen acc) Hbeq) as (Hb1 & Hb2 & Hb3).
  pose proof (read_same (v_cur v) (n - zlen acc)) as Hsm.
  destruct (b_read (v_cur v) (n - zlen acc)) as [[bv bsv] ev].
  destruct (b_read (sget (r_st s) i) (n - zlen acc)) as [[br bsr] er].
  simpl in Hb1, Hb2, Hb3, Hsm. subst bsr er. rewrite (beq_tx Hb1).
  assert (Hcs1 : csr (rs_st s (sset (r_st s) i br)) (set_cur v bv)) by (apply csr_set_cur; assumption).
  assert (Hhas1 : b_has (v_cur (set_cur v bv)) = true) by (simpl; destruct Hsm as (_ & _ & _ & ->); exact Hhas).
  destruct (ev =? eEOF); [|exact (IH _ _ (acc ++ bsv) x Hcs1 Hhas1 Hv)].
  destruct (zlen (acc ++ bsv) =? n); [inversion Hv; subst; eexists; split; [reflexivity|apply csr_end_err; exact Hcs1]|].
  rewrite Hbl. destruct (v_blocked v); [inversion Hv; subst; eexists; split; [reflexivity|apply csr_end_err; exact Hcs1]|].
  destruct (nextBlock_sim _ _ Hcs1 Hhas1) as (s2 & Hnb & Hcs2). rewrite Hnb.
  pose proof (nb_has F _ W Hhas1 (cs_vgood _ _ Hcs1)) as Hh2.
  destruct (v_nextBlock F (set_cur v bv)) as [v2 e2]. simpl in Hcs2, Hh2 |- *.
  destruct (Z.eqb_spec e2 eNil) as [Ee|Ee]; [subst e2|].
  - exact (IH s2 v2 (acc ++ bsv) x Hcs2 (Hh2 eq_refl) Hv).
  - inversion Hv; subst. simpl. eexists. split; [reflexivity|].
    rewrite (csr_cur_tx s2 v2 Hcs2). apply csr_end_err. exact Hcs2.
Qed.

Lemma read_sim_c (s : rstate) (v : vstate) (n : Z) (x : vstate * list Z * Z) :
  csr s v -> (v_err v = eNil -> b_has (v_cur v) = true) -> v_read F v n = Ok x ->
  exists s', r_read F s n = Ok (s', snd (fst x), snd x) /\ csr s' (fst (fst x)).
Proof.
  intros Hcs Hnh Hv. unfold v_read in Hv. unfold r_read. rewrite (cs_err _ _ Hcs).
  destruct (Z.eqb_spec (v_err v) eNil) as [Ee|Ee]; simpl negb in *; cbv iota in *.
  2:{ inversion Hv; subst. simpl. exists s. split; [reflexivity|exact Hcs]. }
  destruct (v_skip F (S (length F)) v) as [[v1 e1]| | |] eqn:Hsk; try discriminate.
  apply (v_skip_mono F _ (r_fuel F s)) in Hsk; [|unfold r_fuel; lia].
  destruct (skip_sim _ s v _ Hcs (Hnh Ee) Hsk) as (s1 & Hrs & Hcs1 & Hl1).
  rewrite Hrs. simpl in *.
  destruct (Z.eqb_spec e1 eNil) as [E1|E1]; simpl negb in *; cbv iota in *.
  2:{ inversion Hv; subst. simpl. exists s1. split; [reflexivity|exact Hcs1]. }
  rewrite (csr_cur_tx s1 v1 Hcs1).
  apply (copy_sim n _ _ _ [] x (csr_begin _ _ _ Hcs1) (b_len_has _ (Hl1 E1))).
  apply (v_copy_mono F n (fuel_of F)); [unfold r_fuel, fuel_of; lia|exact Hv].
Qed.

Lemma readbyte_sim_c (s : rstate) (v : vstate) (x : vstate * list Z * Z) :
  csr s v -> (v_err v = eNil -> b_has (v_cur v) = true) -> v_readbyte F v = Ok x ->
  exists s', r_readbyte F s = Ok (s', snd (fst x), snd x) /\ csr s' (fst (fst x)).
Proof.
  intros Hcs Hnh Hv. unfold v_readbyte in Hv. unfold r_readbyte. rewrite (cs_err _ _ Hcs).
  destruct (Z.eqb_spec (v_err v) eNil) as [Ee|Ee]; simpl negb in *; cbv iota in *.
  2:{ inversion Hv; subst. simpl. exists s. split; [reflexivity|exact Hcs]. }
  destruct (v_skip F (S (length F)) v) as [[v1 e1]| | |] eqn:Hsk; try discriminate.
  apply (v_skip_mono F _ (r_fuel F s)) in Hsk; [|unfold r_fuel; lia].
  destruct (skip_sim _ s v _ Hcs (Hnh Ee) Hsk) as (s1 & Hrs & Hcs1 & Hl1).
  rewrite Hrs. simpl in *.
  destruct (Z.eqb_spec e1 eNil) as [E1|E1]; simpl negb in *; cbv iota in *.
  2:{ inversion Hv; subst. simpl. exists s1. split; [reflexivity|exact Hcs1]. }
  (* the block has bytes left: the read cannot report its end *)
  specialize (Hl1 E1). rewrite (csr_cur_tx s1 v1 Hcs1).
  pose proof (csr_begin _ _ (b_tx (v_cur v1)) Hcs1) as Hcs2.
  pose proof Hcs2 as [_ _ _ _ (i & Hci & _ & Hbeq & _)].
  unfold with_cur. rewrite Hci. rewrite !b_readbyte_read in *.
  destruct (beq_read 1 Hbeq) as (Hb1 & Hb2 & Hb3).
  pose proof (read_same (v_cur v1) 1) as Hsm. pose proof (b_read_nonempty (v_cur v1) 1 Hl1) as Hev.
  simpl v_cur in *.
  destruct (b_read (v_cur v1) 1) as [[bv bsv] ev].
  destruct (b_read (sget (r_st (rs_begin s1 (b_tx (v_cur v1)))) i) 1) as [[br bsr] er].
  simpl in Hb1, Hb2, Hb3, Hsm, Hev. subst bsr er ev. change (eNil =? eEOF) with false in *. cbv iota in *.
  inversion Hv; subst. simpl. eexists. split; [reflexivity|].
  rewrite (beq_tx Hb1). apply csr_end_err. exact (csr_set_cur _ _ i br bv Hcs2 Hci Hb1 Hsm).
Qed.

Lemma seek_sim_c (s : rstate) (v : vstate) (f o : Z) :
  csr s v -> 0 <= f ->
  exists s', r_seek F s f o = Ok (s', snd (v_seek F v f o)) /\ csr s' (fst (v_seek F v f o)).
Proof.
  intros Hcs Hf. pose proof Hcs as [_ _ _ _ (i & Hci & _ & Hbeq & _)].
  unfold r_seek, v_seek, with_cur. rewrite Hci.
  pose proof Hbeq as (B1 & _ & _ & _ & _ & B6). rewrite B1, B6.
  (* the end of Seek on a reader whose current block has data *)
  assert (Hfin : forall s1 v1, csr s1 v1 -> b_has (v_cur v1) = true ->
            exists s', with_cur s1 (fun i cur1 =>
                         if negb (b_has cur1) then Panic 4
                         else Ok (rs_lc (rs_err (rs_st s1 (sset (r_st s1) i (b_seek cur1 o))) eNil) ((f, o), (f, o)), eNil))
                       = Ok (s', eNil) /\
                       csr s' (set_lc (set_err (set_cur v1 (b_seek (v_cur v1) o)) eNil) ((f, o), (f, o)))).
  { intros s1 v1 Hcs1 Hh. pose proof Hcs1 as [_ _ _ _ (i1 & Hci1 & _ & Hbeq1 & _)].
    unfold with_cur. rewrite Hci1. pose proof Hbeq1 as (_ & _ & _ & _ & _ & B61). rewrite B61, Hh. simpl negb. cbv iota.
    eexists. split; [reflexivity|]. apply csr_misc.
    exact (csr_set_cur s1 v1 i1 _ _ Hcs1 Hci1 (beq_seek o Hbeq1) (seek_same _ o)). }
  destruct (negb (f =? b_base (v_cur v)) || negb (b_has (v_cur v))) eqn:Hre.
  - assert (Hne : b_has (v_cur v) = true -> b_base (v_cur v) <> f).
    { intros Hh. rewrite Hh, orb_false_r in Hre. apply negb_true_iff, Z.eqb_neq in Hre. congruence. }
    pose proof (fill_has F f (v_cur v) W Hf) as Hhasf.
    destruct (cacheSwap_sim s v f Hcs Hne Hf) as [(s1 & -> & Hcs1 & He)|(s1 & -> & Hfe)];
      [|destruct (fetch_sim s1 v f Hfe Hf) as (s2 & -> & Hcs2)];
      destruct (b_fill F (v_cur v) f) as [b e]; simpl in *.
    + subst e. apply (Hfin s1 _ Hcs1). apply Hhasf. reflexivity.
    + destruct (Z.eqb_spec e eNil) as [Ee|Ee]; [subst e|]; simpl negb; cbv iota.
      * apply (Hfin (rs_err s2 eNil) _ (csr_err _ _ eNil Hcs2)). apply Hhasf. reflexivity.
      * eexists. split; [reflexivity|]. apply csr_err. exact Hcs2.
  - change (negb (eNil =? eNil)) with false. cbv iota.
    apply orb_false_iff in Hre. destruct Hre as [_ H2]. apply negb_false_iff in H2.
    exact (Hfin s v Hcs H2).
Qed.

Lemma csr_blen (s : rstate) (v : vstate) : csr s v -> r_blen s = b_len (v_cur v).
Proof. intros [_ _ _ _ (i & Hci & _ & Hbeq & _)]. unfold r_blen. rewrite Hci. apply (beq_len Hbeq). Qed.

Lemma empty_cache_ok (st : store) (k : ckind) (cap : Z) (ch : list nat) :
  1 <= cap -> cache_ok F st (c_empty k cap ch).
Proof.
  intros Hc. constructor; simpl; auto.
  - unfold c_entries. simpl. destruct k; constructor.
  - unfold bids, c_entries. simpl. destruct k; constructor.
  - unfold c_entries. simpl. destruct k; intros ? ? [].
  - intros _. unfold lru_ok. simpl. repeat split; try constructor; intros; try contradiction; tauto.
Qed.

Lemma step_c (ch : list nat) (s : rstate) (v : vstate) (f : fstate) (o : rop) (x : vstate * fret) :
  csr s v -> sim F v f -> valid_op F o -> v_step F v o = Ok x ->
  exists s', r_step F ch s o = Ok (s', snd x) /\ csr s' (fst x).
Proof.
  intros Hcs Hsim Hv Hvs.
  assert (Hseek : forall fo bo, valid_off F fo bo = true -> v_step F v (OSeek fo bo) = Ok x ->
            exists s', r_step F ch s (OSeek fo bo) = Ok (s', snd x) /\ csr s' (fst x)).
  { intros fo bo Hb Hk. simpl in Hk |- *.
    destruct (valid_off_split F fo bo W Hb) as (pre & m & post & S & <- & _).
    destruct (seek_sim_c s v (m_base m) bo Hcs (split_base_nonneg S)) as (s' & Hrs & Hcs').
    rewrite Hrs. destruct (v_seek F v (m_base m) bo) as [v1 e]. inversion Hk; subst. eauto. }
  destruct o as [fo bo|n| |b| |k cap]; simpl in Hvs |- *.
  - exact (Hseek fo bo Hv Hvs).
  - destruct (v_read F v n) as [[[v1 bs] e]| | |] eqn:Hr; try discriminate. inversion Hvs; subst.
    destruct (read_sim_c s v n _ Hcs (sim_nil_has Hsim) Hr) as (s' & Hrs & Hcs'). rewrite Hrs. eauto.
  - destruct (v_readbyte F v) as [[[v1 bs] e]| | |] eqn:Hr; try discriminate. inversion Hvs; subst.
    destruct (readbyte_sim_c s v _ Hcs (sim_nil_has Hsim) Hr) as (s' & Hrs & Hcs'). rewrite Hrs. eauto.
  - inversion Hvs; subst. eexists. split; [reflexivity|].
    destruct Hcs as [He Hlc Hbl Hvg Hc]. constructor; simpl; auto.
  - rewrite (cs_lc _ _ Hcs). pose proof (sim_begin_valid _ _ _ Hsim) as Hbv.
    destruct (fst (v_lc v)) as [fo bo]. exact (Hseek fo bo Hbv Hvs).
  - inversion Hvs; subst. eexists. split; [reflexivity|].
    destruct Hcs as [He Hlc Hbl Hvg (i & Hci & Hil & Hbeq & Hcr)]. constructor; simpl; auto.
    exists i. split; [exact Hci|]. split; [exact Hil|]. split; [exact Hbeq|].
    destruct (Z.ltb_spec cap 1); simpl; [exact I|].
    split; [apply empty_cache_ok; lia|]. intros _.
    unfold bids, c_entries. simpl. destruct k; simpl; tauto.
Qed.

Lemma run_c (ch : list nat) : forall ops s v f,
  csr s v -> sim F v f -> Forall (valid_op F) ops ->
  r_run F ch s ops = v_run F v ops.
Proof.
  induction ops as [|o ops IH]; intros s v f Hcs Hsim Hv; [reflexivity|].
  inversion Hv; subst.
  destruct (step_sim F v f o W Hsim H1) as (v' & r & Hvs & _ & Hsim').
  destruct (step_c ch s v f o _ Hcs Hsim H1 Hvs) as (s' & Hrs & Hcs').
  simpl. rewrite Hvs, Hrs. simpl. rewrite (IH s' v' _ Hcs' Hsim' H2).
  rewrite (cs_lc _ _ Hcs'), (csr_blen _ _ Hcs'). reflexivity.
Qed.

Lemma init_csr : F <> [] -> csr (fst (r_init F)) (fst (v_init F)).
Proof.
  intros _. pose proof (fill_vgood F 0 b_new W (Z.le_refl 0)) as Hvg. unfold r_init, v_init.
  destruct (b_fill F b_new 0) as [b e]. constructor; simpl; auto.
  exists O. split; [reflexivity|]. split; [simpl; lia|]. split; [apply beq_refl|exact I].
Qed.

End WithContracts.

Lemma tget_in (t : list (Z * nat)) (k : Z) (v : nat) : tget t k = Some v -> In (k, v) t.
Proof.
  induction t as [|[k' v'] t IH]; simpl; [discriminate|].
  destruct (Z.eqb_spec k' k); intros H; [inversion H; subst; left; reflexivity|right; apply IH; exact H].
Qed.

Lemma tget_some_of_in (t : list (Z * nat)) (k : Z) (v : nat) : In (k, v) t -> exists v', tget t k = Some v'.
Proof.
  induction t as [|[k' v'] t IH]; simpl; [intros []|].
  intros [E|Hin]; destruct (Z.eqb_spec k' k); eauto; inversion E; congruence.
Qed.

Lemma tget_none (t : list (Z * nat)) (k : Z) : tget t k = None -> forall v, ~ In (k, v) t.
Proof. intros H v Hin. destruct (tget_some_of_in t k v Hin) as (v' & E). congruence. Qed.

Lemma tget_of_in (t : list (Z * nat)) (k : Z) (v : nat) : NoDup (map fst t) -> In (k, v) t -> tget t k = Some v.
Proof.
  induction t as [|[k' v'] t IH]; simpl; intros N H; [contradiction|].
  inversion N; subst. destruct H as [E|H].
  - inversion E; subst. rewrite Z.eqb_refl. reflexivity.
  - destruct (Z.eqb_spec k' k); [|apply IH; assumption].
    subst k'. exfalso. apply H2. apply in_map_iff. exists (k, v). auto.
Qed.

Lemma tdel_in (t : list (Z * nat)) (k : Z) (e : Z * nat) : In e (tdel t k) <-> In e t /\ fst e <> k.
Proof.
  induction t as [|[k' v'] t IH]; simpl; [tauto|].
  destruct (Z.eqb_spec k' k).
  - rewrite IH. split; [tauto|]. intros [[E|H] Hne]; [subst e; simpl in Hne; congruence|tauto].
  - simpl. rewrite IH. split; [intros [E|[H Hne]]; [subst e; simpl; tauto|tauto]|tauto].
Qed.

Lemma NoDup_map_tdel {B} (g : Z * nat -> B) (t : list (Z * nat)) (k : Z) : NoDup (map g t) -> NoDup (map g (tdel t k)).
Proof.
  induction t as [|[k' v'] t IH]; simpl; intros H; [constructor|].
  inversion H; subst. destruct (Z.eqb_spec k' k); [apply IH; assumption|].
  simpl. constructor; [|apply IH; assumption].
  intros Hin. apply H2. apply in_map_iff in Hin. destruct Hin as (e & E & Hin).
  apply in_map_iff. exists e. split; [exact E|]. apply tdel_in in Hin. tauto.
Qed.

Lemma odel_in (o : list nat) (n x : nat) : NoDup o -> (In x (odel o n) <-> In x o /\ x <> n).
Proof.
  induction o as [|y o IH]; simpl; intros H; [tauto|].
  inversion H; subst. destruct (Nat.eqb_spec y n).
  - subst y. split; [intros Hx; split; [tauto|intros ->; contradiction]|intros [[E|Hx] Hne]; [congruence|exact Hx]].
  - simpl. rewrite (IH H3). split; [intros [E|[Hx Hne]]; [subst; tauto|tauto]|tauto].
Qed.

Lemma NoDup_odel (o : list nat) (n : nat) : NoDup o -> NoDup (odel o n).
Proof.
  induction o as [|y o IH]; simpl; intros H; [constructor|].
  inversion H; subst. destruct (Nat.eqb_spec y n); [assumption|].
  constructor; [|apply IH; assumption]. intros Hin. apply (odel_in o n y H3) in Hin. tauto.
Qed.

Lemma omem_true (o : list nat) (n : nat) : In n o -> omem o n = true.
Proof. intros H. unfold omem. apply existsb_exists. exists n. split; [exact H|apply Nat.eqb_refl]. Qed.

Lemma nodup_map_inj {A B} (g : A -> B) (l : list A) (x y : A) :
  NoDup (map g l) -> In x l -> In y l -> g x = g y -> x = y.
Proof.
  induction l as [|a l IH]; simpl; intros N Hx Hy E; [contradiction|]. inversion N; subst.
  destruct Hx as [->|Hx], Hy as [->|Hy]; auto; exfalso; apply H1; [rewrite E|rewrite <- E]; apply in_map; assumption.
Qed.

Lemma NoDup_snoc {A} (l : list A) (x : A) : NoDup l -> ~ In x l -> NoDup (l ++ [x]).
Proof.
  induction l as [|y l IH]; simpl; intros N H; [constructor; [tauto|constructor]|].
  inversion N; subst. constructor.
  - rewrite in_app_iff. simpl. intros [Hy|[E|[]]]; [contradiction|subst; tauto].
  - apply IH; tauto.
Qed.

(** The block id under a table value: the value itself (Random) or the content of that list node. *)
Definition cbid (c : cstate) (v : nat) : nat :=
  match c_kind c with KRandom => v | _ => nth v (c_nodes c) O end.

Lemma cbid_list (c : cstate) (v : nat) : c_kind c <> KRandom -> cbid c v = nth v (c_nodes c) O.
Proof. unfold cbid. destruct (c_kind c); congruence. Qed.

Lemma entries_map (c : cstate) : c_entries c = map (fun kv => (fst kv, cbid c (snd kv))) (c_table c).
Proof.
  unfold c_entries, cbid. destruct (c_kind c); try reflexivity.
  rewrite <- (map_id (c_table c)) at 1. apply map_ext. intros []; reflexivity.
Qed.

Lemma in_entries (c : cstate) (k : Z) (b : nat) :
  In (k, b) (c_entries c) <-> exists v, In (k, v) (c_table c) /\ cbid c v = b.
Proof.
  rewrite entries_map, in_map_iff. split.
  - intros ([k' v] & E & H). inversion E; subst. eauto.
  - intros (v & H & <-). exists (k, v). auto.
Qed.

Lemma tget_none_entries (c : cstate) (k : Z) : tget (c_table c) k = None -> forall b, ~ In (k, b) (c_entries c).
Proof. intros E b Hin. apply in_entries in Hin. destruct Hin as (v & Hin & _). exact (tget_none _ _ E v Hin). Qed.

Lemma peek_holds : peek_contract.
Proof.
  intros st c k Hmiss. unfold c_peek, c_lookup.
  destruct (tget (c_table c) k) as [v|] eqn:E; [|reflexivity].
  destruct (Hmiss (cbid c v)). apply in_entries. exists v. split; [exact (tget_in _ _ _ E)|reflexivity].
Qed.

Lemma del_ok (F : file) (st : store) (c : cstate) (kd : ckind) (k : Z) (o ch : list nat) :
  cache_ok F st c -> kd = c_kind c ->
  let c1 := mkC kd (c_cap c) (c_nodes c) o (tdel (c_table c) k) ch in
  (kd <> KRandom -> lru_ok c1) ->
  cache_ok F st c1 /\ (forall e, In e (c_entries c1) <-> In e (c_entries c) /\ fst e <> k).
Proof.
  intros [C Nk Nb G L] -> c1 L1.
  assert (He1 : c_entries c1 = map (fun kv => (fst kv, cbid c (snd kv))) (tdel (c_table c) k)) by apply (entries_map c1).
  assert (Hsub : forall e, In e (c_entries c1) <-> In e (c_entries c) /\ fst e <> k).
  { intros e. rewrite He1, (entries_map c), !in_map_iff. split.
    - intros (kv & <- & H). apply tdel_in in H. split; [exists kv; tauto|simpl; tauto].
    - intros [(kv & <- & H) Hne]. exists kv. split; [reflexivity|]. apply tdel_in. auto. }
  split; [|exact Hsub]. unfold bids in *. rewrite (entries_map c), map_map in Nk, Nb.
  constructor.
  - exact C.
  - rewrite He1, map_map. apply NoDup_map_tdel. exact Nk.
  - unfold bids. rewrite He1, map_map. apply NoDup_map_tdel. exact Nb.
  - intros k' b' Hin. apply G. apply Hsub, Hin.
  - exact L1.
Qed.

Lemma tdel_vals (t : list (Z * nat)) (k : Z) (v x : nat) :
  NoDup (map fst t) -> NoDup (map snd t) -> In (k, v) t ->
  (In x (map snd (tdel t k)) <-> In x (map snd t) /\ x <> v).
Proof.
  intros Nk Nv Hin. rewrite !in_map_iff. split.
  - intros ([k' x'] & <- & H). apply tdel_in in H. destruct H as [H Hne]. split; [exists (k', x'); auto|].
    simpl in *. intros ->. apply Hne. exact (f_equal fst (nodup_map_inj snd t _ _ Nv H Hin eq_refl)).
  - intros [([k' x'] & <- & H) Hne]. exists (k', x'). split; [reflexivity|]. apply tdel_in. split; [exact H|].
    simpl in *. intros ->. apply Hne. exact (f_equal snd (nodup_map_inj fst t _ _ Nk H Hin eq_refl)).
Qed.

Lemma remove_ok (F : file) (st : store) (c : cstate) (k : Z) (v : nat) :
  cache_ok F st c -> c_kind c <> KRandom -> In (k, v) (c_table c) ->
  exists c1, c_remove st c v = Ok c1 /\ cache_ok F st c1 /\ c_kind c1 = c_kind c /\
    (forall e, In e (c_entries c1) <-> In e (c_entries c) /\ fst e <> k).
Proof.
  intros Hok Hr Hin. pose proof Hok as [C Nk Nb G L]. destruct (L Hr) as (Nn & No & Hio & Hlt).
  rewrite entries_map, map_map in Nk.
  assert (Hv : In v (map snd (c_table c))) by (apply in_map_iff; exists (k, v); auto).
  destruct (G k (cbid c v)) as [_ Hg]; [apply in_entries; eauto|]. rewrite (cbid_list c v Hr) in Hg.
  unfold c_remove. rewrite (omem_true _ _ (proj2 (Hio v) Hv)), (good_base Hg).
  eexists. split; [reflexivity|].
  destruct (del_ok F st c _ k (odel (c_order c) v) (c_choice c) Hok eq_refl) as [Hok1 Hsub]; [|auto].
  intros _. unfold lru_ok. simpl. split; [apply NoDup_map_tdel; exact Nn|]. split; [apply NoDup_odel; exact No|]. split.
  - intros x. rewrite (odel_in _ _ _ No), (tdel_vals _ _ _ _ Nk Nn Hin), Hio. tauto.
  - intros x Hx. apply Hlt. apply (tdel_vals _ _ _ _ Nk Nn Hin). exact Hx.
Qed.

Lemma get_holds (F : file) : get_contract F.
Proof.
  intros st c k Hok. unfold c_get, c_lookup.
  destruct (tget (c_table c) k) as [v|] eqn:E; [|split; [reflexivity|exact (tget_none_entries c k E)]].
  pose proof (tget_in _ _ _ E) as Hin.
  assert (Hent : In (k, cbid c v) (c_entries c)) by (apply in_entries; eauto).
  (* what holds when the entry has been deleted *)
  assert (Hdel : forall c1 bid kd, In (k, bid) (c_entries c) -> cache_ok F st c1 -> c_kind c1 = kd ->
            (forall e, In e (c_entries c1) <-> In e (c_entries c) /\ fst e <> k) ->
            In (k, bid) (c_entries c) /\ cache_ok F st c1 /\ c_kind c1 = kd /\
            (forall e, In e (c_entries c1) -> In e (c_entries c)) /\
            (kd <> KFIFO -> forall e, In e (c_entries c1) -> e <> (k, bid))).
  { intros c1 bid kd Hb Hok1 K1 Hsub. split; [exact Hb|]. split; [exact Hok1|]. split; [exact K1|]. split.
    - intros e He. apply Hsub, He.
    - intros _ e He ->. apply Hsub in He. simpl in He. tauto. }
  revert Hent. unfold cbid. destruct (c_kind c) eqn:Hk; intros Hent.
  - destruct (remove_ok F st c k v Hok ltac:(congruence) Hin) as (c1 & -> & H1 & H2 & H3).
    apply (Hdel c1 _ _ Hent H1); [congruence|exact H3].
  - (* FIFO keeps a used block *)
    destruct (b_used (sget st (nth v (c_nodes c) O))).
    + split; [exact Hent|]. split; [exact Hok|]. split; [exact Hk|]. split; [auto|congruence].
    + destruct (remove_ok F st c k v Hok ltac:(congruence) Hin) as (c1 & -> & H1 & H2 & H3).
      apply (Hdel c1 _ _ Hent H1); [congruence|exact H3].
  - apply (Hdel _ _ _ Hent); [|reflexivity|]; apply (del_ok F st c _ k (c_order c) (c_choice c) Hok (eq_sym Hk)); congruence.
Qed.

Lemma cons_ok (F : file) (st : store) (c1 c2 : cstate) (kb : Z) (bid : nat) :
  cache_ok F st c1 -> (bid < length st)%nat -> good F (sget st bid) kb ->
  ~ In bid (bids c1) -> (forall b, ~ In (kb, b) (c_entries c1)) ->
  c_cap c2 = c_cap c1 -> c_entries c2 = (kb, bid) :: c_entries c1 -> (c_kind c2 <> KRandom -> lru_ok c2) ->
  cache_ok F st c2.
Proof.
  intros [C Nk Nb G L] Hbl Hg Hnb Hnk Hc He L2. constructor.
  - rewrite Hc. exact C.
  - rewrite He. simpl. constructor; [|exact Nk]. intros Hin. apply in_map_iff in Hin. destruct Hin as ([k' b'] & E & Hin).
    simpl in E. subst k'. exact (Hnk _ Hin).
  - unfold bids. rewrite He. simpl. constructor; [exact Hnb|exact Nb].
  - intros k' b' Hin. rewrite He in Hin. destruct Hin as [E|Hin]; [inversion E; subst; auto|apply G; exact Hin].
  - exact L2.
Qed.

Lemma ins_list_ok (F : file) (st : store) (c1 : cstate) (bid : nat) (kb : Z) (front : bool) :
  cache_ok F st c1 -> c_kind c1 <> KRandom -> (bid < length st)%nat -> good F (sget st bid) kb ->
  ~ In bid (bids c1) -> (forall b, ~ In (kb, b) (c_entries c1)) ->
  let nid := length (c_nodes c1) in
  let c2 := mkC (c_kind c1) (c_cap c1) (c_nodes c1 ++ [bid])
                (if front then nid :: c_order c1 else c_order c1 ++ [nid])
                ((kb, nid) :: c_table c1) (c_choice c1) in
  cache_ok F st c2 /\ c_entries c2 = (kb, bid) :: c_entries c1.
Proof.
  intros Hok Hk Hbl Hg Hnb Hnk nid c2.
  destruct (co_lru _ _ _ Hok Hk) as (Nn & No & Hio & Hlt).
  assert (He : c_entries c2 = (kb, bid) :: c_entries c1).
  { rewrite (entries_map c2), (entries_map c1). simpl. rewrite (cbid_list c2 nid Hk). simpl. unfold nid. rewrite nth_middle. f_equal.
    apply map_ext_in. intros [k' v'] Hin. simpl. f_equal. rewrite (cbid_list c2 v' Hk), (cbid_list c1 v' Hk). apply app_nth1. apply Hlt.
    apply in_map_iff. exists (k', v'). auto. }
  split; [|exact He]. apply (cons_ok F st c1 c2 kb bid Hok Hbl Hg Hnb Hnk eq_refl He).
  intros _. unfold lru_ok, c2. simpl.
  assert (Hfresh : ~ In nid (map snd (c_table c1))) by (intros Hx; apply Hlt in Hx; unfold nid in Hx; lia).
  split; [constructor; assumption|].
  split.
  - destruct front.
    + constructor; [rewrite Hio; exact Hfresh|exact No].
    + apply NoDup_snoc; [exact No|rewrite Hio; exact Hfresh].
  - split.
    + intros x. destruct front; simpl.
      * rewrite Hio. tauto.
      * rewrite in_app_iff, Hio. simpl. tauto.
    + intros x [E|Hx]; rewrite app_length; simpl; [subst x; unfold nid; lia|apply Hlt in Hx; lia].
Qed.

Lemma kind_match {A} (k : ckind) (r l : A) :
  match k with KRandom => r | _ => l end = if ckind_eq_dec k KRandom then r else l.
Proof. destruct (ckind_eq_dec k KRandom) as [->|H]; [reflexivity|destruct k; congruence]. Qed.

Lemma ins_random_ok (F : file) (st : store) (c1 : cstate) (bid : nat) (kb : Z) (ch : list nat) :
  cache_ok F st c1 -> c_kind c1 = KRandom -> (bid < length st)%nat -> good F (sget st bid) kb ->
  ~ In bid (bids c1) -> (forall b, ~ In (kb, b) (c_entries c1)) ->
  let c2 := mkC (c_kind c1) (c_cap c1) (c_nodes c1) (c_order c1) ((kb, bid) :: c_table c1) ch in
  cache_ok F st c2 /\ c_entries c2 = (kb, bid) :: c_entries c1.
Proof.
  intros Hok Hk Hbl Hg Hnb Hnk c2.
  assert (He : c_entries c2 = (kb, bid) :: c_entries c1) by (unfold c_entries; simpl; rewrite Hk; reflexivity).
  split; [|exact He]. apply (cons_ok F st c1 c2 kb bid Hok Hbl Hg Hnb Hnk eq_refl He). intros Hx. contradiction.
Qed.

Lemma put_holds (F : file) : put_contract F.
Proof.
  intros st c bid kb Hok Hbl Hg Hpre. unfold c_put. rewrite (good_base Hg).
  destruct (tget (c_table c) kb) as [x|] eqn:E.
  - (* the key is indexed *)
    pose proof (tget_in _ _ _ E) as Hinx.
    destruct (c_kind c) eqn:Hk.
    1,3: (* LRU and Random report the block as not retained *)
      destruct Hpre as [Hn|Hf]; [|congruence]; split; [reflexivity|]; left; split; [reflexivity|exact Hn].
    (* FIFO *)
    assert (Hentx : In (kb, nth x (c_nodes c) O) (c_entries c))
      by (apply in_entries; exists x; split; [exact Hinx|apply cbid_list; congruence]).
    destruct (Nat.eqb_spec (nth x (c_nodes c) O) bid) as [Eb|Nb'].
    + split; [reflexivity|]. right. split; [reflexivity|]. apply in_bids. exists kb. rewrite <- Eb. exact Hentx.
    + split; [reflexivity|]. left. split; [reflexivity|]. intros Hx.
      pose proof (entry_of_bid F st c bid kb Hok Hx Hg) as Hent2.
      (* two entries under key kb *)
      apply Nb'. exact (f_equal snd (nodup_map_inj fst _ _ _ (co_keys _ _ _ Hok) Hentx Hent2 eq_refl)).
  - (* the key is free: the block is not held *)
    pose proof (tget_none_entries c kb E) as Hnk.
    assert (Hnb : ~ In bid (bids c)) by (intros Hx; exact (Hnk bid (entry_of_bid F st c bid kb Hok Hx Hg))).
    assert (Hno : c = c /\ (Some bid = Some bid /\ ~ In bid (bids c) \/ Some bid = None /\ In bid (bids c))) by auto.
    (* [c2] is [c1], which holds part of what [c] holds, with the new entry *)
    assert (Hins : forall c1 c2, (forall e, In e (c_entries c1) -> In e (c_entries c)) -> c_kind c1 = c_kind c ->
              (~ In bid (bids c1) -> (forall b, ~ In (kb, b) (c_entries c1)) ->
               cache_ok F st c2 /\ c_entries c2 = (kb, bid) :: c_entries c1) -> c_kind c2 = c_kind c1 ->
              ~ In bid (bids c) /\ cache_ok F st c2 /\ c_kind c2 = c_kind c /\
              (forall e, In e (c_entries c2) -> e = (kb, bid) \/ In e (c_entries c))).
    { intros c1 c2 Hsub K1 H K2. destruct H as [Hok2 He].
      - intros Hx. exact (Hnb (bids_sub c c1 Hsub bid Hx)).
      - intros b Hx. exact (Hnk b (Hsub _ Hx)).
      - split; [exact Hnb|]. split; [exact Hok2|]. split; [congruence|].
        intros e Hin. rewrite He in Hin. destruct Hin as [<-|Hin]; auto. }
    rewrite kind_match. destruct (ckind_eq_dec (c_kind c) KRandom) as [Hk|Hr].
    + (* Random: when the cache is full and the block used, an entry picked through [c_choice] goes first *)
      pose proof (Hins c _ (fun _ H => H) eq_refl (ins_random_ok F st c bid kb (c_choice c) Hok Hk Hbl Hg) eq_refl) as Hplain.
      destruct (tlen c =? c_cap c); [|exact Hplain].
      destruct (b_used (sget st bid)); simpl negb; cbv iota; [|exact Hno].
      match goal with |- context [nth_error ?cands ?idx] => destruct (nth_error cands idx) as [[k v]|] end; [|exact Hplain].
      destruct (del_ok F st c _ k (c_order c) (tl (c_choice c)) Hok eq_refl) as [Hok1 Hsub1]; [congruence|].
      exact (Hins _ _ (fun e He => proj1 (proj1 (Hsub1 e) He)) eq_refl
               (ins_random_ok F st _ bid kb (tl (c_choice c)) Hok1 Hk Hbl Hg) eq_refl).
    + (* LRU, FIFO: when the list is full and the block used, the last node goes first *)
      cbv zeta.
      destruct (tlen c =? c_cap c) eqn:Hfull;
        [|exact (Hins c _ (fun _ H => H) eq_refl (ins_list_ok F st c bid kb _ Hok Hr Hbl Hg) eq_refl)].
      destruct (b_used (sget st bid)); simpl negb; cbv iota; [|exact Hno].
      destruct (co_lru _ _ _ Hok Hr) as (_ & _ & Hio & _).
      destruct (rev (c_order c)) as [|nv rest] eqn:Hrev.
      { (* a full list has a last node *)
        apply Z.eqb_eq in Hfull. unfold tlen in Hfull. pose proof (co_cap _ _ _ Hok).
        destruct (c_table c) as [|[k0 n0] t0]; [rewrite zlen_nil in Hfull; lia|].
        assert (Hin0 : In n0 (c_order c)) by (apply Hio; left; reflexivity).
        apply in_rev in Hin0. rewrite Hrev in Hin0. exact Hin0. }
      assert (Hinv : In nv (map snd (c_table c))) by (apply Hio, in_rev; rewrite Hrev; left; reflexivity).
      apply in_map_iff in Hinv. destruct Hinv as ([kv nv'] & Ev & Hinv). simpl in Ev. subst nv'.
      destruct (remove_ok F st c kv nv Hok Hr Hinv) as (c1 & -> & Hok1 & K1 & Hsub1).
      exact (Hins c1 _ (fun e He => proj1 (proj1 (Hsub1 e) He)) K1
               (ins_list_ok F st c1 bid kb true Hok1 ltac:(congruence) Hbl Hg) eq_refl).
Qed.
