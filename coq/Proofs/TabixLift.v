(** tabix around a later state of its core: sort, queries and MergeChunks
    only replace the core ([tb_with]); names, name map and header stay. *)
From Coq Require Import ZArith List.
From Hts Require Import Base.Prim Model.Index Model.Tabix.
Open Scope Z_scope.

Definition tb_with (t : tbx) (ix : index) : tbx := mkTbx (t_names t) (t_map t) (t_hdr t) ix.

Lemma tb_merge_with s t : tb_merge s t = tb_with t (ix_merge s (t_idx t)).
Proof. reflexivity. Qed.

Lemma tb_chunks_state t nm beg end_ :
  exists ix', snd (tb_chunks t nm beg end_) = tb_with t ix' /\
              (ix' = t_idx t \/ exists id, ix' = snd (ix_chunks (t_idx t) id beg end_)).
Proof.
  unfold tb_chunks. destruct (tb_lookup (t_map t) nm) as [id|].
  - destruct (ix_chunks (t_idx t) id beg end_) as [a ix'] eqn:E. exists ix'. split; [reflexivity|].
    right. exists id. rewrite E. reflexivity.
  - exists (t_idx t). split; [destruct t; reflexivity|left; reflexivity].
Qed.
