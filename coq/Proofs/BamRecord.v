(** C05 — one record: Reader.Read on the bytes Writer.Write produces. *)
From Coq Require Import ZArith Lia List Bool.
From Hts Require Import Base.Prim Base.Bits Generated Model.BamCodec Base.BytesLE Proofs.BamAux.
Import ListNotations.
Open Scope Z_scope.

Lemma b_unsafe_app x rest n :
  n = zlen x -> b_unsafe (x ++ rest, false) n = (Some x, (rest, false)).
Proof. intros ->. unfold b_unsafe. rewrite app_not_shorter, zfirstn_app, zskipn_app. reflexivity. Qed.

Lemma b_unsafe_all x n :
  n = zlen x -> b_unsafe (x, false) n = (Some x, ([], false)).
Proof. intros H. pose proof (b_unsafe_app x [] n H) as E. rewrite app_nil_r in E. exact E. Qed.

Lemma b_discard_app x rest n :
  n = zlen x -> b_discard (x ++ rest, false) n = (rest, false).
Proof. intros ->. unfold b_discard. rewrite app_not_shorter, zskipn_app. reflexivity. Qed.

(** Any of the reader's three kinds of fixed field on [w] bytes written by
    [le_put]. *)
Lemma b_read_put (w : nat) (kind v : Z) rest :
  0 <= v < 256 ^ Z.of_nat w ->
  b_read (le_put w v ++ rest, false) (Z.of_nat w) kind
  = (if kind =? 2 then 0 else if kind =? 1 then s32 v else v, (rest, false)).
Proof.
  intros Hv. unfold b_read. rewrite <- (zlen_le_put w v).
  destruct (kind =? 2); [rewrite b_discard_app; reflexivity|].
  rewrite app_not_shorter, zfirstn_app, zskipn_app, le_get_put_small by assumption. reflexivity.
Qed.

Lemma b_read_i32 x rest :
  - 2 ^ 31 <= x < 2 ^ 31 ->
  b_read (le_put 4 (u32 (s32 x)) ++ rest, false) 4 1 = (x, (rest, false)).
Proof.
  intros H. rewrite (b_read_put 4) by apply u32_range.
  rewrite u32_s32, s32_u32 by assumption. reflexivity.
Qed.

Lemma b_read_u16 x rest :
  0 <= x < 2 ^ 16 -> b_read (le_put 2 (u16 x) ++ rest, false) 2 0 = (x, (rest, false)).
Proof. intros H. rewrite (b_read_put 2) by apply u16_range. rewrite u16_small by assumption. reflexivity. Qed.

Lemma b_read_u8 x rest :
  0 <= x < 2 ^ 8 -> b_read (le_put 1 (u8 x) ++ rest, false) 1 0 = (x, (rest, false)).
Proof. intros H. rewrite (b_read_put 1) by apply u8_range. rewrite u8_small by assumption. reflexivity. Qed.

Definition cig_bytes (cig : list Z) : list Z := flat_map (fun op => le_put 4 (u32 op)) cig.

(** The block (everything after the block size) of a record. *)
Definition body_of (r : rec) (bin : Z) : list Z :=
  le_put 4 (u32 (s32 (r_ref r))) ++ le_put 4 (u32 (s32 (r_pos r)))
  ++ le_put 1 (u8 (zlen (r_name r) + 1)) ++ le_put 1 (u8 (r_mapq r)) ++ le_put 2 (u16 bin)
  ++ le_put 2 (u16 (zlen (r_cigar r))) ++ le_put 2 (u16 (r_flags r)) ++ le_put 4 (u32 (s32 (r_lseq r)))
  ++ le_put 4 (u32 (s32 (r_mref r))) ++ le_put 4 (u32 (s32 (r_mpos r))) ++ le_put 4 (u32 (s32 (r_tlen r)))
  ++ r_name r ++ [0] ++ cig_bytes (r_cigar r) ++ r_seq r ++ qual_bytes r ++ aux_bytes (r_aux r).

(** The two layout tables of the writer, run through; the field values
    [wfield] and parts [enc_var] select are found by conversion. *)
Lemma enc_shape r len bin :
  enc_fixed r len bin ++ flat_map (enc_var r (aux_bytes (r_aux r))) bam_Write_var
  = le_put 4 (u32 (s32 len)) ++ body_of r bin.
Proof.
  unfold enc_fixed, bam_Write_fixed, bam_Write_var.
  rewrite !flat_map_concat_map, <- concat_app. cbn [map app concat]. rewrite app_nil_r. reflexivity.
Qed.

Lemma in_i32_iff x : in_i32 x = true <-> - 2 ^ 31 <= x < 2 ^ 31.
Proof. unfold in_i32. rewrite andb_true_iff, Z.leb_le, Z.ltb_lt. tauto. Qed.

Record valid_props (nrefs : Z) (r : rec) : Prop := {
  vp_name_bytes : all_bytes (r_name r) = true;
  vp_name_nz : nonzero_bytes (r_name r) = true;
  vp_name_len : 1 <= zlen (r_name r) <= 254;
  vp_ref : -1 <= r_ref r < nrefs;
  vp_mref : -1 <= r_mref r < nrefs;
  vp_nrefs : nrefs < 2 ^ 31;
  vp_pos : - 2 ^ 31 <= r_pos r < 2 ^ 31;
  vp_mpos : - 2 ^ 31 <= r_mpos r < 2 ^ 31;
  vp_tlen : - 2 ^ 31 <= r_tlen r < 2 ^ 31;
  vp_mapq : 0 <= r_mapq r < 256;
  vp_flags : 0 <= r_flags r < 65536;
  vp_cigar : forallb wf_cigar_op (r_cigar r) = true;
  vp_ncigar : zlen (r_cigar r) <= 65535;
  vp_lseq : 0 <= r_lseq r < 2 ^ 31;
  vp_seq_bytes : all_bytes (r_seq r) = true;
  vp_seq_len : zlen (r_seq r) = (r_lseq r + 1) / 2;
  vp_qual : match r_qual r with Some q => all_bytes q = true /\ zlen q = r_lseq r | None => True end;
  vp_aux : forallb wf_aux (r_aux r) = true;
  vp_size : block_size r < 2 ^ 31
}.

Lemma valid_rec_props nrefs r : valid_rec nrefs r = true -> valid_props nrefs r.
Proof.
  unfold valid_rec. intros H.
  repeat (apply andb_true_iff in H; let H' := fresh "V" in destruct H as [H H']).
  repeat match goal with
    | X : (_ <=? _) = true |- _ => apply Z.leb_le in X
    | X : (_ <? _) = true |- _ => apply Z.ltb_lt in X
    | X : (_ =? _) = true |- _ => apply Z.eqb_eq in X
    | X : in_i32 _ = true |- _ => apply in_i32_iff in X
    | X : is_byte _ = true |- _ => apply is_byte_iff in X
    end.
  constructor; try assumption; try (split; assumption).
  destruct (r_qual r); [|exact I].
  apply andb_true_iff in V1. destruct V1 as [Q1 Q2]. apply Z.eqb_eq in Q2. tauto.
Qed.

Lemma zlen_qual_bytes nrefs r : valid_props nrefs r -> zlen (qual_bytes r) = r_lseq r.
Proof.
  intros V. pose proof (vp_qual _ _ V) as Q. pose proof (vp_lseq _ _ V). unfold qual_bytes.
  destruct (r_qual r); [tauto|]. rewrite zlen_repeat. lia.
Qed.

Lemma zlen_cig_bytes c : zlen (cig_bytes c) = 4 * zlen c.
Proof.
  induction c as [|op t IH]; [reflexivity|].
  unfold cig_bytes in *. cbn [flat_map]. rewrite zlen_app, IH, zlen_le_put, zlen_cons. lia.
Qed.

Lemma wf_cigar_op_iff op : wf_cigar_op op = true <-> 0 <= op < 2 ^ 32.
Proof. unfold wf_cigar_op. rewrite andb_true_iff, Z.leb_le, Z.ltb_lt. tauto. Qed.

Lemma read_cigar_bytes c :
  forallb wf_cigar_op c = true -> read_cigar_ops (length c) (cig_bytes c) = c.
Proof.
  induction c as [|op t IH]; intros H; [reflexivity|].
  cbn [forallb] in H. apply andb_true_iff in H. destruct H as [Hop Ht]. apply wf_cigar_op_iff in Hop.
  unfold cig_bytes. cbn [flat_map length read_cigar_ops]. fold (cig_bytes t).
  rewrite firstn_app_len, skipn_app_len by (rewrite le_put_length; reflexivity).
  rewrite IH, u32_small, le_get_put_small by assumption. reflexivity.
Qed.

Lemma cig_count c : Z.to_nat (Z.quot (zlen (cig_bytes c)) 4) = length c.
Proof.
  rewrite zlen_cig_bytes. rewrite Z.mul_comm, Z.quot_mul by lia. unfold zlen. apply Nat2Z.id.
Qed.

(** Record.Bin never fails: a type above lastCigar reads the table's last entry. *)
Lemma rec_end_loop_ok c : forall p e, exists v, rec_end_loop c p e = Ok v.
Proof.
  induction c as [|op t IH]; intros p e; [eexists; reflexivity|].
  cbn [rec_end_loop]. unfold chk. rewrite inb_true; [apply IH|].
  assert (0 <= cig_type op) by (apply Z.land_nonneg; right; lia).
  unfold consumes_idx. change sam_lastCigar with 10. change (zlen sam_consumeRef) with 11.
  destruct (Z.ltb_spec 10 (cig_type op)); lia.
Qed.

Lemma binfor_ok b e : exists v, internal_BinFor b e = Ok v.
Proof.
  unfold internal_BinFor.
  repeat match goal with |- context [if ?c then _ else _] => destruct c end; eexists; reflexivity.
Qed.

Lemma rec_bin_ok r : exists bin, rec_bin r = Ok bin.
Proof.
  unfold rec_bin, sam_Record_Bin, rec_end.
  destruct (negb (Z.land (r_flags r) sam_Unmapped =? 0) || (zlen (r_cigar r) =? 0)).
  - apply binfor_ok.
  - destruct (rec_end_loop_ok (r_cigar r) (r_pos r) (r_pos r)) as [v ->]. apply binfor_ok.
Qed.

(** The environment Reader.Read has after the fixed part: destination 5 (bin) is discarded. *)
Definition fixed_env (ref pos nlen mapq ncig flags lseq mref mpos tlen : Z) (i : Z) : Z :=
  if i =? 11 then tlen else if i =? 10 then mpos else if i =? 9 then mref else if i =? 8 then lseq
  else if i =? 7 then flags else if i =? 6 then ncig else if i =? 5 then 0 else if i =? 4 then mapq
  else if i =? 3 then nlen else if i =? 2 then pos else if i =? 1 then ref else 0.

Lemma read_fixed_enc (ref pos nlen mapq bin ncig flags lseq mref mpos tlen : Z) rest :
  - 2 ^ 31 <= ref < 2 ^ 31 -> - 2 ^ 31 <= pos < 2 ^ 31 -> 0 <= nlen < 2 ^ 8 -> 0 <= mapq < 2 ^ 8 ->
  0 <= ncig < 2 ^ 16 -> 0 <= flags < 2 ^ 16 -> - 2 ^ 31 <= lseq < 2 ^ 31 -> - 2 ^ 31 <= mref < 2 ^ 31 ->
  - 2 ^ 31 <= mpos < 2 ^ 31 -> - 2 ^ 31 <= tlen < 2 ^ 31 ->
  read_fixed bam_Read_fixed
    (le_put 4 (u32 (s32 ref)) ++ le_put 4 (u32 (s32 pos)) ++ le_put 1 (u8 nlen) ++ le_put 1 (u8 mapq)
     ++ le_put 2 (u16 bin) ++ le_put 2 (u16 ncig) ++ le_put 2 (u16 flags) ++ le_put 4 (u32 (s32 lseq))
     ++ le_put 4 (u32 (s32 mref)) ++ le_put 4 (u32 (s32 mpos)) ++ le_put 4 (u32 (s32 tlen)) ++ rest, false)
    (fun _ => 0)
  = (fixed_env ref pos nlen mapq ncig flags lseq mref mpos tlen, (rest, false)).
Proof.
  intros. unfold bam_Read_fixed. cbn [read_fixed].
  rewrite !b_read_i32, !b_read_u8, (b_read_put 2), !b_read_u16, !b_read_i32 by (assumption || apply u16_range).
  reflexivity.
Qed.

Lemma half_up x : 0 <= x -> Z.shiftr x 1 + Z.land x 1 = (x + 1) / 2.
Proof.
  intros H. rewrite Z.shiftr_div_pow2 by lia. change (Z.land x 1) with (Z.land x (Z.ones 1)).
  rewrite Z.land_ones by lia. change (2 ^ 1) with 2. Z.div_mod_to_equations; lia.
Qed.

(** The reference and the mate reference (nil, the record's own reference, or
    another one), as Reader.Read resolves them. *)
Lemma ref_check n x :
  -1 <= x < n ->
  (if negb (x =? -1) then if (x <? -1) || (n <=? x) then Err 12 else Ok x else @Ok Z (-1)) = Ok x.
Proof.
  intros H. destruct (Z.eqb_spec x (-1)) as [->|]; [reflexivity|].
  rewrite (proj2 (Z.ltb_ge _ _)), (proj2 (Z.leb_gt _ _)) by lia. reflexivity.
Qed.

Lemma mate_check {A} n x y (mk : Z -> A) :
  -1 <= y < n ->
  (if negb (y =? -1) then
     if x =? y then Ok (mk x) else if (y <? -1) || (n <=? y) then Err 13 else Ok (mk y)
   else Ok (mk (-1))) = Ok (mk y).
Proof.
  intros H. destruct (Z.eqb_spec y (-1)) as [->|]; [reflexivity|].
  destruct (Z.eqb_spec x y) as [->|]; [reflexivity|].
  rewrite (proj2 (Z.ltb_ge _ _)), (proj2 (Z.leb_gt _ _)) by lia. reflexivity.
Qed.

Lemma storage_not_reused sh : storage_reused sh = false.
Proof. destruct sh; reflexivity. Qed.

Theorem decode_body nrefs r omit sh bin :
  valid_rec nrefs r = true ->
  decode_record omit nrefs sh (body_of r bin) = Ok (omit_view omit (canon r), false).
Proof.
  intros Hv. apply valid_rec_props in Hv. pose proof (zlen_qual_bytes _ _ Hv) as Hql.
  destruct Hv as [_ _ Vnl Vref Vmref Vnrefs Vpos Vmpos Vtlen Vmapq Vflags Vcig Vncig Vlseq _ Vsl _ Vaux _].
  pose proof (zlen_nonneg (r_cigar r)) as Hnc.
  unfold decode_record, body_of, bam_Read_nameLen, bam_Read_cigarLen, bam_Read_seqLen.
  (* the reference fields fit an int32 because the header's reference count does *)
  rewrite read_fixed_enc by (assumption || (clear - Vnl Vncig Hnc Vlseq Vref Vmref Vnrefs; lia)).
  cbn [fixed_env Z.eqb Pos.eqb].
  rewrite (proj2 (Z.ltb_ge _ _)) by lia.
  rewrite b_unsafe_app by lia. rewrite (b_discard_app [0]) by reflexivity.
  rewrite b_unsafe_app by (rewrite zlen_cig_bytes; lia).
  cbn [odef]. rewrite cig_count, read_cigar_bytes by assumption.
  (* the variable-length parts the Omit mode keeps *)
  match goal with |- obind ?v _ = _ =>
    assert (Hvar : v = let r' := omit_view omit (canon r) in
                       Ok (r_lseq r', r_seq r', r_qual r', r_aux r', false, false)) end.
  { unfold omit_view. destruct (bam_AllVariableLengthData <=? omit); [reflexivity|].
    rewrite (proj2 (Z.ltb_ge _ _)) by lia. unfold b_bytes.
    rewrite b_unsafe_app by (rewrite half_up by lia; lia). rewrite b_unsafe_app by lia.
    rewrite storage_not_reused.
    destruct (bam_AuxTags <=? omit); [reflexivity|].
    unfold b_len. cbn [fst]. rewrite b_unsafe_all by reflexivity. cbn [odef]. rewrite parse_aux_bytes by assumption. reflexivity. }
  rewrite Hvar. clear Hvar. cbn [obind]. rewrite ref_check by assumption. cbn [obind].
  (* [mk]: the record as a function of its mate reference *)
  rewrite (mate_check nrefs (r_ref r) (r_mref r) (fun m => (mkRec _ _ _ _ _ _ m _ _ _ _ _ _, false))) by assumption.
  unfold omit_view. destruct (bam_AllVariableLengthData <=? omit); [reflexivity|].
  destruct (bam_AuxTags <=? omit); reflexivity.
Qed.

Theorem encode_valid nrefs r :
  valid_rec nrefs r = true ->
  exists bin,
    encode_record r = Ok (le_put 4 (zlen (body_of r bin)) ++ body_of r bin) /\
    zlen (body_of r bin) = block_size r.
Proof.
  intros Hv. pose proof (valid_rec_props _ _ Hv) as V.
  destruct (rec_bin_ok r) as [bin Hbin]. exists bin.
  assert (Hlen : zlen (body_of r bin) = block_size r).
  { unfold body_of, block_size.
    rewrite !zlen_app, !zlen_le_put, zlen_cig_bytes, (zlen_qual_bytes _ _ V), zlen_aux_bytes, zlen_cons, zlen_nil. lia. }
  split; [|exact Hlen].
  unfold encode_record.
  pose proof (vp_name_len _ _ V).
  rewrite (proj2 (Z.eqb_neq _ _)), (proj2 (Z.ltb_ge _ _)) by lia. cbn [orb].
  assert (Hq : match r_qual r with Some q => negb (zlen q =? r_lseq r) | None => false end = false).
  { pose proof (vp_qual _ _ V) as Q. destruct (r_qual r); [|reflexivity]. destruct Q as [_ ->]. rewrite Z.eqb_refl. reflexivity. }
  rewrite Hq, (build_aux_bytes _ (vp_aux _ _ V)), Hbin. cbn [obind].
  rewrite enc_shape. do 2 f_equal.
  assert (Hrl : rec_len r (aux_bytes (r_aux r)) = block_size r).
  { unfold rec_len, block_size. rewrite zlen_aux_bytes. change bam_bamFixedRemainder with 32.
    rewrite Z.shiftl_mul_pow2 by lia. change (2 ^ 2) with 4. lia. }
  rewrite Hrl, Hlen, u32_s32. f_equal. apply u32_small.
  pose proof (vp_size _ _ V). rewrite <- Hlen. pose proof (zlen_nonneg (body_of r bin)). lia.
Qed.

(** Round trip of one record: one block serves every Omit mode and either
    buffer decision. *)
Theorem record_roundtrip_all nrefs r :
  valid_rec nrefs r = true ->
  exists body,
    encode_record r = Ok (le_put 4 (zlen body) ++ body) /\
    zlen body = block_size r /\
    forall omit sh, decode_record omit nrefs sh body = Ok (omit_view omit (canon r), false).
Proof.
  intros Hv. destruct (encode_valid nrefs r Hv) as [bin [He Hl]].
  exists (body_of r bin). split; [assumption|]. split; [assumption|].
  intros. apply decode_body, Hv.
Qed.
