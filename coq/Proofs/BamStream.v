(** C05 — header frame and record loop: the whole stream reads back. *)
From Coq Require Import ZArith Lia List Bool.
From Hts Require Import Base.Prim Base.Bits Generated Model.BamCodec Base.BytesLE
  Proofs.BamAux Proofs.BamRecord.
Import ListNotations.
Open Scope Z_scope.

Lemma zlist_eqb_refl l : zlist_eqb l l = true.
Proof. induction l; [reflexivity|]. cbn [zlist_eqb]. rewrite Z.eqb_refl, IHl. reflexivity. Qed.

(** An int32 length field in front of anything: long enough, read back, skipped. *)
Lemma read_i32_prefix x rest :
  - 2 ^ 31 <= x < 2 ^ 31 ->
  (zlen (le_put 4 (u32 (s32 x)) ++ rest) <? 4) = false /\
  s32 (le_get (zfirstn 4 (le_put 4 (u32 (s32 x)) ++ rest))) = x /\
  zskipn 4 (le_put 4 (u32 (s32 x)) ++ rest) = rest.
Proof.
  intros H. change 4 with (zlen (le_put 4 (u32 (s32 x)))) at 1 2 3.
  rewrite app_not_shorter, zfirstn_app, zskipn_app, le_get_put_small by (rewrite u32_s32; apply u32_range).
  rewrite u32_s32, s32_u32 by assumption. repeat split.
Qed.

Lemma read_refs_enc refs rest :
  forallb (fun nl => all_bytes (fst nl) && nonzero_bytes (fst nl) && (zlen (fst nl) <? 2 ^ 31 - 1) && in_i32 (snd nl)) refs = true ->
  read_refs (length refs) (flat_map enc_ref refs ++ rest) = Ok (refs, rest).
Proof.
  induction refs as [|[nm l] t IH]; intros H; [reflexivity|].
  cbn [forallb fst snd] in H. apply andb_true_iff in H. destruct H as [H Ht].
  apply andb_true_iff in H. destruct H as [H Hl]. apply andb_true_iff in H. destruct H as [_ Hn].
  apply Z.ltb_lt in Hn. apply in_i32_iff in Hl. pose proof (zlen_nonneg nm) as Hnm.
  cbn [flat_map length]. set (tl := flat_map enc_ref t) in *.
  unfold enc_ref. cbn [fst snd]. rewrite <- !app_assoc. cbn [read_refs].
  destruct (read_i32_prefix (zlen nm + 1) (nm ++ [0] ++ le_put 4 (u32 (s32 l)) ++ tl ++ rest))
    as (-> & -> & ->); [lia|].
  rewrite (proj2 (Z.ltb_ge _ 1)) by lia.
  (* the name with its NUL *)
  rewrite (app_assoc nm [0]).
  assert (Hl1 : zlen nm + 1 = zlen (nm ++ [0])) by (rewrite zlen_app; reflexivity).
  rewrite Z.add_simpl_r, Hl1, app_not_shorter, !zfirstn_app, !zskipn_app.
  replace (getz (nm ++ [0]) (zlen nm)) with 0 by (unfold getz, zlen; rewrite Nat2Z.id, nth_middle; reflexivity).
  cbn [negb Z.eqb].
  destruct (read_i32_prefix l (tl ++ rest) Hl) as (-> & -> & ->).
  rewrite (IH Ht). reflexivity.
Qed.

Theorem header_roundtrip h rest :
  valid_hdr h = true -> decode_header (encode_header h ++ rest) = Ok (h, rest).
Proof.
  unfold valid_hdr. intros H.
  apply andb_true_iff in H. destruct H as [H Hrefs]. apply andb_true_iff in H. destruct H as [H Hnr].
  apply andb_true_iff in H. destruct H as [_ Hlt]. apply Z.ltb_lt in Hlt, Hnr.
  pose proof (zlen_nonneg (h_text h)). pose proof (zlen_nonneg (h_refs h)).
  unfold encode_header. rewrite <- !app_assoc. unfold decode_header.
  change 4 with (zlen sam_bamMagic) at 1.
  rewrite app_not_shorter, zfirstn_app_n, zskipn_app_n, zlist_eqb_refl by reflexivity. cbn [negb].
  destruct (read_i32_prefix (zlen (h_text h)) (h_text h ++ le_put 4 (u32 (s32 (zlen (h_refs h)))) ++ flat_map enc_ref (h_refs h) ++ rest))
    as (-> & -> & ->); [lia|].
  rewrite (proj2 (Z.ltb_ge _ 0)), app_not_shorter, zfirstn_app, zskipn_app by lia.
  destruct (read_i32_prefix (zlen (h_refs h)) (flat_map enc_ref (h_refs h) ++ rest)) as (-> & -> & ->); [lia|].
  rewrite (proj2 (Z.ltb_ge _ 0)) by lia.
  unfold zlen at 1. rewrite Nat2Z.id, read_refs_enc by assumption.
  destruct h; reflexivity.
Qed.

Lemma read_records_step nrefs r omit :
  valid_rec nrefs r = true ->
  exists e, encode_record r = Ok e /\ (1 <= length e)%nat /\
    forall f rest, read_records (S f) omit nrefs (e ++ rest)
      = (let '(rs, en) := read_records f omit nrefs rest in ((omit_view omit (canon r), false) :: rs, en)).
Proof.
  intros Hv. destruct (record_roundtrip_all nrefs r Hv) as (body & He & Hl & Hd).
  exists (le_put 4 (zlen body) ++ body). split; [exact He|]. split; [rewrite app_length, le_put_length; lia|].
  intros f rest.
  (* 32 fixed bytes, a name of at least one byte, its NUL *)
  assert (Hbs : 34 <= zlen body < 2 ^ 31).
  { pose proof (valid_rec_props _ _ Hv) as V. rewrite Hl. split; [|apply (vp_size _ _ V)]. unfold block_size.
    pose proof (vp_name_len _ _ V). pose proof (zlen_nonneg (r_cigar r)). pose proof (zlen_nonneg (r_seq r)).
    pose proof (vp_lseq _ _ V). pose proof (tags_len_ge _ (vp_aux _ _ V)). lia. }
  rewrite <- app_assoc. cbn [read_records].
  rewrite (proj2 (Z.eqb_neq (zlen _) 0)) by (rewrite zlen_app, zlen_le_put; pose proof (zlen_nonneg (body ++ rest)); lia).
  change 4 with (zlen (le_put 4 (zlen body))) at 1.
  rewrite app_not_shorter, zfirstn_app_n, zskipn_app_n by reflexivity.
  rewrite le_get_put_small, s32_small by (change (256 ^ Z.of_nat 4) with (2 ^ 32); lia).
  rewrite (proj2 (Z.eqb_neq _ 0)), (proj2 (Z.ltb_ge _ 0)), app_not_shorter, zfirstn_app, zskipn_app, Hd by lia.
  reflexivity.
Qed.

(** The writer's stream of valid records exists, is at least one byte per
    record long, and is read back to the end. *)
Theorem records_roundtrip nrefs omit rs :
  forallb (valid_rec nrefs) rs = true ->
  exists bs, encode_records rs = Ok bs /\ (length rs <= length bs)%nat /\
    forall fuel, (length rs < fuel)%nat ->
      read_records fuel omit nrefs bs = (map (fun r => (omit_view omit (canon r), false)) rs, EndEOF).
Proof.
  induction rs as [|r t IH]; intros Hv.
  - exists []. repeat split; [apply Nat.le_refl|]. intros [|f] Hf; [inversion Hf|reflexivity].
  - cbn [forallb] in Hv. apply andb_true_iff in Hv. destruct Hv as [Hr Ht].
    destruct (IH Ht) as (bt & Et & Hlen & Hrd). destruct (read_records_step nrefs r omit Hr) as (e & Er & He & Hs).
    exists (e ++ bt). cbn [encode_records]. rewrite Er, Et. split; [reflexivity|]. split.
    + rewrite app_length. cbn [length]. lia.
    + intros [|f] Hf; [inversion Hf|]. cbn [length] in Hf. rewrite Hs, Hrd by lia. reflexivity.
Qed.

(** Every valid header and list of valid records: the writer produces a
    stream, and the reader returns the header, the records in order (with the
    Omit mode applied) and a clean EOF. *)
Theorem stream_roundtrip h rs omit :
  valid_hdr h = true -> forallb (valid_rec (zlen (h_refs h))) rs = true ->
  exists bs,
    encode_stream h rs = Ok bs /\
    read_stream omit bs = Ok (h, (map (fun r => (omit_view omit (canon r), false)) rs, EndEOF)).
Proof.
  intros Hh Hv. destruct (records_roundtrip _ omit rs Hv) as (b & Hb & Hlen & Hrd).
  exists (encode_header h ++ b). unfold encode_stream, read_stream.
  rewrite Hb, (header_roundtrip h b Hh), Hrd by lia. split; reflexivity.
Qed.
