(** C07 — the invariant is preserved by UnmarshalText, NewHeader and
    DecodeBinary; none of them panics. *)
From Coq Require Import ZArith List Bool Lia.
From Hts Require Import Base.Prim Model.Header Proofs.HeaderBase Proofs.HeaderInv Proofs.HeaderWorld.
Import ListNotations.
Open Scope Z_scope.

Definition benign {A} (x : outcome A) : Prop := match x with Ok _ | Err _ => True | _ => False end.

Lemma hex_decode_benign : forall k s n acc, (length s <= k)%nat -> (2 * n + length s <= 32)%nat -> benign (hex_decode n s acc).
Proof.
  induction k; intros s n acc L B.
  - destruct s; [exact Logic.I|simpl in L; lia].
  - destruct s as [|p [|q t]]; cbn [hex_decode benign]; try exact Logic.I.
    + destruct (unhex p); exact Logic.I.
    + destruct (unhex p); [|exact Logic.I]. destruct (unhex q); [|exact Logic.I].
      destruct (Nat.leb 16 n) eqn:E. { apply Nat.leb_le in E. simpl in B. lia. }
      apply IHk; simpl in *; lia.
Qed.

Section Parse.
  Variable parse_time : str -> option str.
  Variable parse_uri : str -> option str.

  Lemma sq_fields_benign : forall fs o seen nok lok, benign (sq_fields parse_uri o seen nok lok fs).
  Proof.
    induction fs as [|f l IH]; intros; simpl; [exact Logic.I|].
    destruct (split_field f) as [[t v]|]; [|exact Logic.I].
    destruct (mem_tag t seen); [exact Logic.I|].
    destruct (tag_eqb t tSN); [apply IH|].
    destruct (tag_eqb t tLN). { destruct (atoi v); [|exact Logic.I]. destruct (valid_len z); [apply IH|exact Logic.I]. }
    destruct (tag_eqb t tAS); [apply IH|].
    destruct (tag_eqb t tM5).
    { destruct (32 <? zlen v) eqn:E; [exact Logic.I|]. apply Z.ltb_ge in E. unfold zlen in E.
      assert (B := hex_decode_benign (length v) v 0 [] (le_n _) ltac:(lia)).
      destruct (hex_decode 0 v []); try contradiction; try exact Logic.I.
      destruct (Nat.eqb (length a) 16); [apply IH|exact Logic.I]. }
    destruct (tag_eqb t tSP); [apply IH|].
    destruct (tag_eqb t tUR). { destruct (parse_uri v); [apply IH|exact Logic.I]. }
    apply IH.
  Qed.

  Lemma rg_fields_spec : forall fs names o seen idok,
    (idok = true -> mget (o_name o) names = None) ->
    match rg_fields parse_time names o seen idok fs with
    | Ok (o', idok') => idok' = true -> mget (o_name o') names = None
    | Err _ => True
    | _ => False
    end.
  Proof.
    induction fs as [|f l IH]; intros names o seen idok H; simpl; [exact H|].
    destruct (split_field f) as [[t v]|]; [|exact Logic.I].
    destruct (mem_tag t seen); [exact Logic.I|].
    destruct (tag_eqb t tID). { destruct (mget v names) eqn:M; [exact Logic.I|]. apply IH. intros _. exact M. }
    destruct (tag_eqb t tDT). { destruct (parse_time v); [|exact Logic.I]. apply IH. exact H. }
    destruct (tag_eqb t tPI). { destruct (atoi v); [|exact Logic.I]. destruct (valid_int32 z); [|exact Logic.I]. apply IH. exact H. }
    destruct (rg_plain t); apply IH; exact H.
  Qed.

  Lemma pg_fields_spec : forall fs names o seen idok,
    (idok = true -> mget (o_name o) names = None) ->
    match pg_fields names o seen idok fs with
    | Ok (o', idok') => idok' = true -> mget (o_name o') names = None
    | Err _ => True
    | _ => False
    end.
  Proof.
    induction fs as [|f l IH]; intros names o seen idok H; simpl; [exact H|].
    destruct (split_field f) as [[t v]|]; [|exact Logic.I].
    destruct (mem_tag t seen); [exact Logic.I|].
    destruct (tag_eqb t tID). { destruct (mget v names) eqn:M; [exact Logic.I|]. apply IH. intros _. exact M. }
    destruct (tag_eqb t tPN); [apply IH; exact H|].
    destruct (tag_eqb t tCL); [apply IH; exact H|].
    destruct (tag_eqb t tPP); [apply IH; exact H|].
    destruct (tag_eqb t tVN); apply IH; exact H.
  Qed.

  Lemma hd_fields_tbls : forall fs hd, let hd' := fst (hd_fields hd fs) in
    h_R hd' = h_R hd /\ h_G hd' = h_G hd /\ h_P hd' = h_P hd.
  Proof.
    induction fs as [|f l IH]; intros hd; simpl; [auto|].
    destruct (split_field f) as [[t v]|]; simpl; [|auto].
    destruct (tag_eqb t tVN). { destruct (negb (is_empty (h_vn hd))); simpl; [auto|]. apply (IH (set_hd hd v (h_so hd) (h_go hd) (h_other hd))). }
    destruct (tag_eqb t tSO). { destruct (negb (h_so hd =? 0)); simpl; [auto|]. apply (IH (set_hd hd (h_vn hd) (so_parse v) (h_go hd) (h_other hd))). }
    destruct (tag_eqb t tGO). { destruct (negb (h_go hd =? 0)); simpl; [auto|]. apply (IH (set_hd hd (h_vn hd) (h_so hd) (go_parse v) (h_other hd))). }
    apply (IH (set_hd hd (h_vn hd) (h_so hd) (h_go hd) (h_other hd ++ [(t, v)]))).
  Qed.

  (** the tail of readGroupLine / programLine, given the result of the field loop *)
  Lemma item_line_good : forall {P} (k : lens P), LensInv k -> forall w h hd (x : outcome (obj P * bool)),
    WInv w -> nth_error (w_h w) h = Some hd ->
    match x with Ok (o, idok) => idok = true -> mget (o_name o) (t_seen (l_t k hd)) = None | Err _ => True | _ => False end ->
    Good w match x with
           | Ok (g, idok) =>
             if negb idok then Ok (w, eBadHeader)
             else let '(st', t') := install_new h (l_st k w) (l_t k hd) g in Ok (put_hdr (l_setst k w st') h (l_sett k hd t'), 0)
           | Err e => Ok (w, e) | Panic n => Panic n | Stuck => Stuck
           end.
  Proof.
    intros P k LI w h hd x I Hh S. destruct x as [[g idok]|e| |]; try contradiction; [|apply Good_same; exact I].
    destruct idok; cbn [negb]; [|apply Good_same; exact I]. apply install_new_good; auto.
  Qed.

  Lemma reference_line_good : forall w h l, WInv w -> (h < length (w_h w))%nat -> Good w (reference_line parse_uri w h l).
  Proof.
    intros w h l I Lh. unfold reference_line. destruct (nth_error_lt _ _ Lh) as (hd & Hh). rewrite Hh.
    destruct (split TAB l) as [|f0 [|f1 [|f2 fs]]]; try (apply Good_same; exact I).
    assert (B := sq_fields_benign (f1 :: f2 :: fs) (mkObj None 0 [] (mkRef 0 [] [] [] None [])) [] false false).
    destruct (sq_fields parse_uri _ _ _ _ _) as [[[rf nok] lok]|e| |]; try contradiction; [|apply Good_same; exact I].
    destruct (negb nok || negb lok); [apply Good_same; exact I|].
    assert (KR : KInv (map h_R (w_h w)) (w_r w)) by apply I.
    assert (Ht : nth_error (map h_R (w_h w)) h = Some (h_R hd)) by exact (lens_tbl kR w h hd Hh).
    destruct (mget (o_name rf) (t_seen (h_R hd))) as [dupID|] eqn:M.
    - apply (ti_seen _ _ _ (proj1 KR _ _ Ht)) in M. destruct M as (d & erh & er & Hd & Her & Hn & Hv). subst dupID.
      rewrite idx_of_nat, Hd, Her.
      destruct (equal_refs er (with_ident rf None (Z.of_nat d))); [apply Good_same; exact I|].
      destruct (negb (equal_refs er _)); [apply Good_same; exact I|].
      unfold install_over. rewrite Nat2Z.id.
      apply (lput_good kR invR); auto; [|simpl; rewrite !upd_length, app_length; lia].
      refine (KInv_install_over _ (w_r w ++ [with_ident rf None (Z.of_nat d)]) h (h_R hd) d (length (w_r w))
                (with_ident rf None (Z.of_nat d)) erh er (with_ident rf None (Z.of_nat d)) _ Ht _ eq_refl Hd _ _).
      + apply KInv_alloc; auto.
      + apply nth_error_app_last.
      + rewrite nth_error_app1; [exact Her|eapply nth_error_valid; eauto].
      + simpl. congruence.
    - destruct (add_fresh eUsedRef h (w_r w ++ [with_ident rf None (-1)]) (h_R hd) (length (w_r w)) (with_ident rf None (-1))) as [[st1 t1] e] eqn:A.
      apply (lput_good kR invR); auto.
      + eapply KInv_add_fresh; [exact (KInv_alloc _ _ (with_ident rf None (-1)) KR eq_refl) | exact Ht | apply nth_error_app_last | exact M | exact A].
      + apply add_fresh_length in A. simpl. rewrite A, app_length. lia.
  Qed.

  Lemma read_group_line_good : forall w h l, WInv w -> (h < length (w_h w))%nat -> Good w (read_group_line parse_time w h l).
  Proof.
    intros w h l I Lh. unfold read_group_line. destruct (nth_error_lt _ _ Lh) as (hd & Hh). rewrite Hh.
    destruct (split TAB l) as [|f0 [|f1 fs]]; try (apply Good_same; exact I).
    apply (item_line_good kG invG); auto. apply rg_fields_spec. discriminate.
  Qed.

  Lemma program_line_good : forall w h l, WInv w -> (h < length (w_h w))%nat -> Good w (program_line w h l).
  Proof.
    intros w h l I Lh. unfold program_line. destruct (nth_error_lt _ _ Lh) as (hd & Hh). rewrite Hh.
    destruct (split TAB l) as [|f0 [|f1 fs]]; try (apply Good_same; exact I).
    apply (item_line_good kP invP); auto. apply pg_fields_spec. discriminate.
  Qed.

  Lemma text_line_good : forall w h l, WInv w -> (h < length (w_h w))%nat -> Good w (text_line parse_time parse_uri w h l).
  Proof.
    intros w h l I Lh. unfold text_line. destruct (nth_error_lt _ _ Lh) as (hd & Hh).
    assert (PS : forall hd' e, h_R hd' = h_R hd -> h_G hd' = h_G hd -> h_P hd' = h_P hd -> Good w (Ok (put_hdr w h hd', e)))
      by (intros; apply Good_intro; [eapply WInv_put_same; eauto|apply Ext_put]).
    destruct (strip_cr l) as [|c0 [|c1 [|c2 rest]]]; try (apply Good_same; exact I).
    destruct (negb (c0 =? AT)); [apply Good_same; exact I|].
    destruct (tag_eqb (c1, c2) tHD).
    { rewrite Hh. unfold header_line. destruct (split TAB _) as [|f0 [|f1 fs]]; try (apply PS; reflexivity).
      destruct (hd_fields_tbls (f1 :: fs) hd) as (T1 & T2 & T3). destruct (hd_fields hd (f1 :: fs)) as [hd' e].
      destruct (e =? 0); apply PS; auto. }
    destruct (tag_eqb (c1, c2) tSQ); [apply reference_line_good; auto|].
    destruct (tag_eqb (c1, c2) tRG); [apply read_group_line_good; auto|].
    destruct (tag_eqb (c1, c2) tPG); [apply program_line_good; auto|].
    destruct (tag_eqb (c1, c2) tCO); [|apply Good_same; exact I].
    unfold comment_line. rewrite Hh. destruct (split2 TAB _) as [|a [|b [|c d]]]; try (apply Good_same; exact I).
    apply PS; reflexivity.
  Qed.

  Lemma text_lines_good : forall ls w h, WInv w -> (h < length (w_h w))%nat -> Good w (text_lines parse_time parse_uri w h ls).
  Proof.
    induction ls as [|l ls IH]; intros w h I Lh; simpl; [apply Good_same; exact I|].
    destruct (text_line_good w h l I Lh) as (w' & e & R & I' & X). rewrite R.
    destruct (e =? 0); [|apply Good_intro; assumption].
    apply (Good_ext w w'); [exact X|]. apply IH; [exact I'|destruct X; lia].
  Qed.

  Lemma unmarshal_text_good : forall w h t, WInv w -> (h < length (w_h w))%nat -> Good w (unmarshal_text parse_time parse_uri w h t).
  Proof. intros. apply text_lines_good; assumption. Qed.

  Lemma nh_validate_ok : forall rs (st : list (obj refpay)) seen i, (forall r, In r rs -> (r < length st)%nat) ->
    exists seenF e, nh_validate st seen i rs = Ok (seenF, e).
  Proof.
    induction rs as [|r l IH]; intros st seen i V; simpl; eauto.
    destruct (nth_error_lt st r (V r (or_introl eq_refl))) as (o & ->).
    destruct (owned o || (0 <=? o_id o)); eauto. destruct (mget (o_name o) seen); eauto.
    apply IH. intros; apply V; right; assumption.
  Qed.

  Lemma nh_validate_fresh : forall rs (st : list (obj refpay)) seen i seenF, nh_validate st seen i rs = Ok (seenF, 0) ->
    forall r o, In r rs -> nth_error st r = Some o -> mget (o_name o) seen = None.
  Proof.
    induction rs as [|r0 l IH]; intros st seen i seenF H r o Hin Ho; simpl in H; [destruct Hin|].
    destruct (nth_error st r0) as [o0|] eqn:H0; [|discriminate].
    destruct (owned o0 || (0 <=? o_id o0)); [discriminate|]. destruct (mget (o_name o0) seen) eqn:M; [discriminate|].
    destruct Hin as [<-|Hin]; [congruence|]. assert (M' := IH _ _ _ _ H r o Hin Ho).
    destruct (str_eq_dec (o_name o) (o_name o0)) as [E|NE]; [rewrite E, mget_mset_eq in M'; discriminate|].
    rewrite mget_mset_ne in M'; assumption.
  Qed.

  (** validate-then-claim is AddReference of each reference in turn to the new, still empty, header *)
  Lemma nh_claim_K : forall rs tbls (st0 st : list (obj refpay)) items seen seenF,
    nh_validate st0 seen (zlen items) rs = Ok (seenF, 0) ->
    (forall r, In r rs -> nth_error st r = nth_error st0 r) ->
    KInv (tbls ++ [mkTbl items seen]) st ->
    KInv (tbls ++ [mkTbl (items ++ rs) seenF]) (nh_claim (length tbls) st (zlen items) rs) /\
    length (nh_claim (length tbls) st (zlen items) rs) = length st.
  Proof.
    induction rs as [|r l IH]; intros tbls st0 st items seen seenF H AG K.
    - simpl in *. inversion H; subst. rewrite app_nil_r. auto.
    - cbn [nh_claim nh_validate] in *. rewrite (AG r (or_introl eq_refl)).
      destruct (nth_error st0 r) as [o|] eqn:Ho; [|discriminate].
      destruct (owned o || (0 <=? o_id o)) eqn:G; [discriminate|]. destruct (mget (o_name o) seen) eqn:M; [discriminate|].
      replace (zlen items + 1) with (zlen (items ++ [r])) in * by (unfold zlen; rewrite app_length; simpl; lia).
      replace (items ++ r :: l) with ((items ++ [r]) ++ l) by (rewrite <- app_assoc; reflexivity).
      destruct (IH tbls st0 (upd st r (with_ident o (Some (length tbls)) (zlen items))) (items ++ [r]) _ _ H) as (K' & L').
      + intros r' Hin. rewrite <- AG by (right; exact Hin). apply nth_error_upd_ne. intro; subst r'.
        assert (M2 := nh_validate_fresh _ _ _ _ _ H r o Hin Ho). rewrite mget_mset_eq in M2. discriminate.
      + rewrite <- (upd_app_last tbls (mkTbl items seen)).
        eapply (KInv_add_fresh 0); [exact K|apply nth_error_app_last|rewrite AG by (left; reflexivity); exact Ho|exact M|].
        unfold add_fresh. rewrite G. reflexivity.
      + rewrite upd_length in L'. auto.
  Qed.

  Lemma new_header_good : forall w text rs, WInv w -> (forall r, In r rs -> (r < length (w_r w))%nat) ->
    exists w' e, new_header parse_time parse_uri w text rs = Ok (w', e) /\ WInv w' /\ Ext w w' /\
                 (e = 0 -> (length (w_h w) < length (w_h w'))%nat).
  Proof.
    intros w text rs I V. unfold new_header.
    destruct (nh_validate_ok rs (w_r w) [] 0 V) as (seenF & e & R). rewrite R.
    destruct (e =? 0) eqn:E0; simpl.
    2:{ eexists _, _. split; [reflexivity|]. split; [assumption|]. split; [apply Ext_refl|]. intro; subst; discriminate. }
    apply Z.eqb_eq in E0. subst e. destruct I as (KR & KG & KP).
    destruct (nh_claim_K rs (map h_R (w_h w)) (w_r w) (w_r w) [] [] seenF R (fun _ _ => eq_refl) (KInv_empty_tbl _ _ KR)) as (KR' & LR).
    rewrite map_length in *. change (zlen []) with 0 in *. simpl in KR'.
    set (w1 := mkW _ _ _ _).
    assert (I1 : WInv w1) by (unfold WInv, w1; simpl; rewrite !map_app; simpl; auto using KInv_empty_tbl).
    assert (L1 : (length (w_h w) < length (w_h w1))%nat) by (unfold w1; simpl; rewrite app_length; simpl; lia).
    assert (X1 : Ext w w1) by (unfold Ext, w1; simpl; rewrite app_length; lia).
    destruct text as [t|].
    - destruct (unmarshal_text_good w1 (length (w_h w)) t I1 L1) as (w' & e' & R' & I' & X').
      eexists _, _. split; [exact R'|]. split; auto. split; [eapply Ext_trans; eauto|]. intros _. destruct X'; lia.
    - eexists _, _. split; [reflexivity|]. auto.
  Qed.

  Lemma rd32_shorter : forall s x s', rd32 s = Some (x, s') -> (length s' < length s)%nat.
  Proof. intros s x s' H. unfold rd32 in H. destruct s as [|a [|b [|c [|d t]]]]; inversion H; subst. simpl. lia. Qed.
  Lemma rd_n_shorter : forall n s a s', rd_n n s = Some (a, s') -> (length s' <= length s)%nat.
  Proof.
    intros n s a s' H. unfold rd_n in H. destruct s; [discriminate|]. destruct (_ <? _); inversion H; subst.
    rewrite skipn_length. lia.
  Qed.

  Lemma read_ref_records_spec : forall fuel i n s acc,
    (length s < fuel)%nat -> (forall o, In o acc -> o_owner o = None) ->
    match read_ref_records fuel i n s acc with
    | Ok rs => forall o, In o rs -> o_owner o = None
    | Err _ => True
    | _ => False
    end.
  Proof.
    induction fuel; intros i n s acc L A; [lia|]. simpl.
    destruct (n <=? i). { intros o Ho. apply in_rev in Ho. auto. }
    destruct (rd32 s) as [[lname s1]|] eqn:R1; [|exact Logic.I]. apply rd32_shorter in R1.
    destruct (lname <? 1); [exact Logic.I|].
    destruct (rd_n lname s1) as [[nm s2]|] eqn:RN; [|exact Logic.I]. apply rd_n_shorter in RN.
    destruct (negb (last nm 1 =? 0)); [exact Logic.I|].
    destruct (rd32 s2) as [[lref s3]|] eqn:R2; [|exact Logic.I]. apply rd32_shorter in R2.
    apply IHfuel; [lia|]. intros o [E|Ho]; [subst; reflexivity|auto].
  Qed.

  Lemma add_all_good : forall rs w h, WInv w -> (h < length (w_h w))%nat -> (forall o, In o rs -> o_owner o = None) ->
    Good w (add_all w h rs).
  Proof.
    induction rs as [|o l IH]; intros w h I Lh U; simpl.
    - apply Good_same; exact I.
    - destruct (alloc_good kR invR w o I (U o (or_introl eq_refl))) as (I1 & X1).
      destruct (add_reference_good (set_r w (w_r w ++ [o])) h (length (w_r w)) I1) as (w' & e & R & I' & X'); simpl; auto.
      { rewrite app_length; simpl; lia. }
      rewrite R. apply (Good_ext w _ _ X1). destruct (e =? 0); [|apply Good_intro; assumption].
      apply (Good_ext _ w' _ X'). apply IH; [exact I'|destruct X' as (X' & _); simpl in X'; lia|intros; apply U; right; assumption].
  Qed.

  Lemma decode_binary_good : forall w b, WInv w -> Good (set_h w (w_h w ++ [hdr0])) (decode_binary parse_time parse_uri w b).
  Proof.
    intros w b I. unfold decode_binary. set (w0 := set_h w (w_h w ++ [hdr0])).
    assert (I0 : WInv w0).
    { destruct I as (KR & KG & KP). unfold WInv, w0; simpl. rewrite !map_app; simpl. split; [|split]; apply KInv_empty_tbl; assumption. }
    assert (L0 : (length (w_h w) < length (w_h w0))%nat) by (unfold w0; simpl; rewrite app_length; simpl; lia).
    destruct (rd_n 4 b) as [[m s0]|]; [|apply Good_same; exact I0].
    destruct (negb (str_eqb m bam_magic)); [apply Good_same; exact I0|].
    destruct (rd32 s0) as [[ltext s1]|]; [|apply Good_same; exact I0].
    destruct (ltext <? 0); [apply Good_same; exact I0|].
    destruct (rd_n ltext s1) as [[text s2]|]; [|apply Good_same; exact I0].
    destruct (unmarshal_text_good w0 (length (w_h w)) text I0 L0) as (w1 & e & R & I1 & X1). rewrite R. apply (Good_ext w0 w1 _ X1).
    destruct (negb (e =? 0)); [apply Good_same; exact I1|].
    destruct (rd32 s2) as [[nref s3]|]; [|apply Good_same; exact I1].
    destruct (nref <? 0); [apply Good_same; exact I1|].
    assert (RR := read_ref_records_spec (S (length s3)) 0 nref s3 [] ltac:(lia) ltac:(intros o H; destruct H)).
    destruct (read_ref_records _ _ _ _ _) as [rs|e'| |]; try contradiction; [|apply Good_same; exact I1].
    apply add_all_good; [exact I1|destruct X1; lia|exact RR].
  Qed.
End Parse.
