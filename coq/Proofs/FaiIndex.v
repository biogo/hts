(** C19: NewIndex on the rendering of a well-formed FASTA structure builds
    the true faidx entry of every record. *)
From Coq Require Import ZArith Lia List Bool.
From Hts Require Import Base.Prim Base.WrList Generated Model.Fai Proofs.FaiBase.
Open Scope Z_scope.

(** The blank-line arm of the current source advances the offset.  (When
    the source stops doing so this lemma, and with it fai_index_correct, no
    longer checks.) *)
Lemma blank_adv : fai_NewIndex_blank_advances = true.
Proof. reflexivity. Qed.

Ltac bprop :=
  repeat match goal with
  | H : _ && _ = true |- _ => apply andb_true_iff in H; destruct H
  | H : negb _ = true |- _ => apply negb_true_iff in H
  | H : (_ <=? _) = true |- _ => apply Z.leb_le in H
  | H : (_ <? _) = true |- _ => apply Z.ltb_lt in H
  | H : (_ =? _) = false |- _ => apply Z.eqb_neq in H
  | H : (_ =? _) = true |- _ => apply Z.eqb_eq in H
  end.

(** names and bases are visible ASCII: no white space, no separator, no LF *)
Lemma visible c : 33 <= c ->
  negb (isspace c) = true /\ negb ((c =? 32) || (c =? 9)) = true /\ negb (c =? 10) = true.
Proof. intros H. unfold isspace. rewrite !(proj2 (Z.eqb_neq c _)) by lia. auto. Qed.

Lemma visible_all (P : Z -> bool) l : (forall c, P c = true -> 33 <= c) -> forallb P l = true ->
  forallb (fun c => negb (isspace c)) l = true /\ forallb (fun c => negb ((c =? 32) || (c =? 9))) l = true
  /\ forallb (fun c => negb (c =? 10)) l = true.
Proof. intros LO H. repeat split; (eapply forallb_impl; [|exact H]); intros c Hc; apply visible, LO, Hc. Qed.

Lemma basech_lo c : basech c = true -> 33 <= c.
Proof. unfold basech. intros H. bprop. assumption. Qed.
Lemma namech_lo c : namech c = true -> 33 <= c.
Proof. unfold namech. intros H. bprop. assumption. Qed.
Lemma basech_nogt c : basech c = true -> c <> 62.
Proof. unfold basech. intros H. bprop. assumption. Qed.

Lemma descch_nolf c : descch c = true -> negb (c =? 10) = true.
Proof. intros H. apply andb_true_iff in H. apply H. Qed.

Lemma desc_nolf d : desc_ok d = true -> forallb (fun x => negb (x =? 10)) d = true.
Proof.
  destruct d as [|c t]; [reflexivity|]. simpl. intros H. bprop.
  apply andb_true_iff. split.
  - apply negb_true_iff, Z.eqb_neq. apply orb_true_iff in H as [H|H]; bprop; lia.
  - eapply forallb_impl; [apply descch_nolf|assumption].
Qed.

Lemma term_zlen_pos crlf : 1 <= zlen (term crlf).
Proof. destruct crlf; unfold zlen; simpl; lia. Qed.

Lemma ni_fold_app adv s a b :
  ni_fold adv s (a ++ b) = obind (ni_fold adv s a) (fun s' => ni_fold adv s' b).
Proof.
  revert s. induction a as [|l a IH]; intros s; simpl; [reflexivity|].
  destruct (ni_step adv s l); simpl; auto.
Qed.

Definition cur_ok (cur : frec) : Prop := cur = rec0 \/ r_name cur <> [].

Lemma step_blank idx cur off want b :
  ni_step true (mkSt idx cur off want) (term b) = Ok (mkSt idx cur (off + zlen (term b)) want).
Proof. unfold ni_step. rewrite trim_term. reflexivity. Qed.

Lemma fold_blanks bl : forall idx cur off want,
  ni_fold true (mkSt idx cur off want) (map term bl) = Ok (mkSt idx cur (off + zlen (blanks bl)) want).
Proof.
  induction bl as [|b bl IH]; intros idx cur off want; cbn [map ni_fold].
  - unfold blanks. cbn [map concat]. rewrite zlen_nil, Z.add_0_r. reflexivity.
  - rewrite step_blank. simpl obind. rewrite IH. unfold blanks. simpl concat.
    rewrite zlen_app'. rewrite Z.add_assoc. reflexivity.
Qed.

Lemma header_trim name desc sp :
  forallb namech name = true -> desc_ok desc = true -> forallb isspace sp = true ->
  exists b', trim (62 :: name ++ desc ++ sp) = 62 :: name ++ b' /\
             (b' = [] \/ exists c t, b' = c :: t /\ ((c =? 32) || (c =? 9)) = true).
Proof.
  intros Hn Hd Hsp. exists (trim_right (desc ++ sp)). split.
  - unfold trim. rewrite trim_left_ns by reflexivity.
    change (62 :: name ++ desc ++ sp) with ((62 :: name) ++ (desc ++ sp)).
    rewrite trim_right_ns; [reflexivity|].
    simpl. apply (visible_all _ _ namech_lo Hn).
  - destruct desc as [|c text].
    + left. apply trim_right_spaces. assumption.
    + simpl in Hd. apply andb_true_iff in Hd as [Hc _].
      destruct (trim_right_head ((c :: text) ++ sp)) as [E|[t E]]; [left; exact E|].
      right. exists c, t. split; [exact E|exact Hc].
Qed.

(** A header line, terminated ([sp] = terminator) or not ([sp] = []). *)
Lemma step_header idx cur off want name desc sp :
  name <> [] -> forallb namech name = true -> desc_ok desc = true -> forallb isspace sp = true ->
  cur_ok cur ->
  has_name name (ni_finish (mkSt idx cur off want)) = false ->
  let line := 62 :: name ++ desc ++ sp in
  ni_step true (mkSt idx cur off want) line =
  Ok (mkSt (ni_finish (mkSt idx cur off want)) (mkRec name 0 (off + zlen line) 0 0) (off + zlen line) false).
Proof.
  intros Hne Hn Hd Hsp Hcur Hfresh line. subst line.
  destruct (header_trim name desc sp Hn Hd Hsp) as (b' & Htrim & Hb').
  unfold ni_step. rewrite Htrim. cbv beta iota zeta.
  destruct name as [|c name']; [congruence|].
  change (is_nil (62 :: (c :: name') ++ b')) with false.
  change (bytes_eqb (62 :: (c :: name') ++ b') [62]) with false.
  change (hd 0 (62 :: (c :: name') ++ b') =? 62) with true.
  cbv beta iota.
  change (tl (62 :: (c :: name') ++ b')) with ((c :: name') ++ b').
  rewrite until_sep_name; [|apply (visible_all _ _ namech_lo Hn)|assumption].
  unfold ni_finish in *. simpl n_idx in *. simpl n_cur in *.
  destruct Hcur as [->|Hcn].
  - simpl in *. rewrite Hfresh. reflexivity.
  - apply is_nil_false in Hcn. rewrite Hcn in *. rewrite Hfresh. reflexivity.
Qed.

Lemma seq_line_trim l sp :
  l <> [] -> forallb basech l = true -> forallb isspace sp = true ->
  trim (l ++ sp) = l /\ is_nil l = false /\ bytes_eqb l [62] = false /\ (hd 0 l =? 62) = false.
Proof.
  intros Hne Hl Hsp. split; [apply trim_visible; auto; apply (visible_all _ _ basech_lo Hl)|].
  destruct l as [|c l']; [congruence|]. simpl in Hl. apply andb_true_iff in Hl as [Hc _].
  apply basech_nogt, Z.eqb_neq in Hc. simpl. rewrite Hc. auto.
Qed.

(** A sequence line of at most [w] bases whose terminator has at most [t]
    bytes, met while the layout of the record is still unset or already
    (w, w+t): a line shorter than the layout raises the want flag. *)
Lemma step_seq idx name L start ba by_ off l sp w t :
  l <> [] -> forallb basech l = true -> forallb isspace sp = true ->
  zlen l <= w -> zlen sp <= t ->
  (ba = 0 /\ by_ = 0 \/ ba = w /\ by_ = w + t) ->
  ni_step true (mkSt idx (mkRec name L start ba by_) off false) (l ++ sp) =
  Ok (mkSt idx (mkRec name (L + zlen l) start (if ba =? 0 then zlen l else ba) (if ba =? 0 then zlen l + zlen sp else by_))
           (off + zlen (l ++ sp)) ((zlen l <? ba) || (zlen (l ++ sp) <? by_))).
Proof.
  intros Hne Hl Hsp Hw Ht Hlay.
  destruct (seq_line_trim l sp Hne Hl Hsp) as (Htr & Hn & Hb & Hh).
  assert (Hmpos : 1 <= zlen l). { destruct l; [congruence|]. rewrite zlen_cons. pose proof (zlen_nonneg l). lia. }
  pose proof (zlen_nonneg sp) as Hsp0.
  unfold ni_step. rewrite Htr. cbv beta iota zeta. rewrite Hn, Hb, Hh. cbv beta iota.
  rewrite zlen_app'. cbn [r_bytes r_bases r_len r_name r_start].
  rewrite (proj2 (Z.eqb_neq (zlen l) 0)) by lia.
  destruct Hlay as [[-> ->]|[-> ->]].
  - cbn. rewrite !(proj2 (Z.ltb_ge _ 0)) by lia. reflexivity.
  - rewrite (proj2 (Z.eqb_neq (w + t) 0)), (proj2 (Z.eqb_neq w 0)) by lia.
    rewrite (proj2 (Z.ltb_ge (w + t) _)), (proj2 (Z.ltb_ge w _)) by lia.
    destruct (zlen l + zlen sp <? w + t), (zlen l <? w); reflexivity.
Qed.

Lemma fold_full full : forall idx name L start ba by_ off crlf w,
  forallb (fun l => (zlen l =? w) && forallb basech l) full = true -> 1 <= w ->
  (ba = 0 /\ by_ = 0 \/ ba = w /\ by_ = w + zlen (term crlf)) ->
  ni_fold true (mkSt idx (mkRec name L start ba by_) off false) (map (fun l => l ++ term crlf) full) =
  Ok (mkSt idx (mkRec name (L + zlen (concat full)) start
                      (match full with [] => ba | _ => w end)
                      (match full with [] => by_ | _ => w + zlen (term crlf) end))
           (off + zlen (concat (map (fun l => l ++ term crlf) full))) false).
Proof.
  induction full as [|l full IH]; intros idx name L start ba by_ off crlf w Hf Hw Hlay.
  - cbn [map ni_fold concat]. rewrite zlen_nil, !Z.add_0_r. reflexivity.
  - simpl in Hf. apply andb_true_iff in Hf as [Hl Hf]. apply andb_true_iff in Hl as [Hlw Hlb].
    apply Z.eqb_eq in Hlw. subst w.
    assert (Hne : l <> []) by (intros ->; rewrite zlen_nil in Hw; lia).
    cbn [map ni_fold concat].
    rewrite (step_seq idx name L start ba by_ off l (term crlf) (zlen l) (zlen (term crlf))); auto using term_spaces; try lia.
    pose proof (zlen_nonneg (l ++ term crlf)).
    destruct Hlay as [[-> ->]|[-> ->]].
    + cbn [Z.eqb]. rewrite !(proj2 (Z.ltb_ge _ 0)) by lia. cbn [orb obind].
      rewrite (IH _ _ _ _ _ _ _ _ (zlen l)), !zlen_app' by auto. destruct full; rewrite !Z.add_assoc; reflexivity.
    + rewrite (proj2 (Z.eqb_neq (zlen l) 0)), zlen_app', !Z.ltb_irrefl by lia. cbn [orb obind].
      rewrite (IH _ _ _ _ _ _ _ _ (zlen l)), !zlen_app' by auto. destruct full; rewrite !Z.add_assoc; reflexivity.
Qed.

Definition rec_lines (nl : bool) (r : srec) : list (list Z) :=
  if is_empty r then
    ((62 :: s_name r ++ s_desc r) ++ (if nl then term (s_crlf r) else [])) :: map term (s_blanks r)
  else
  render_header r :: map (fun l => l ++ term (s_crlf r)) (s_full r)
  ++ [s_last r ++ (if nl then term (s_crlf r) else [])] ++ map term (s_blanks r).

Fixpoint all_lines (fin : bool) (rs : list srec) : list (list Z) :=
  match rs with
  | [] => []
  | r :: t => match t with [] => rec_lines fin r | _ => rec_lines true r ++ all_lines fin t end
  end.

Lemma wf_rec_head nl r : wf_rec nl r = true ->
  s_name r <> [] /\ forallb namech (s_name r) = true /\ desc_ok (s_desc r) = true /\
  (nl = true \/ s_blanks r = []).
Proof.
  unfold wf_rec. intros H. bprop.
  repeat split; try assumption.
  - apply is_nil_false. assumption.
  - match goal with H : nl || _ = true |- _ => apply orb_true_iff in H as [H|H] end;
      [left; assumption|right; apply is_nil_true; assumption].
Qed.

Lemma wf_rec_parts nl r : wf_rec nl r = true -> is_empty r = false ->
  s_name r <> [] /\ forallb namech (s_name r) = true /\ desc_ok (s_desc r) = true /\
  forallb (fun l => (zlen l =? width r) && forallb basech l) (s_full r) = true /\
  1 <= zlen (s_last r) <= width r /\ forallb basech (s_last r) = true /\
  (nl = true \/ s_blanks r = []).
Proof.
  intros Hwf He. destruct (wf_rec_head _ _ Hwf) as (H1 & H2 & H3 & H4).
  unfold wf_rec in Hwf. rewrite He in Hwf. cbn [orb] in Hwf. unfold wf_body in Hwf. bprop.
  repeat split; assumption.
Qed.

Lemma full_widths w (full : list (list Z)) :
  forallb (fun l => (zlen l =? w) && forallb basech l) full = true -> Forall (fun l => zlen l = w) full.
Proof.
  induction full as [|l full IH]; simpl; intros H; constructor.
  - apply andb_true_iff in H as [H _]. apply andb_true_iff in H as [H _]. apply Z.eqb_eq. assumption.
  - apply IH. apply andb_true_iff in H as [_ H]. assumption.
Qed.

Lemma zlen_concat_full w (full : list (list Z)) : Forall (fun l => zlen l = w) full -> zlen (concat full) = zlen full * w.
Proof.
  induction 1 as [|l full Hl _ IH]; [reflexivity|].
  cbn [concat]. rewrite zlen_app', zlen_cons, IH, Hl. lia.
Qed.

Lemma zlen_concat_term w (full : list (list Z)) crlf : Forall (fun l => zlen l = w) full ->
  zlen (concat (map (fun l => l ++ term crlf) full)) = zlen full * (w + zlen (term crlf)).
Proof.
  induction 1 as [|l full Hl _ IH]; [reflexivity|].
  cbn [map concat]. rewrite !zlen_app', zlen_cons, IH, Hl. lia.
Qed.

Lemma lines_full full crlf rest :
  forallb (fun l => forallb basech l) full = true ->
  lines (concat (map (fun l => l ++ term crlf) full) ++ rest) = map (fun l => l ++ term crlf) full ++ lines rest.
Proof.
  induction full as [|l full IH]; intros H; [reflexivity|].
  simpl in H. apply andb_true_iff in H as [Hl Hf].
  cbn [map concat]. rewrite <- !app_assoc. rewrite lines_term.
  - rewrite IH by assumption. reflexivity.
  - apply (visible_all _ _ basech_lo Hl).
Qed.

Lemma header_nolf r : forallb namech (s_name r) = true -> desc_ok (s_desc r) = true ->
  forallb (fun x => negb (x =? 10)) (62 :: s_name r ++ s_desc r) = true.
Proof.
  intros Hn Hd. simpl. rewrite forallb_app. apply andb_true_iff. split.
  - apply (visible_all _ _ namech_lo Hn).
  - apply desc_nolf. assumption.
Qed.

Lemma full_basech w full :
  forallb (fun l => (zlen l =? w) && forallb basech l) full = true ->
  forallb (fun l => forallb basech l) full = true.
Proof. apply forallb_impl. intros l H. apply andb_true_iff in H as [_ H]. exact H. Qed.

Lemma header_split r : render_header r = (62 :: s_name r ++ s_desc r) ++ term (s_crlf r).
Proof. unfold render_header. cbn [app]. rewrite app_assoc. reflexivity. Qed.

Lemma render_recs_cons fin r t :
  render_recs fin (r :: t) = render_rec (match t with [] => fin | _ => true end) r ++ render_recs fin t.
Proof. destruct t; cbn [render_recs]; [rewrite app_nil_r|]; reflexivity. Qed.

Lemma entries_cons fin off r t :
  entries fin off (r :: t) =
  entry (match t with [] => fin | _ => true end) off r :: entries fin (off + zlen (render_rec true r)) t.
Proof. destruct t; reflexivity. Qed.

Lemma all_lines_cons fin r t :
  all_lines fin (r :: t) = rec_lines (match t with [] => fin | _ => true end) r ++ all_lines fin t.
Proof. destruct t; cbn [all_lines]; [rewrite app_nil_r|]; reflexivity. Qed.

Lemma wf_recs_cons fin r t :
  wf_recs fin (r :: t) = wf_rec (match t with [] => fin | _ => true end) r && wf_recs fin t.
Proof. destruct t; cbn [wf_recs]; [rewrite andb_true_r|]; reflexivity. Qed.

Lemma lines_rec nl r rest : wf_rec nl r = true -> (nl = true \/ rest = []) ->
  lines (render_rec nl r ++ rest) = rec_lines nl r ++ lines rest.
Proof.
  intros Hwf Hend. unfold render_rec, rec_lines.
  assert (Hlast : nl = true \/ blanks (s_blanks r) ++ rest = []).
  { destruct (wf_rec_head _ _ Hwf) as (_ & _ & _ & [->| ->]); [left; reflexivity|exact Hend]. }
  destruct (is_empty r) eqn:He.
  - destruct (wf_rec_head _ _ Hwf) as (Hne & Hn & Hd & _).
    rewrite <- !app_assoc, lines_end, lines_blanks; auto using header_nolf. discriminate.
  - destruct (wf_rec_parts _ _ Hwf He) as (Hne & Hn & Hd & Hf & Hl & Hlb & _).
    unfold render_body. rewrite header_split, <- !app_assoc.
    rewrite lines_term by (apply header_nolf; assumption).
    rewrite lines_full by (eapply full_basech; eassumption).
    rewrite lines_end, lines_blanks; auto.
    + cbn [app]. rewrite <- !app_assoc. reflexivity.
    + intros E. rewrite E, zlen_nil in Hl. lia.
    + apply (visible_all _ _ basech_lo Hlb).
Qed.

Lemma lines_render_recs fin rs : wf_recs fin rs = true -> lines (render_recs fin rs) = all_lines fin rs.
Proof.
  induction rs as [|r t IH]; intros H; [reflexivity|].
  rewrite wf_recs_cons in H. apply andb_true_iff in H as [H1 H2].
  rewrite render_recs_cons, all_lines_cons, lines_rec, IH; auto.
  destruct t; [right|left]; reflexivity.
Qed.

Lemma zlen_concat_bases r : zlen (bases r) = zlen (concat (s_full r)) + zlen (s_last r).
Proof. unfold bases. apply zlen_app'. Qed.

Lemma fold_rec nl r idx cur off want :
  wf_rec nl r = true -> cur_ok cur ->
  has_name (s_name r) (ni_finish (mkSt idx cur off want)) = false ->
  exists want',
    ni_fold true (mkSt idx cur off want) (rec_lines nl r) =
    Ok (mkSt (ni_finish (mkSt idx cur off want)) (entry nl off r) (off + zlen (render_rec nl r)) want').
Proof.
  intros Hwf Hcur Hfresh.
  destruct (is_empty r) eqn:He.
  { destruct (wf_rec_head _ _ Hwf) as (Hne & Hn & Hd & _).
    unfold rec_lines, entry, render_rec. rewrite He. cbn [ni_fold].
    set (sp := if nl then term (s_crlf r) else []).
    assert (Hsp : forallb isspace sp = true) by (subst sp; destruct nl; [apply term_spaces|reflexivity]).
    rewrite <- app_comm_cons, <- app_assoc.
    rewrite (step_header idx cur off want (s_name r) (s_desc r) sp Hne Hn Hd Hsp Hcur Hfresh).
    cbn [obind]. rewrite fold_blanks. exists false. f_equal. f_equal.
    - f_equal. rewrite app_comm_cons, app_assoc, zlen_app'. subst sp. unfold tlen.
      cbn [app]. destruct nl; [|rewrite zlen_nil]; lia.
    - rewrite !zlen_app', !zlen_cons, !zlen_app'. lia. }
  destruct (wf_rec_parts _ _ Hwf He) as (Hne & Hn & Hd & Hf & Hl & Hlb & Hbl).
  unfold rec_lines. rewrite He. cbn [ni_fold].
  unfold render_header at 1.
  rewrite (step_header idx cur off want (s_name r) (s_desc r) (term (s_crlf r)) Hne Hn Hd (term_spaces _) Hcur Hfresh).
  cbn [obind].
  set (hl := zlen (62 :: s_name r ++ s_desc r ++ term (s_crlf r))).
  set (idx1 := ni_finish (mkSt idx cur off want)).
  rewrite ni_fold_app, (fold_full (s_full r) idx1 (s_name r) 0 (off + hl) 0 0 (off + hl) (s_crlf r) (width r) Hf)
    by (auto; lia).
  cbn [obind]. rewrite ni_fold_app. cbn [ni_fold].
  set (sp := if nl then term (s_crlf r) else []).
  assert (Hsp : forallb isspace sp = true) by (subst sp; destruct nl; [apply term_spaces|reflexivity]).
  pose proof (term_zlen_pos (s_crlf r)) as Ht.
  assert (Hspt : zlen sp <= zlen (term (s_crlf r))) by (subst sp; destruct nl; [|rewrite zlen_nil]; lia).
  assert (Hlne : s_last r <> []) by (intros E; rewrite E, zlen_nil in Hl; lia).
  rewrite (step_seq idx1 (s_name r) _ _ _ _ _ (s_last r) sp (width r) (zlen (term (s_crlf r)))); auto; try lia;
    [|destruct (s_full r); [left|right]; split; reflexivity].
  cbn [obind]. rewrite fold_blanks. eexists. do 2 f_equal.
  - unfold entry. rewrite He, zlen_concat_bases. unfold render_header. fold hl. unfold tlen, width, first_line in *.
    destruct (s_full r) as [|l0 fl].
    + change (0 =? 0) with true. cbv beta iota. subst sp. f_equal; try lia.
      destruct nl; [reflexivity|]. rewrite zlen_nil. reflexivity.
    + rewrite (proj2 (Z.eqb_neq (zlen l0) 0)) by lia. f_equal; lia.
  - unfold render_rec. rewrite He. unfold render_body, render_header. fold hl. fold sp. rewrite !zlen_app'. fold hl. lia.
Qed.

Lemma nodup_names_cons r t : nodup_names (r :: t) = true ->
  (forall x, In x t -> bytes_eqb (s_name x) (s_name r) = false) /\ nodup_names t = true.
Proof.
  simpl. intros H. apply andb_true_iff in H as [H1 H2]. split; [|assumption].
  apply negb_true_iff in H1. intros x Hx.
  destruct (bytes_eqb (s_name x) (s_name r)) eqn:E; [|reflexivity].
  assert (existsb (fun x0 => bytes_eqb (s_name x0) (s_name r)) t = true).
  { apply existsb_exists. exists x. split; assumption. }
  congruence.
Qed.

Lemma entry_name nl off r : r_name (entry nl off r) = s_name r.
Proof. unfold entry. destruct (is_empty r); reflexivity. Qed.

Lemma fold_recs rs : forall fin idx cur off want,
  wf_recs fin rs = true -> nodup_names rs = true -> cur_ok cur ->
  (forall r, In r rs -> has_name (s_name r) (ni_finish (mkSt idx cur off want)) = false) ->
  exists s',
    ni_fold true (mkSt idx cur off want) (all_lines fin rs) = Ok s' /\
    ni_finish s' = ni_finish (mkSt idx cur off want) ++ entries fin off rs.
Proof.
  induction rs as [|r t IH]; intros fin idx cur off want Hwf Hnd Hcur Hfresh.
  - exists (mkSt idx cur off want). cbn [all_lines ni_fold entries]. rewrite app_nil_r. split; reflexivity.
  - rewrite wf_recs_cons in Hwf. apply andb_true_iff in Hwf as [Hwr Hwt].
    destruct (nodup_names_cons _ _ Hnd) as [Hdiff Hndt].
    set (nl := match t with [] => fin | _ => true end) in *.
    destruct (fold_rec nl r idx cur off want Hwr Hcur (Hfresh r (or_introl eq_refl))) as (want' & HR).
    rewrite all_lines_cons. fold nl. rewrite ni_fold_app, HR. cbn [obind].
    set (idx1 := ni_finish (mkSt idx cur off want)) in *.
    assert (Hne : s_name r <> []) by (apply (wf_rec_head _ _ Hwr)).
    assert (Hfin1 : ni_finish (mkSt idx1 (entry nl off r) (off + zlen (render_rec nl r)) want') = idx1 ++ [entry nl off r]).
    { unfold ni_finish. cbn [n_cur n_idx]. rewrite entry_name.
      apply is_nil_false in Hne. rewrite Hne. apply map_set_fresh. rewrite entry_name.
      apply (Hfresh r (or_introl eq_refl)). }
    destruct (IH fin idx1 (entry nl off r) (off + zlen (render_rec nl r)) want' Hwt Hndt) as (s' & HF & Hfin).
    { right. rewrite entry_name. assumption. }
    { intros x Hx. rewrite Hfin1. rewrite has_name_app. rewrite (Hfresh x (or_intror Hx)).
      unfold has_name, lookup. rewrite entry_name. rewrite bytes_eqb_sym. rewrite (Hdiff x Hx). reflexivity. }
    exists s'. split; [exact HF|].
    rewrite Hfin, Hfin1, entries_cons. fold nl. rewrite <- app_assoc. cbn [app].
    destruct t; [|subst nl]; reflexivity.
Qed.

Lemma scan_tokens_fit ls : forallb token_fits ls = true -> scan_tokens ls = (ls, false).
Proof.
  induction ls as [|l t IH]; intros H; [reflexivity|].
  cbn [forallb] in H. apply andb_true_iff in H as [H1 H2].
  cbn [scan_tokens]. rewrite H1, IH by assumption. reflexivity.
Qed.

Lemma scan_tokens_long ls : forallb token_fits ls = false -> snd (scan_tokens ls) = true.
Proof.
  induction ls as [|l t IH]; intros H; [discriminate|].
  cbn [forallb] in H. cbn [scan_tokens]. destruct (token_fits l); [|reflexivity].
  cbn [andb] in H. destruct (scan_tokens t) as [a b]. cbn [snd] in *. apply IH. assumption.
Qed.

Lemma newindex_gen_fit adv file : lines_fit file = true ->
  newindex_gen adv file = obind (ni_fold adv nstate0 (lines file)) (fun s => Ok (ni_finish s)).
Proof.
  unfold newindex_gen, lines_fit. intros H. rewrite scan_tokens_fit by assumption. reflexivity.
Qed.

(** The scan loop ends normally or with one of its error exits: every leaf
    of [ni_step] is [Ok] or [Err], and [obind] keeps that. *)
Lemma obind_total {A B} (o : outcome A) (f : A -> outcome B) :
  (exists a, o = Ok a) \/ (exists e, o = Err e) ->
  (forall a, (exists b, f a = Ok b) \/ (exists e, f a = Err e)) ->
  (exists b, obind o f = Ok b) \/ (exists e, obind o f = Err e).
Proof. intros [[a ->]|[e ->]] H; cbn [obind]; eauto. Qed.

Lemma ni_step_total adv s l : (exists s', ni_step adv s l = Ok s') \/ (exists e, ni_step adv s l = Err e).
Proof.
  unfold ni_step. destruct s as [idx cur off want]. cbv zeta.
  destruct (is_nil (trim l)); [eauto|]. destruct (bytes_eqb (trim l) [62]); [eauto|].
  destruct (hd 0 (trim l) =? 62).
  - destruct (if is_nil (r_name cur) then _ else _) as [idx1 cur1]. destruct (has_name _ idx1); eauto.
  - destruct want; [eauto|]. apply obind_total.
    + destruct (r_bytes cur =? 0); [eauto|]. destruct (r_bytes cur <? zlen l); [eauto|].
      destruct (zlen l <? r_bytes cur); eauto.
    + intros [by1 w1]. apply obind_total; [|intros [ba2 w2]; eauto].
      destruct (zlen (trim l) =? 0); [eauto|]. destruct (r_bases cur =? 0); [eauto|].
      destruct (r_bases cur <? zlen (trim l)); [eauto|]. destruct (zlen (trim l) <? r_bases cur); eauto.
Qed.

Lemma ni_fold_total adv ls : forall s, (exists s', ni_fold adv s ls = Ok s') \/ (exists e, ni_fold adv s ls = Err e).
Proof.
  induction ls as [|l t IH]; intros s; cbn [ni_fold]; [eauto|].
  apply obind_total; [apply ni_step_total | apply IH].
Qed.

Theorem newindex_render f : wf f = true -> lines_fit (render f) = true -> newindex (render f) = Ok (index_of f).
Proof.
  unfold wf. intros H Hfit. bprop.
  unfold newindex. rewrite newindex_gen_fit by assumption. rewrite blank_adv.
  unfold render. rewrite lines_blanks. rewrite lines_render_recs by assumption.
  rewrite ni_fold_app. unfold nstate0. rewrite fold_blanks. cbn [obind].
  destruct (fold_recs (f_recs f) (f_final_nl f) [] rec0 (0 + zlen (blanks (f_lead f))) false) as (s' & HF & Hfin);
    try assumption.
  - left. reflexivity.
  - intros r _. reflexivity.
  - rewrite HF. cbn [obind]. rewrite Hfin. unfold index_of. rewrite Z.add_0_l. reflexivity.
Qed.
