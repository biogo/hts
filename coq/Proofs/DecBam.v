(** C11 — proofs about the BAM decoder models (Model/DecBam.v): what the Aux
    accessors need of a field, parseAux, the record buffer and Reader.Read, the
    accessors on a record, Header.DecodeBinary. *)
From Coq Require Import ZArith Lia List Bool.
From Hts Require Import Base.Prim Base.DecBase Generated Model.DecText Model.DecBam Proofs.DecLemmas Proofs.DecText.
Open Scope Z_scope.

(** Shape of one field handed out by parseAux, sufficient for every accessor. *)
Definition aux_wf (a : list Z) : Prop :=
  safe (aux_tag a) /\ safe (aux_type a) /\ safe (aux_kind a) /\ safe (aux_value a) /\ safe (aux_string a).

(** Tag, Type, Kind and String need three bytes (four for an array) and a type
    that is a byte (Kind indexes a table of 256); the rest is Value's. *)
Lemma aux_wf_of a : 3 <= zlen a -> 0 <= getz a 2 < 256 ->
  safe (aux_value a) -> (getz a 2 = 66 -> 4 <= zlen a) -> aux_wf a.
Proof.
  intros H3 Hb Hv HB.
  assert (safe (aux_tag a)) as Htag by (apply post_slice; [lia|lia|exact I]).
  assert (safe (aux_type a)) as Hty by (apply post_inb; [lia|exact I]).
  assert (safe (aux_kind a)) as Hk.
  { apply post_inb; [lia|]. apply post_inb; [exact Hb|exact I]. }
  repeat split; try assumption. unfold aux_string.
  apply (post_bind (Q := fun t => t = getz a 2)); [apply post_inb; [lia|reflexivity]|]. intros t ->.
  apply (post_bind Htag). intros _ _. apply (post_bind Hk). intros _ _. apply (post_bind Hv). intros _ _.
  destruct (Z.eqb_spec (getz a 2) 66) as [E|]; [|exact I]. apply post_inb; [specialize (HB E); lia|exact I].
Qed.

(** The number of bytes Value reads after the type byte [t] of a value that is not an array. *)
Definition fixed_width (t : Z) : Z :=
  if (t =? 65) || (t =? 99) || (t =? 67) then 1
  else if (t =? 115) || (t =? 83) then 2
  else if (t =? 105) || (t =? 73) || (t =? 102) then 4
  else 0.

Lemma aux_wf_fixed a : 3 <= zlen a -> 0 <= getz a 2 < 256 ->
  getz a 2 <> 66 -> 3 + fixed_width (getz a 2) <= zlen a -> aux_wf a.
Proof.
  intros H3 Hb N H. apply aux_wf_of; [exact H3|exact Hb| |intros E; contradiction].
  unfold aux_value. cbv zeta. apply post_inb; [lia|]. unfold fixed_width in H.
  destruct ((getz a 2 =? 65) || _ || _); [apply post_inb; [lia|exact I]|].
  destruct ((getz a 2 =? 115) || _); [apply post_slice; [lia|lia|exact I]|].
  destruct ((getz a 2 =? 105) || _ || _); [apply post_slice; [lia|lia|exact I]|].
  destruct ((getz a 2 =? 90) || _); [apply post_slice; [lia|lia|exact I]|].
  destruct (Z.eqb_spec (getz a 2) 66); [contradiction|exact I].
Qed.

(** An array: the count in a[4:8] is not negative as an int32 and the elements
    are there (binary.Read of a short slice is Value's explicit panic). *)
Lemma aux_wf_array a : 8 <= zlen a -> getz a 2 = 66 ->
  let n := s32 (le_bytes (sub a 4 8)) in
  0 <= n -> (forall w, elem_width (getz a 3) = Some w -> 8 + n * Z.of_nat w <= zlen a) -> aux_wf a.
Proof.
  intros H8 E n Hn H. apply aux_wf_of; [lia|lia| |lia].
  unfold aux_value. cbv zeta. apply post_inb; [lia|]. rewrite E.
  apply post_slice; [lia|lia|]. apply post_inb; [lia|]. fold n. unfold elem_width in H.
  destruct ((getz a 3 =? 99) || _); [apply post_slice; [lia|lia|exact I]|].
  destruct ((getz a 3 =? 115) || _).
  { specialize (H _ eq_refl). apply post_make; [exact Hn|]. apply post_slice; [lia|lia|].
    destruct (Z.ltb_spec (zlen a - 8) (n * 2)); [lia|exact I]. }
  destruct ((getz a 3 =? 105) || _ || _); [|exact I].
  specialize (H _ eq_refl). apply post_make; [exact Hn|]. apply post_slice; [lia|lia|].
  destruct (Z.ltb_spec (zlen a - 8) (n * 4)); [lia|exact I].
Qed.

Lemma all_aux_safe_ok aa : Forall aux_wf aa -> safe (all_aux_safe aa) /\ safe (build_aux aa).
Proof.
  induction 1 as [|a t (H1 & H2 & H3 & H4 & H5) _ [I1 I2]]; simpl; [split; exact I|]. split.
  - apply (post_bind H1). intros _ _. apply (post_bind H3). intros _ _.
    apply (post_bind H4). intros _ _. apply (post_bind H5). intros _ _. exact I1.
  - apply (post_bind H2). intros _ _. exact I2.
Qed.

(** The state of the code before the fixes, kept as witnesses: a parseAux
    without the length checks hands out a field the accessors panic on.
    (An early NUL inside the tag of a Z field gave a one byte Aux.) *)
Lemma short_aux_panics : is_panic (aux_value [88]) = true /\ is_panic (aux_type [88]) = true.
Proof. split; vm_compute; reflexivity. Qed.

(** The jumps table (regenerated from the source) agrees with Value: a positive
    entry is the width Value reads for that type, as a value and as an array
    element; the types with a negative entry are those parseAux has a case for. *)
Definition jump_ok (t j : Z) : bool :=
  if 0 <? j then
    (j =? fixed_width t) && negb (t =? 66) && match elem_width t with Some w => Z.of_nat w =? j | None => true end
  else if j <? 0 then (t =? 90) || (t =? 72) || (t =? 66)
  else true.

Lemma jumps_facts t : 0 <= t < 256 -> jump_ok t (getz c11_jumps t) = true.
Proof. apply (forallbi_getz jump_ok c11_jumps 0 t). vm_compute. reflexivity. Qed.

Lemma jumps_pos t : 0 <= t < 256 -> 0 < getz c11_jumps t ->
  getz c11_jumps t = fixed_width t /\ t <> 66 /\ forall w, elem_width t = Some w -> Z.of_nat w = getz c11_jumps t.
Proof.
  intros Ht Hj. pose proof (jumps_facts t Ht) as F. unfold jump_ok in F.
  destruct (Z.ltb_spec 0 (getz c11_jumps t)); [|lia].
  apply andb_true_iff in F as [F F3]. apply andb_true_iff in F as [F1 F2].
  split; [apply Z.eqb_eq, F1|]. split; [apply Z.eqb_neq, negb_true_iff, F2|].
  intros w E. rewrite E in F3. apply Z.eqb_eq, F3.
Qed.

Lemma jumps_neg t : 0 <= t < 256 -> getz c11_jumps t < 0 -> t = 90 \/ t = 72 \/ t = 66.
Proof.
  intros Ht Hj. pose proof (jumps_facts t Ht) as F. unfold jump_ok in F.
  destruct (Z.ltb_spec 0 (getz c11_jumps t)); [lia|]. destruct (Z.ltb_spec (getz c11_jumps t) 0); lia.
Qed.

Lemma index_byte_bound l c : forall k j, index_byte l c k = Some j -> k <= j < k + zlen l.
Proof.
  induction l as [|x t IH]; intros k j H; simpl in H; [discriminate|].
  rewrite zlen_cons. pose proof (zlen_nonneg t).
  destruct (x =? c); [injection H as <-; lia|]. apply IH in H. lia.
Qed.

Lemma field_wf aux i j : all_bytes aux = true -> 0 <= i -> i + (j + 3) <= zlen aux ->
  getz aux (i + 2) <> 66 -> 0 <= fixed_width (getz aux (i + 2)) <= j -> aux_wf (sub aux i (i + (j + 3))).
Proof.
  intros Hb Hi Hfit N Hj. set (a := sub aux i (i + (j + 3))).
  assert (zlen a = j + 3) as Hlen by (unfold a; rewrite zlen_sub; lia).
  assert (getz a 2 = getz aux (i + 2)) as H2 by (unfold a; rewrite getz_sub by lia; reflexivity).
  apply aux_wf_fixed; rewrite ?H2; [lia|apply (all_bytes_getz aux Hb); lia|exact N|lia].
Qed.

(** An array field: header of 8 bytes and length * size bytes of elements. *)
Lemma bfield_wf aux i : all_bytes aux = true -> 0 <= i -> i + 8 <= zlen aux ->
  getz aux (i + 2) = 66 ->
  let size := getz c11_jumps (getz aux (i + 3)) in
  let length := le_bytes (sub aux (i + 4) (i + 8)) in
  0 < size -> i + (length * size + 4 + 4) <= zlen aux -> length * size + 8 < 2 ^ 31 ->
  aux_wf (sub aux i (i + (length * size + 4 + 4))).
Proof.
  intros Hb Hi H8 Ht size length Hs Hfit Hsmall.
  assert (0 <= length) as Hl by (apply le_bytes_range, all_bytes_sub, Hb).
  destruct (jumps_pos (getz aux (i + 3))) as (_ & _ & Hw); [apply (all_bytes_getz aux Hb); lia|exact Hs|]. fold size in Hw.
  set (a := sub aux i (i + (length * size + 4 + 4))).
  assert (zlen a = length * size + 4 + 4) as Hlen by (unfold a; rewrite zlen_sub; nia).
  assert (getz a 2 = 66) as H2 by (unfold a; rewrite getz_sub by nia; exact Ht).
  assert (getz a 3 = getz aux (i + 3)) as H3 by (unfold a; rewrite getz_sub by nia; reflexivity).
  assert (s32 (le_bytes (sub a 4 8)) = length) as Hn by (unfold a; rewrite sub_sub by nia; apply s32_small; nia).
  apply aux_wf_array; rewrite ?Hn, ?H3; [nia|exact H2|exact Hl|].
  intros w E. rewrite (Hw w E). lia.
Qed.

Lemma parse_aux_loop_ok fuel : forall aux i,
  all_bytes aux = true -> 0 <= i <= zlen aux -> zlen aux - i < Z.of_nat fuel ->
  post (parse_aux_loop aux i fuel) (fun aa => zlen aux < 2 ^ 31 -> Forall aux_wf aa).
Proof.
  induction fuel as [|f IH]; intros aux i Hb Hi Hf; [lia|].
  cbn [parse_aux_loop]. destruct (Z.ltb_spec (i + 2) (zlen aux)); [|constructor].
  apply post_inb; [lia|].
  assert (0 <= getz aux (i + 2) < 256) as Ht by (apply (all_bytes_getz aux Hb); lia).
  apply post_inb; [exact Ht|]. cbv zeta.
  pose proof (jumps_pos _ Ht) as P. pose proof (jumps_neg _ Ht) as N.
  set (t := getz aux (i + 2)) in *. set (j := getz c11_jumps t) in *.
  (* the way every case ends: the field aux[i:e] in front of what the loop returns from [i'] on *)
  assert (forall i' e, i <= e <= zlen aux -> i < i' <= zlen aux -> (zlen aux < 2 ^ 31 -> aux_wf (sub aux i e)) ->
            post (chk (slice_ok aux i e) (r <- parse_aux_loop aux i' f ;; Ok (sub aux i e :: r)))
              (fun aa => zlen aux < 2 ^ 31 -> Forall aux_wf aa)) as Hrec.
  { intros i' e He Hi' W. apply post_slice; [lia|lia|].
    apply (post_bind (IH aux i' Hb ltac:(lia) ltac:(lia))). intros r Hr Hsz. constructor; auto. }
  destruct (Z.ltb_spec 0 j).
  - destruct (P ltac:(assumption)) as (Pw & P66 & _).
    destruct (Z.ltb_spec (zlen aux) (i + (j + 3))); [exact I|].
    apply Hrec; [lia|lia|]. intros _. apply field_wf; fold t; lia || assumption.
  - destruct (Z.ltb_spec j 0); [|exact I].
    destruct ((t =? 90) || (t =? 72)) eqn:EZ.
    + apply post_slice; [lia|lia|].
      destruct (index_byte (sub aux (i + 3) (zlen aux)) 0 0) as [j0|] eqn:Eidx; [|exact I].
      apply index_byte_bound in Eidx. rewrite zlen_sub in Eidx by lia.
      apply Hrec; [lia|lia|]. intros _. apply field_wf; fold t; try lia; try assumption.
      unfold fixed_width. apply orb_true_iff in EZ as [E|E]; apply Z.eqb_eq in E; rewrite E; simpl; lia.
    + destruct (Z.eqb_spec t 66) as [EB|]; [|lia].
      destruct (Z.ltb_spec (zlen aux) (i + 8)); [exact I|].
      apply post_inb; [lia|]. apply post_inb; [apply (all_bytes_getz aux Hb); lia|].
      set (size := getz c11_jumps (getz aux (i + 3))).
      destruct (Z.leb_spec size 0); [exact I|].
      apply post_slice; [lia|lia|]. cbv zeta.
      set (length := le_bytes (sub aux (i + 4) (i + 8))).
      assert (0 <= length) as Hl0 by (apply le_bytes_range, all_bytes_sub, Hb).
      destruct (Z.ltb_spec (length * size + 4 + 4) 0); [exact I|].
      destruct (Z.ltb_spec (i + (length * size + 4 + 4)) 0); [exact I|].
      destruct (Z.ltb_spec (zlen aux) (i + (length * size + 4 + 4))); [exact I|].
      apply Hrec; [nia|nia|]. intros Hsz. apply bfield_wf; assumption || lia.
Qed.

Lemma bam_parse_aux_ok aux : all_bytes aux = true ->
  post (bam_parse_aux aux) (fun aa => zlen aux < 2 ^ 31 -> Forall aux_wf aa).
Proof.
  intros Hb. unfold bam_parse_aux. destruct (zlen aux =? 0); [constructor|].
  pose proof (zlen_nonneg aux). pose proof (zlen_lt_fuel aux). apply parse_aux_loop_ok; assumption || lia.
Qed.

Definition binv (data : list Z) (st : bst) : Prop := 0 <= b_off st <= zlen data.

(** unsafeBytes: whatever it returns lies inside data; when the buffer is still
    without error afterwards, it was before and all [n] bytes were there. *)
Lemma unsafe_bytes_ok data st n : all_bytes data = true -> binv data st -> 0 <= n ->
  post (unsafe_bytes data st n) (fun '(bs, st') =>
    binv data st' /\ all_bytes bs = true /\ zlen bs <= zlen data /\ (b_err st' = false -> b_err st = false /\ zlen bs = n)).
Proof.
  intros Hb Hi Hn. unfold unsafe_bytes, binv, blen in *. pose proof (zlen_nonneg data).
  destruct (b_err st) eqn:Ee; [cbn; repeat split; rewrite ?zlen_nil; congruence || lia|].
  destruct (Z.ltb_spec (zlen data - b_off st) n); [cbn; repeat split; rewrite ?zlen_nil; congruence || lia|].
  apply post_slice; [lia|lia|]. apply post_ret. rewrite zlen_sub by lia.
  repeat split; simpl; try lia. apply all_bytes_sub, Hb.
Qed.

Lemma discard_ok data st n : binv data st -> 0 <= n -> binv data (discard data st n).
Proof.
  intros Hi Hn. unfold discard, binv, blen in *. destruct (b_err st); [exact Hi|].
  destruct (Z.ltb_spec (zlen data - b_off st) n); simpl; lia.
Qed.

Lemma read_u8_ok data st : binv data st -> post (read_u8 data st) (fun '(_, st') => binv data st').
Proof.
  intros Hi. unfold read_u8, binv, blen in *. destruct (b_err st); [exact Hi|].
  destruct (Z.ltb_spec (zlen data - b_off st) 1); [simpl; lia|].
  apply post_inb; [lia|]. simpl. lia.
Qed.

Lemma read_le_ok w data st : all_bytes data = true -> binv data st -> 1 <= w ->
  post (read_le w data st) (fun '(v, st') => binv data st' /\ 0 <= v).
Proof.
  intros Hb Hi Hw. unfold read_le, unsafe_bytes, binv, blen in *. destruct (b_err st); [split; [exact Hi|lia]|].
  destruct (Z.ltb_spec (zlen data - b_off st) w); [split; simpl; lia|].
  rewrite slice_ok_true by lia. cbn [chk obind].
  apply post_inb; [rewrite zlen_sub; lia|]. split; [simpl; lia|apply le_bytes_range, all_bytes_sub, Hb].
Qed.

Lemma read_i32_ok data st : all_bytes data = true -> binv data st ->
  post (read_i32 data st) (fun '(_, st') => binv data st').
Proof.
  intros Hb Hi. unfold read_i32. apply (post_bind2 (read_le_ok 4 data st Hb Hi ltac:(lia))).
  intros v st' [Hi' _]. exact Hi'.
Qed.

Lemma cigar_ops_loop_safe cb n : forall i, 0 <= i -> (i + Z.of_nat n) * 4 <= zlen cb -> safe (cigar_ops_loop cb i n).
Proof.
  induction n as [|n IH]; intros i Hi Hn; simpl; [exact I|].
  apply post_slice; [lia|lia|]. apply (post_bind (IH (i + 1) ltac:(lia) ltac:(lia))). intros; exact I.
Qed.

Lemma read_cigar_ops_safe cb : safe (read_cigar_ops cb).
Proof.
  unfold read_cigar_ops. pose proof (zlen_nonneg cb). apply cigar_ops_loop_safe; [lia|].
  rewrite Z2Nat.id by (apply Z.div_pos; lia). Z.div_mod_to_equations. lia.
Qed.

(** rec.Ref = br.h.Refs()[refID] after the range test. *)
Lemma ref_lookup_safe e x nrefs :
  safe (if negb (x =? -1) then if (x <? -1) || (nrefs <=? x) then Err e else chk ((0 <=? x) && (x <? nrefs)) (Ok tt) else @Ok unit tt).
Proof.
  destruct (Z.eqb_spec x (-1)); [exact I|]. destruct (Z.ltb_spec x (-1)); [exact I|].
  destruct (Z.leb_spec nrefs x); [exact I|]. apply post_chk; [lia|exact I].
Qed.

(** What Reader.Read guarantees about a record it returns. *)
Definition rec_wf (r : brec) : Prop :=
  0 <= r_lseq r /\ zlen (r_seq r) = Z.shiftr (r_lseq r) 1 + Z.land (r_lseq r) 1 /\ all_bytes (r_seq r) = true /\ Forall aux_wf (r_aux r).

Lemma bam_record_ok data omit nrefs : all_bytes data = true ->
  post (bam_record data omit nrefs) (fun r => zlen data < 2 ^ 31 -> rec_wf r).
Proof.
  intros Hb. unfold bam_record.
  assert (binv data {| b_off := 0; b_err := false |}) as I0 by (pose proof (zlen_nonneg data); unfold binv; simpl; lia).
  apply (post_bind2 (read_i32_ok _ _ Hb I0)). intros refID s1 I1.
  apply (post_bind2 (read_i32_ok _ _ Hb I1)). intros pos s2 I2.
  apply (post_bind2 (read_u8_ok _ _ I2)). intros nLen s3 I3.
  apply (post_bind2 (read_u8_ok _ _ I3)). intros mapq s4 I4.
  pose proof (discard_ok data s4 2 I4 ltac:(lia)) as I5.
  apply (post_bind2 (read_le_ok 2 _ _ Hb I5 ltac:(lia))). intros nCigar s6 [I6 HnC].
  apply (post_bind2 (read_le_ok 2 _ _ Hb I6 ltac:(lia))). intros flags s7 [I7 _].
  apply (post_bind2 (read_i32_ok _ _ Hb I7)). intros lSeq s8 I8.
  apply (post_bind2 (read_i32_ok _ _ Hb I8)). intros nextRefID s9 I9.
  apply (post_bind2 (read_i32_ok _ _ Hb I9)). intros matePos s10 I10.
  apply (post_bind2 (read_i32_ok _ _ Hb I10)). intros tempLen s11 I11.
  destruct (Z.ltb_spec nLen 1); [exact I|].
  apply (post_bind2 (unsafe_bytes_ok data s11 (nLen - 1) Hb I11 ltac:(lia))). intros name s12 (I12 & _).
  pose proof (discard_ok data s12 1 I12 ltac:(lia)) as I13.
  apply (post_bind2 (unsafe_bytes_ok data _ (nCigar * 4) Hb I13 ltac:(lia))). intros cb s14 (I14 & _).
  apply (post_bind (read_cigar_ops_safe cb)). intros cigar _.
  (* the variable part; what it returns counts only if the buffer is without error at the end *)
  set (L := if 2 <=? omit then 0 else lSeq).
  apply (post_bind (Q := fun '(seq, qual, aux, st) => b_err st = false -> zlen data < 2 ^ 31 ->
    0 <= L /\ zlen seq = Z.shiftr L 1 + Z.land L 1 /\ all_bytes seq = true /\ Forall aux_wf aux)).
  { unfold L. destruct (2 <=? omit); [intros _ _; repeat split; try reflexivity; constructor|].
    destruct (Z.ltb_spec lSeq 0) as [|El]; [exact I|].
    assert (0 <= Z.shiftr lSeq 1 + Z.land lSeq 1) as Hn.
    { pose proof (Z.shiftr_nonneg lSeq 1). pose proof (Z.land_nonneg lSeq 1). lia. }
    apply (post_bind2 (unsafe_bytes_ok data s14 _ Hb I14 Hn)). intros seq s15 (I15 & Hbseq & _ & K15).
    apply (post_bind2 (unsafe_bytes_ok data s15 lSeq Hb I15 El)). intros qual s16 (I16 & _ & _ & K16).
    destruct (1 <=? omit).
    { intros He _. destruct (K15 (proj1 (K16 He))). repeat split; auto. }
    assert (0 <= blen data s16) as Hbl by (unfold blen, binv in *; lia).
    apply (post_bind2 (unsafe_bytes_ok data s16 _ Hb I16 Hbl)). intros auxb s17 (I17 & Hbaux & Hauxle & K17).
    apply (post_bind (bam_parse_aux_ok auxb Hbaux)). intros aux Hwf He Hsz.
    destruct (K15 (proj1 (K16 (proj1 (K17 He))))). repeat split; auto. apply Hwf. lia. }
  intros [[[seq qual] aux] st] Hvar. destruct (b_err st); [exact I|]. specialize (Hvar eq_refl).
  apply (post_bind (ref_lookup_safe 4 refID nrefs)). intros _ _.
  apply (post_bind (Q := fun _ => True)); [|intros _ _; exact Hvar].
  destruct (negb (nextRefID =? -1)) eqn:E3; [|exact I]. destruct (refID =? nextRefID); [exact I|].
  pose proof (ref_lookup_safe 5 nextRefID nrefs) as S. rewrite E3 in S. exact S.
Qed.

(** Seq.Expand reads ns.Seq[i>>1] for i below the announced length; a doublet
    holds two bases. *)
Lemma expand_loop_safe seq n : forall i, all_bytes seq = true -> 0 <= i ->
  i + Z.of_nat n <= 2 * zlen seq -> safe (expand_loop seq i n).
Proof.
  induction n as [|n IH]; intros i Hb Hi Hn; simpl; [exact I|].
  assert (0 <= Z.shiftr i 1 < zlen seq) as Hidx by (rewrite shiftr_1; Z.div_mod_to_equations; lia).
  apply post_inb; [exact Hidx|].
  pose proof (all_bytes_getz seq Hb _ Hidx) as Hd. set (d := getz seq (Z.shiftr i 1)) in *.
  apply post_inb; [|apply IH; [exact Hb|lia|lia]].
  change (zlen c11_n16TableRev) with 16. destruct (Z.land i 1 =? 0).
  - rewrite shiftr_div by lia. Z.div_mod_to_equations. lia.
  - rewrite (land_ones_mod d 4 ltac:(lia) : Z.land d 15 = d mod 16). Z.div_mod_to_equations. lia.
Qed.

Lemma seq_expand_safe lseq seq : all_bytes seq = true -> 0 <= lseq ->
  zlen seq = Z.shiftr lseq 1 + Z.land lseq 1 -> safe (seq_expand lseq seq).
Proof.
  intros Hb H0 Hl. unfold seq_expand. apply post_make; [exact H0|].
  apply expand_loop_safe; [exact Hb|lia|].
  rewrite Z2Nat.id, Hl, land_1, shiftr_1 by lia. Z.div_mod_to_equations. lia.
Qed.

Lemma record_accessors_safe r : rec_wf r -> safe (record_accessors r).
Proof.
  intros (H0 & Hl & Hb & Ha). unfold record_accessors. destruct (all_aux_safe_ok _ Ha) as [A1 A2].
  apply (post_bind (record_end_safe _ _ _)). intros _ _.
  apply (post_bind (cigar_is_valid_safe _ _)). intros _ _.
  apply (post_bind (lengths_loop_safe _ _ _)). intros _ _.
  apply (post_bind (seq_expand_safe _ _ Hb H0 Hl)). intros _ _.
  apply (post_bind A1). intros _ _. exact A2.
Qed.

Lemma reader_read_spec n s b s' : reader_read n s = Some (b, s') ->
  zlen b + zlen s' = zlen s /\ (all_bytes s = true -> all_bytes s' = true).
Proof.
  unfold reader_read. destruct (zlen s =? 0); [discriminate|]. intros [= <- <-].
  split; [|apply all_bytes_skipn]. rewrite <- zlen_app, firstn_skipn. reflexivity.
Qed.

(** readRefRecords: every record consumes input; what is left are bytes of the input. *)
Lemma ref_records_ok fuel : forall s i n, zlen s < Z.of_nat fuel ->
  post (ref_records s i n fuel) (fun '(_, s') => all_bytes s = true -> all_bytes s' = true).
Proof.
  induction fuel as [|f IH]; intros s i n Hf; [unfold zlen in Hf; lia|].
  cbn [ref_records]. destruct (negb (i <? n)); [exact (fun H => H)|].
  apply (post_bind2 (rd_i32_ok s)). intros lName s1 (_ & L1 & B1).
  destruct (Z.ltb_spec lName 1); [exact I|]. apply post_make; [lia|].
  destruct (reader_read lName s1) as [[name s2]|] eqn:ER; [|exact I].
  apply reader_read_spec in ER as [L2 B2].
  destruct (Z.eqb_spec (zlen name) lName); [|exact I].
  apply post_inb; [lia|]. destruct (negb (getz name (zlen name - 1) =? 0)); [exact I|].
  apply post_slice; [lia|lia|].
  apply (post_bind2 (rd_i32_ok s2)). intros lRef s3 (_ & L3 & B3).
  apply (post_bind2 (IH s3 (i + 1) n ltac:(lia))). intros rs s4 B4. simpl. auto.
Qed.

Lemma decode_binary_header_safe lib refs_ok s : safe (decode_binary_header lib refs_ok s).
Proof.
  apply post_take; [exact I|]. intros magic s1 _ _ _.
  destruct (negb (zeqb magic bamMagic)); [exact I|].
  apply (post_bind2 (rd_i32_ok s1)). intros lText s2 _.
  destruct (Z.ltb_spec lText 0); [exact I|]. apply post_make; [lia|].
  destruct (reader_read lText s2) as [[text s3]|]; [|exact I].
  destruct (negb (zlen text =? lText)); [exact I|].
  apply (post_bind (unmarshal_header_text_safe lib text)). intros _ _.
  apply (post_bind2 (rd_i32_ok s3)). intros nRef s4 _.
  destruct (nRef <? 0); [exact I|].
  apply (post_bind (ref_records_ok _ s4 0 nRef (zlen_lt_fuel s4))). intros r _. destruct refs_ok; exact I.
Qed.
