(** C07 — decimal and hexadecimal codecs of the header text are inverses. *)
From Coq Require Import ZArith List Bool Lia.
From Hts Require Import Base.Prim Model.Header Proofs.HeaderBase.
Import ListNotations.
Open Scope Z_scope.

Definition digitish (c : Z) : Prop := 45 <= c <= 57 \/ 97 <= c <= 102.

(** the last decimal digit and the rest: the only facts about division used below *)
Lemma div10 : forall n, 0 <= n -> n = 10 * (n / 10) + n mod 10 /\ 0 <= n mod 10 < 10 /\ 0 <= n / 10.
Proof.
  intros n Hn. split; [apply Z.div_mod; discriminate|]. split; [apply Z.mod_pos_bound; reflexivity|apply Z.div_pos; lia].
Qed.

Lemma dec_pos_digits : forall fuel n acc, 0 <= n -> Forall digitish acc -> Forall digitish (dec_pos fuel n acc).
Proof.
  induction fuel; intros n acc Hn Ha; simpl; auto. destruct (div10 n Hn) as (_ & M & Q).
  assert (Forall digitish ((48 + n mod 10) :: acc)) by (constructor; auto; left; lia).
  destruct (n <? 10); auto.
Qed.
Lemma dec_digits : forall n, Forall digitish (dec n).
Proof.
  intro n. unfold dec. destruct (n <? 0) eqn:E.
  - constructor. left; lia. apply dec_pos_digits; auto. apply Z.ltb_lt in E. lia.
  - apply dec_pos_digits; auto. apply Z.ltb_ge in E. lia.
Qed.

Lemma dec_pos_head : forall fuel n acc, 0 <= n -> exists c t, dec_pos (S fuel) n acc = c :: t /\ 48 <= c <= 57.
Proof.
  induction fuel; intros n acc Hn; simpl; destruct (div10 n Hn) as (_ & M & Q).
  - destruct (n <? 10); exists (48 + n mod 10), acc; split; auto; lia.
  - destruct (n <? 10) eqn:E. { exists (48 + n mod 10), acc; split; auto; lia. }
    apply IHfuel. exact Q.
Qed.

Lemma digits_val_dec_pos : forall fuel n acc, 0 <= n < 10 ^ Z.of_nat (S fuel) ->
  exists k, 0 <= k /\ forall a, digits_val a (dec_pos (S fuel) n acc) = digits_val (a * 10 ^ k + n) acc.
Proof.
  assert (ONE : forall n acc a, 0 <= n -> digits_val a ((48 + n mod 10) :: acc) = digits_val (a * 10 + n mod 10) acc).
  { intros n acc a Hn. destruct (div10 n Hn) as (_ & M & _). cbn [digits_val]. unfold is_digit.
    replace ((48 <=? 48 + n mod 10) && (48 + n mod 10 <=? 57)) with true by (symmetry; apply andb_true_iff; split; apply Z.leb_le; lia).
    f_equal. lia. }
  induction fuel; intros n acc (Hn & Hb); cbn [dec_pos]; destruct (div10 n Hn) as (D & M & Q).
  - change (10 ^ Z.of_nat 1) with 10 in Hb. replace (n <? 10) with true by (symmetry; apply Z.ltb_lt; lia).
    exists 1. split; [lia|]. intro a. rewrite ONE by exact Hn. f_equal. rewrite Z.mod_small; lia.
  - destruct (n <? 10) eqn:E.
    + apply Z.ltb_lt in E. exists 1. split; [lia|]. intro a. rewrite ONE by exact Hn. f_equal. rewrite Z.mod_small; lia.
    + rewrite (Nat2Z.inj_succ (S fuel)), Z.pow_succ_r in Hb by lia.
      destruct (IHfuel (n / 10) ((48 + n mod 10) :: acc)) as (k & Hk & H). { split; [exact Q|lia]. }
      exists (k + 1). split; [lia|]. intro a. rewrite H, ONE by exact Hn. f_equal.
      rewrite Z.pow_add_r by lia. change (10 ^ 1) with 10. lia.
Qed.

Lemma atoi_unsigned : forall c t, c <> 45 -> c <> 43 ->
  atoi (c :: t) = match digits_val 0 (c :: t) with
                  | None => None
                  | Some v => if (- 2 ^ 63 <=? v) && (v <=? 2 ^ 63 - 1) then Some v else None
                  end.
Proof.
  intros c t H45 H43. unfold atoi.
  destruct c as [|p|p]; try reflexivity.
  repeat (destruct p as [p|p|]; try reflexivity); contradiction.
Qed.

Lemma atoi_dec : forall n, - 2 ^ 63 <= n <= 2 ^ 63 - 1 -> atoi (dec n) = Some n.
Proof.
  intros n Hn. unfold dec.
  assert (RG : forall v, - 2 ^ 63 <= v <= 2 ^ 63 - 1 -> (- 2 ^ 63 <=? v) && (v <=? 2 ^ 63 - 1) = true)
    by (intros; apply andb_true_iff; split; apply Z.leb_le; lia).
  destruct (n <? 0) eqn:E; [apply Z.ltb_lt in E|apply Z.ltb_ge in E]; change (dec_pos 20) with (dec_pos (S 19)).
  - destruct (dec_pos_head 19 (- n) []) as (c & t & Hd & Hc); [lia|].
    destruct (digits_val_dec_pos 19 (- n) []) as (k & Hk & H). { change (10 ^ Z.of_nat 20) with 100000000000000000000. lia. }
    unfold atoi. rewrite Hd in *. rewrite (H 0). cbn [digits_val]. rewrite Z.mul_0_l, Z.add_0_l, Z.opp_involutive, RG by exact Hn. reflexivity.
  - destruct (dec_pos_head 19 n []) as (c & t & Hd & Hc); [lia|].
    destruct (digits_val_dec_pos 19 n []) as (k & Hk & H). { change (10 ^ Z.of_nat 20) with 100000000000000000000. lia. }
    rewrite Hd in *. rewrite atoi_unsigned, (H 0) by lia. cbn [digits_val]. rewrite Z.mul_0_l, Z.add_0_l, RG by exact Hn. reflexivity.
Qed.

Definition bytes (s : str) : Prop := Forall (fun b => 0 <= b < 256) s.

Lemma div16 : forall b, 0 <= b < 256 -> b / 16 * 16 + b mod 16 = b /\ 0 <= b / 16 < 16 /\ 0 <= b mod 16 < 16.
Proof.
  intros b Hb. split; [rewrite Z.mul_comm; symmetry; apply Z.div_mod; discriminate|].
  split; [split; [apply Z.div_pos; lia|apply Z.div_lt_upper_bound; lia]|apply Z.mod_pos_bound; reflexivity].
Qed.

Lemma unhex_hexdig : forall d, 0 <= d < 16 -> unhex (hexdig d) = Some d.
Proof.
  intros d Hd. assert (d = 0 \/ d = 1 \/ d = 2 \/ d = 3 \/ d = 4 \/ d = 5 \/ d = 6 \/ d = 7 \/ d = 8 \/ d = 9 \/ d = 10 \/ d = 11 \/ d = 12 \/ d = 13 \/ d = 14 \/ d = 15) by lia.
  repeat (destruct H as [H|H]; [subst; reflexivity|]). subst; reflexivity.
Qed.
Lemma hexdig_digitish : forall d, 0 <= d < 16 -> digitish (hexdig d).
Proof. intros d Hd. unfold hexdig, digitish. destruct (d <? 10) eqn:E; [apply Z.ltb_lt in E|apply Z.ltb_ge in E]; lia. Qed.

Lemma hex_of_digits : forall s, bytes s -> Forall digitish (hex_of s).
Proof.
  induction s; intro H; simpl; auto. inversion H; subst. destruct (div16 a H2) as (_ & Q & M).
  constructor; [apply hexdig_digitish; exact Q|]. constructor; [apply hexdig_digitish; exact M|]. auto.
Qed.
Lemma hex_of_length : forall s, length (hex_of s) = (2 * length s)%nat.
Proof. induction s; simpl; auto. rewrite IHs. lia. Qed.

Lemma hex_decode_hex_of : forall s n acc, bytes s -> (n + length s <= 16)%nat ->
  hex_decode n (hex_of s) acc = Ok (rev acc ++ s).
Proof.
  induction s as [|b s IH]; intros n acc Hb Hn; cbn [hex_of hex_decode].
  - rewrite app_nil_r. reflexivity.
  - inversion Hb; subst. destruct (div16 b H1) as (D & Q & M). rewrite !unhex_hexdig by assumption.
    destruct (Nat.leb 16 n) eqn:E. { apply Nat.leb_le in E. simpl in Hn. lia. }
    rewrite IH; auto. 2:{ simpl in Hn. lia. } cbn [rev]. rewrite <- app_assoc, D. reflexivity.
Qed.

Lemma digitish_clean : forall s, Forall digitish s -> ~ In TAB s /\ ~ In LF s /\ ~ In CR s.
Proof.
  intros s H. rewrite Forall_forall in H. unfold TAB, LF, CR, digitish in *.
  repeat split; intro Hi; apply H in Hi; lia.
Qed.

Lemma unhex_range : forall c d, unhex c = Some d -> 0 <= d < 16.
Proof.
  intros c d. unfold unhex.
  repeat match goal with |- context [if ?b && ?b' then _ else _] =>
    let A := fresh "A" in destruct (b && b') eqn:A;
    [apply andb_true_iff in A; destruct A as (A1 & A2); apply Z.leb_le in A1; apply Z.leb_le in A2; intro E; inversion E; lia|] end.
  intro E; discriminate E.
Qed.
Lemma hex_decode_bytes : forall k s n acc b, (length s <= k)%nat -> bytes acc -> hex_decode n s acc = Ok b -> bytes b.
Proof.
  induction k; intros s n acc b L A H.
  - destruct s; [|simpl in L; lia]. cbn [hex_decode] in H. inversion H; subst. apply Forall_rev. exact A.
  - destruct s as [|p [|q t]]; cbn [hex_decode] in H.
    + inversion H; subst. apply Forall_rev. exact A.
    + destruct (unhex p); discriminate.
    + destruct (unhex p) as [a|] eqn:Hp; [|discriminate]. destruct (unhex q) as [c|] eqn:Hq; [|discriminate].
      destruct (Nat.leb 16 n); [discriminate|]. eapply IHk; [| |exact H]. { simpl in L. lia. }
      constructor; auto. apply unhex_range in Hp. apply unhex_range in Hq. lia.
Qed.

Arguments atoi : simpl never.
Arguments dec : simpl never.
Arguments hex_of : simpl never.
Arguments hex_decode : simpl never.
