(** Scripts of calls on one errorReader (C20): no call blocks, the consumption
    counter is monotone and bounded, failure is permanent. *)
From Coq Require Import ZArith Lia List Bool.
From Hts Require Import Base.Prim Base.Bits Model.CramStream Proofs.CramStream.
Open Scope Z_scope.

Definition er_op (op : Z) (r : ereader) : outcome (list Z * ereader) :=
  if op =? 0 then obind (er_itf8 r) (fun '(v, r') => Ok ([v], r'))
  else if op =? 1 then obind (er_ltf8 r) (fun '(v, r') => Ok ([v], r'))
  else er_itf8slice r.

Lemma er_run_cons op t r total :
  er_run (op :: t) r total =
  obind (er_op op r) (fun '(vals, r') =>
    obind (er_run t r' total) (fun more => Ok ((vals, er_err r', total - zlen (er_rest r')) :: more))).
Proof. reflexivity. Qed.

Lemma er_itf8slice_sticky r : er_err r <> 0 -> er_itf8slice r = Ok ([], r).
Proof.
  intros He. unfold er_itf8slice. rewrite er_itf8_sticky by assumption. cbn [obind].
  assert (Hf : er_failed r = true) by (unfold er_failed; apply negb_true_iff, Z.eqb_neq; assumption).
  rewrite Hf. reflexivity.
Qed.

Lemma er_op_step op r :
  all_bytes (er_rest r) = true -> er_tail r <> 0 ->
  match er_op op r with
  | Ok (vals, r') =>
    er_tail r' = er_tail r /\ (exists pre, er_rest r = pre ++ er_rest r') /\
    (er_err r <> 0 -> r' = r) /\ (er_err r' = 0 -> er_err r = 0)
  | Panic _ => er_err r = 0 /\ op <> 0 /\ op <> 1
  | _ => False
  end.
Proof.
  intros Hb Ht. destruct (Z.eq_dec (er_err r) 0) as [He|He].
  - destruct r as [s tail e]. cbn [er_rest er_tail er_err] in *. subst e. unfold er_op.
    destruct (Z.eqb_spec op 0) as [Hop0|Hop0].
    { destruct (er_itf8_exact s tail Hb Ht) as (v & r' & Hrun & Hrest & Htl & _). rewrite Hrun. cbn [obind].
      split; [assumption|]. split; [|split; [intros; lia|reflexivity]].
      eexists. rewrite Hrest. symmetry. apply firstn_skipn. }
    destruct (Z.eqb_spec op 1) as [Hop1|Hop1].
    { destruct (er_ltf8_exact s tail Hb Ht) as (v & r' & Hrun & Hrest & Htl & _). rewrite Hrun. cbn [obind].
      split; [assumption|]. split; [|split; [intros; lia|reflexivity]].
      eexists. rewrite Hrest. symmetry. apply firstn_skipn. }
    pose proof (stream_itf8slice_exact s tail Hb Ht) as H.
    destruct (er_itf8slice (mkER s tail 0)) as [[vals r']| | |]; try contradiction; [|repeat split; assumption].
    destruct H as [Htl H]. split; [assumption|]. split; [|split; [intros; lia|reflexivity]].
    destruct H as [(_ & pre & Hs & _)|(_ & Hnil & _)].
    + exists pre. assumption.
    + exists s. rewrite Hnil, app_nil_r. reflexivity.
  - unfold er_op. destruct (op =? 0); [|destruct (op =? 1)].
    + rewrite er_itf8_sticky by assumption. cbn [obind]. repeat split; auto. exists []. reflexivity.
    + rewrite er_ltf8_sticky by assumption. cbn [obind]. repeat split; auto. exists []. reflexivity.
    + rewrite er_itf8slice_sticky by assumption. repeat split; auto. exists []. reflexivity.
Qed.

(** What a trace of (values, error, consumed-so-far) must look like, starting
    from [k0] bytes consumed and error [e0]: the counter never goes back and
    never passes [total]; after a failure neither error nor counter change. *)
Fixpoint script_ok (total k0 e0 : Z) (steps : list (list Z * Z * Z)) : Prop :=
  match steps with
  | [] => True
  | (_, e, k) :: t => k0 <= k <= total /\ (e0 <> 0 -> e = e0 /\ k = k0) /\ script_ok total k e t
  end.

Lemma er_run_spec ops : forall r total,
  all_bytes (er_rest r) = true -> er_tail r <> 0 -> zlen (er_rest r) <= total ->
  match er_run ops r total with
  | Ok steps => length steps = length ops /\ script_ok total (total - zlen (er_rest r)) (er_err r) steps
  | Panic _ => exists op, In op ops /\ op <> 0 /\ op <> 1
  | _ => False
  end.
Proof.
  induction ops as [|op t IH]; intros r total Hb Ht Hl; [cbn; auto|].
  rewrite er_run_cons. pose proof (er_op_step op r Hb Ht) as Hstep.
  destruct (er_op op r) as [[vals r']| | |]; try contradiction; [|exists op; split; [left; reflexivity|tauto]].
  cbn [obind]. destruct Hstep as (Htl & (pre & Hpre) & Hst & Hrec).
  assert (Hb' : all_bytes (er_rest r') = true).
  { rewrite Hpre in Hb. unfold all_bytes in *. rewrite forallb_app in Hb. apply andb_prop in Hb. tauto. }
  assert (Hlen : zlen (er_rest r) = zlen pre + zlen (er_rest r')) by (rewrite Hpre at 1; apply zlen_app).
  pose proof (zlen_nonneg pre) as Hp. pose proof (zlen_nonneg (er_rest r')) as Hp'.
  specialize (IH r' total Hb' ltac:(congruence) ltac:(lia)).
  destruct (er_run t r' total) as [more| | |]; try contradiction; [|destruct IH as (op' & Hin & Hne); exists op'; split; [right; assumption|assumption]].
  cbn [obind]. destruct IH as [IHl IHs]. split; [cbn [length]; congruence|].
  cbn [script_ok]. split; [lia|]. split; [|assumption].
  intros He. rewrite (Hst He). split; reflexivity.
Qed.

Lemma er_run_never_blocks ops s tail :
  all_bytes s = true -> tail <> 0 ->
  match er_run ops (mkER s tail 0) (zlen s) with
  | Ok steps => length steps = length ops /\ script_ok (zlen s) 0 0 steps
  | Panic _ => exists op, In op ops /\ op <> 0 /\ op <> 1
  | _ => False
  end.
Proof.
  intros Hb Ht. pose proof (er_run_spec ops (mkER s tail 0) (zlen s) Hb Ht ltac:(cbn [er_rest]; lia)) as H.
  cbn [er_rest er_err] in H. rewrite Z.sub_diag in H. exact H.
Qed.
