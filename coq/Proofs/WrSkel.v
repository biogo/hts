(** Tie between bgzf/writer.go and the hand-written pipeline model: the
    channel skeleton that gen/emit_wr.go extracts from the Go source on every
    run (the Generated.bgzf_wr_skel definitions) must be the one Model/WriterConc.v was
    written from.  Any change to the order of channel operations, qwg.Add /
    Done / Wait, go statements, early returns or underlying writes in
    writer.go breaks [writer_skeleton_as_modelled] (a broken proof obligation
    of C01/C08/C12), also when the change happens to be harmless. *)
From Coq Require Import ZArith List Bool.
From Hts Require Import Generated.
Import ListNotations.

Definition expected_skeleton : list (list wr_ev) :=
  [ (* NewWriterLevel *)
    [WIf [WReturn] []; WLoop [WSend WWaiting]; WRecv WWaiting; WGAdd;
     WGo [WDefer [WGDone]; WRange WQueue [WRecv WFlush; WCall FWriteOK]]; WReturn];
    (* writeOK *)
    [WDefer [WSend WWaiting]; WDefer [WQDone]; WIf [WCall FSetErr; WReturn] []; WReadErr; WIf [WReturn] [];
     WIf [WReturn] []; WUnderlying; WIf [WCall FSetErr; WReturn] []; WReturn];
    (* writeBlock *)
    [WDefer [WSend WFlush]; WIf [WIf [WReturn] []] []; WIf [WReturn] []; WIf [WReturn] []; WIf [WReturn] []; WIf [WReturn] []];
    (* Write *)
    [WIf [WReturn] []; WReadErr; WIf [WReturn] [];
     WLoop [WIf [WSend WQueue; WQAdd; WGo [WCall FWriteBlock]; WRecv WWaiting] []; WReadErr]; WReadErr; WReturn];
    (* Flush *)
    [WIf [WReturn] []; WReadErr; WIf [WReturn] []; WIf [WReturn] []; WRecv WWaiting; WSend WQueue; WQAdd;
     WGo [WCall FWriteBlock]; WReadErr; WReturn];
    (* Wait *)
    [WReadErr; WIf [WReturn] []; WQWait; WReadErr; WReturn];
    (* Close *)
    [WIf [WSend WQueue; WQAdd; WRecv WWaiting; WCall FWriteBlock; WSetClosed; WClose WQueue; WGWait; WReadErr;
          WIf [WUnderlying] []] []; WReadErr; WReturn] ].

Lemma writer_skeleton_as_modelled :
  [bgzf_wr_skel_NewWriterLevel; bgzf_wr_skel_writeOK; bgzf_wr_skel_writeBlock; bgzf_wr_skel_Write;
   bgzf_wr_skel_Flush; bgzf_wr_skel_Wait; bgzf_wr_skel_Close] = expected_skeleton.
Proof. reflexivity. Qed.

(** Token conservation read off the generated skeleton: on every path through
    a function body, count the sends to a channel / the qwg operations. *)
Fixpoint count_ev (f : wr_ev -> bool) (fuel : nat) (l : list wr_ev) : nat :=
  match fuel with
  | O => O
  | S n =>
      match l with
      | [] => O
      | e :: r =>
          (if f e then 1 else 0)
          + match e with
            | WGo b | WDefer b | WLoop b | WRange _ b => count_ev f n b
            | WIf a b => count_ev f n a + count_ev f n b
            | _ => O
            end
          + count_ev f n r
      end
  end.

Definition is_send (c : wr_chan) (e : wr_ev) : bool :=
  match e, c with WSend WQueue, WQueue | WSend WWaiting, WWaiting | WSend WFlush, WFlush => true | _, _ => false end.
Definition is_ev (x : wr_ev) (e : wr_ev) : bool :=
  match x, e with WQAdd, WQAdd | WQDone, WQDone | WQWait, WQWait => true | _, _ => false end.

(** Every function that sends on bg.queue does exactly one qwg.Add per send;
    writeBlock and writeOK give their compressor back exactly once (deferred
    send); writeOK calls qwg.Done exactly once. *)
Lemma skeleton_token_counts :
  count_ev (is_send WQueue) 20 bgzf_wr_skel_Write = count_ev (is_ev WQAdd) 20 bgzf_wr_skel_Write
  /\ count_ev (is_send WQueue) 20 bgzf_wr_skel_Flush = count_ev (is_ev WQAdd) 20 bgzf_wr_skel_Flush
  /\ count_ev (is_send WQueue) 20 bgzf_wr_skel_Close = count_ev (is_ev WQAdd) 20 bgzf_wr_skel_Close
  /\ count_ev (is_send WFlush) 20 bgzf_wr_skel_writeBlock = 1%nat
  /\ count_ev (is_send WWaiting) 20 bgzf_wr_skel_writeOK = 1%nat
  /\ count_ev (is_ev WQDone) 20 bgzf_wr_skel_writeOK = 1%nat.
Proof. vm_compute. repeat split. Qed.
