(** The Gallina translation of csi.reg2bin that gen/ regenerates from
    csi/csi.go on every run ([csigen_reg2bin], a fuel recursion) equals the
    hand-written model [csi_reg2bin] of Model/Bins.v that the C16 theorems are
    stated about, for every input and every fuel above the depth. So those
    theorems are re-checked against the source text of the loop on every run,
    not only against its behaviour on the sampled cases.  (Proofs/CsiIdx.v
    does the same for [cs_reg2bin] of the index model.) *)
From Coq Require Import ZArith Lia.
From Hts Require Import Base.Prim Base.BinArith Generated Model.Bins.
Open Scope Z_scope.

Lemma csigen_loop_model :
  forall n k level beg e ms depth s t,
    level = Z.of_nat n -> level < 2 ^ 32 ->
    csigen_reg2bin_loop1 (S n + k) beg e ms depth s t level = reg2bin_loop n level beg e s t.
Proof.
  induction n as [|n IH]; intros k level beg e ms depth s t -> Hb; [reflexivity|].
  cbn [plus csigen_reg2bin_loop1 reg2bin_loop].
  replace (0 <? Z.of_nat (S n)) with true by (symmetry; apply Z.ltb_lt; lia).
  destruct (Z.shiftr beg s =? Z.shiftr e s); [reflexivity|].
  apply IH; rewrite u32_id; lia.
Qed.

Lemma csigen_reg2bin_is_model beg e ms depth k :
  0 <= depth < 2 ^ 32 ->
  csigen_reg2bin (S (Z.to_nat depth) + k) beg e ms depth = csi_reg2bin beg e ms depth.
Proof.
  intros Hd. unfold csigen_reg2bin, csi_reg2bin.
  rewrite csigen_loop_model by lia.
  unfold csi_t0, csi_nextBinShift.
  f_equal. unfold u32, wrapu. rewrite Z.mod_mod by lia. reflexivity.
Qed.
