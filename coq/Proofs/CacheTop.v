(** C14 — StatsRecorder, the operations that only read, and the witnesses of
    the FIFO counterexample under the documented protocol and of the race in
    Free. *)
From Coq Require Import ZArith List Bool Lia.
From Hts Require Import Base.Prim Model.Cache Proofs.Cache Proofs.Atomic.
Import ListNotations.
Open Scope Z_scope.

Section StatsProofs.
  Variables (W O : Type).
  Variable pi : O -> op.
  Variable step : W -> O -> W * out.

  Fixpoint st_run (w : W * stats) (os : list (sop O)) : (W * stats) * list out :=
    match os with
    | [] => (w, [])
    | o :: r => let '(w', x) := st_step W O pi step w o in
                let '(w'', xs) := st_run w' r in (w'', x :: xs)
    end.
  Fixpoint in_run (w : W) (os : list O) : W * list (op * out) :=
    match os with
    | [] => (w, [])
    | o :: r => let '(w', x) := step w o in
                let '(w'', xs) := in_run w' r in (w'', (pi o, x) :: xs)
    end.

  Definition cnt (f : op * out -> bool) (l : list (op * out)) : Z := zlen (filter f l).
  Definition is_get (p : op * out) := match p with (Get _, OGet _) => true | _ => false end.
  Definition is_miss (p : op * out) := match p with (Get _, OGet None) => true | _ => false end.
  Definition is_put (p : op * out) := match p with (Put _, OPut _ _) => true | _ => false end.
  Definition is_retain (p : op * out) := match p with (Put _, OPut _ true) => true | _ => false end.
  Definition is_evict (p : op * out) := match p with (Put _, OPut (Some _) true) => true | _ => false end.

  Definition tally (st : stats) (l : list (op * out)) : stats :=
    mkst (gets st + cnt is_get l) (misses st + cnt is_miss l) (nputs st + cnt is_put l)
         (retains st + cnt is_retain l) (evictions st + cnt is_evict l).

  Lemma cnt_cons f p l : cnt f (p :: l) = Z.b2z (f p) + cnt f l.
  Proof. unfold cnt, zlen. cbn [filter]. destruct (f p); cbn [length Z.b2z]; lia. Qed.

  Lemma stats_count_flags st o x :
    stats_count st o x =
    mkst (gets st + Z.b2z (is_get (o, x))) (misses st + Z.b2z (is_miss (o, x))) (nputs st + Z.b2z (is_put (o, x)))
         (retains st + Z.b2z (is_retain (o, x))) (evictions st + Z.b2z (is_evict (o, x))).
  Proof.
    destruct st, o; try (cbn; rewrite !Z.add_0_r; reflexivity).
    - destruct x as [[e|] [|]| | | | | | | |]; cbn; rewrite ?Z.add_0_r; reflexivity.
    - destruct x as [| [b|] | | | | | | |]; cbn; rewrite ?Z.add_0_r; reflexivity.
  Qed.

  Lemma tally_nil st : tally st [] = st.
  Proof. destruct st. unfold tally. cbn. rewrite !Z.add_0_r. reflexivity. Qed.

  Lemma tally_cons st o x l : tally st ((o, x) :: l) = tally (stats_count st o x) l.
  Proof. unfold tally. rewrite !cnt_cons, stats_count_flags, !Z.add_assoc. reflexivity. Qed.

  Lemma st_run_inner os : forall w st,
    st_run (w, st) (map SInner os) =
    let '(w', pairs) := in_run w os in ((w', tally st pairs), map snd pairs).
  Proof.
    induction os as [|o r IH]; intros w st; cbn.
    - rewrite tally_nil. reflexivity.
    - destruct (step w o) as [w1 x]. cbn. rewrite IH. destruct (in_run w1 r).
      rewrite tally_cons. reflexivity.
  Qed.

  Lemma stats_reset_gen w st : st_step W O pi step (w, st) SReset = ((w, stats0), OUnit).
  Proof. reflexivity. Qed.
  Lemma stats_read_gen w st :
    st_step W O pi step (w, st) SStats = ((w, st), OStats (gets st) (misses st) (nputs st) (retains st) (evictions st)).
  Proof. reflexivity. Qed.
End StatsProofs.

(** Len, Cap, Peek take the read lock *)
Definition op_is_read (o : op) : bool :=
  match o with Len | Cap | Peek _ => true | _ => false end.

Lemma lf_read_pure fifo w o : op_is_read o = true -> fst (lf_wstep fifo false w o) = w.
Proof.
  destruct w as [s c]. unfold lf_wstep, wstep. destruct o; simpl; try discriminate; auto.
  destruct (tget k (tab c)); auto.
Qed.

Lemma rnd_read_pure w o : op_is_read (rop_op o) = true -> fst (rnd_wstep w o) = w.
Proof.
  destruct w as [s c]. destruct o as [[o c1] c2]. unfold rnd_wstep, wstep, rop_op. simpl.
  destruct o; simpl; try discriminate; auto.
  destruct (tget k (rtab c)); auto.
Qed.

(** * FIFO under the documented protocol (Get hands the block to the client):
    put a used block, get it (it stays indexed), overwrite it with another
    member - Peek of the old base still answers, with the other member. *)
Definition fifo_strong_history : list op :=
  [Rebase 0%nat 0 true; Put 0%nat; Get 0; Rebase 0%nat 1 true; Peek 0].

(** The race in Free: capacity 1, one block held; goroutine 0 runs the five
    calls of Free(1), goroutine 1 puts a block after the Drop (an operation
    takes five steps of its thread: invoke, acquire, body, release, respond). *)
Definition free_race_w0 : store * lf :=
  fst (wrun lf op id_op (fun _ o => o) (lf_step false false) (store0, lf_empty 1)
         [Rebase 0%nat 0 true; Put 0%nat; Rebase 1%nat 1 true]).
Definition free_race_sched : list nat :=
  (repeat 0 15 ++ repeat 1 5 ++ repeat 0 10)%nat.
