(** C19: Seq.Read over a record whose bases sit in the file where its index
    entry says returns exactly the requested bases, for every buffer-size
    script; and the entries NewIndex builds for a well-formed file have that
    property. *)
From Coq Require Import ZArith Lia List Bool.
From Hts Require Import Base.Prim Base.WrList Generated Model.Fai Proofs.FaiBase Proofs.FaiIndex.
Open Scope Z_scope.

(** Byte offset of base [p] of a record: line [p / bases], column [p mod bases]. *)
Definition offset (e : frec) (p : Z) : Z :=
  r_start e + (p / r_bases e * r_bytes e + p mod r_bases e).

(** [layout file e seq]: the entry [e] addresses the bases [seq] in [file]:
    any k >= 1 bytes from base [p] on that stay inside its line are read
    completely and are the bases p .. p+k. *)
Definition layout (file : list Z) (e : frec) (seq : list Z) : Prop :=
  r_len e = zlen seq /\ 1 <= r_bases e <= r_bytes e /\
  forall (ch : bool) p k, 0 <= p -> 1 <= k -> p mod r_bases e + k <= r_bases e -> p + k <= r_len e ->
    exists err,
      read_at file ch (offset e p) k = (slice seq p (p + k), err) /\
      (err = NIL \/ err = EOF /\ ch = true /\ p + k = r_len e).

Lemma position_ok e p : 1 <= r_bases e -> 0 <= p -> position e p = Ok (offset e p).
Proof.
  intros HB Hp. unfold position, fai_Record_position, chk, offset.
  destruct (Z.eqb_spec (r_bases e) 0); [lia|]. cbn [negb].
  rewrite Z.quot_div_nonneg, Z.rem_mod_nonneg by lia. reflexivity.
Qed.

Lemma eol_ok e p : 1 <= r_bases e -> 0 <= p -> 0 <= r_len e ->
  eol_offset e p = Ok (if p / r_bases e =? r_len e / r_bases e then r_len e - p else r_bases e - p mod r_bases e).
Proof.
  intros HB Hp HL. unfold eol_offset, fai_Record_endOfLineOffset, chk.
  destruct (Z.eqb_spec (r_bases e) 0); [lia|]. cbn [negb].
  rewrite !Z.quot_div_nonneg, Z.rem_mod_nonneg by lia.
  destruct (p / r_bases e =? r_len e / r_bases e); reflexivity.
Qed.

Lemma line_col B p : 1 <= B -> 0 <= p -> 0 <= p / B /\ 0 <= p mod B < B /\ p = p / B * B + p mod B.
Proof.
  intros HB Hp. pose proof (Z.div_mod p B ltac:(lia)). pose proof (Z.mod_pos_bound p B ltac:(lia)).
  pose proof (Z.div_pos p B Hp ltac:(lia)). lia.
Qed.

(** The number of bytes one iteration asks for (before capping by the
    buffer): at least one, inside the current line, not beyond the end.
    Either [p] and [send] are on one line and it is [send - p], or it is the
    rest of the line of [p]. *)
Lemma chunk_bounds e p send :
  1 <= r_bases e <= r_bytes e -> 0 <= p < send -> send <= r_len e ->
  let q := Z.min (if p / r_bases e =? r_len e / r_bases e then r_len e - p else r_bases e - p mod r_bases e)
                 (offset e send - offset e p) in
  1 <= q /\ p mod r_bases e + q <= r_bases e /\ p + q <= send.
Proof.
  unfold offset. generalize (r_bases e) (r_bytes e) (r_len e). intros B Y L HB Hp HL.
  destruct (line_col B p) as (P1 & M1 & E1); try lia.
  destruct (line_col B send) as (_ & M2 & E2); try lia.
  destruct (line_col B L) as (_ & M3 & E3); try lia.
  pose proof (Z.div_le_mono p send B ltac:(lia) ltac:(lia)) as D1.
  pose proof (Z.div_le_mono send L B ltac:(lia) ltac:(lia)) as D2.
  revert P1 M1 E1 M2 E2 M3 E3 D1 D2.
  generalize (p / B) (p mod B) (send / B) (send mod B) (L / B) (L mod B).
  intros i j i2 j2 iL jL P1 M1 E1 M2 E2 M3 E3 D1 D2. cbv zeta.
  destruct (Z.eq_dec i i2) as [->|Hne].
  - destruct (Z.eqb_spec i2 iL); lia.
  - assert (Y <= (i2 - i) * Y) by nia. assert (B * (i + 1) <= B * i2) by nia.
    destruct (Z.eqb_spec i iL); lia.
Qed.

(** What the error of a Read with a buffer of [k] bytes and [rem] bases left
    can be: the ideal reader's, or io.EOF together with the last bytes when
    exactly [k] were left and the ReaderAt chose to report io.EOF with them. *)
Definition err_ok (ch : nat -> bool) (k rem err : Z) : Prop :=
  err = (if k =? 0 then NIL else if rem <? k then EOF else NIL) \/
  (err = EOF /\ 0 < k /\ rem = k /\ exists n, ch n = true).

Lemma err_ok_nil ch k rem : k = 0 \/ k <= rem -> err_ok ch k rem NIL.
Proof. intros H. left. destruct (Z.eqb_spec k 0); [reflexivity|]. destruct (Z.ltb_spec rem k); [lia|reflexivity]. Qed.

Lemma err_ok_eof ch k rem : 0 <= rem < k -> err_ok ch k rem EOF.
Proof. intros H. left. destruct (Z.eqb_spec k 0); [lia|]. destruct (Z.ltb_spec rem k); [reflexivity|lia]. Qed.

Lemma err_ok_more ch k blen rem err :
  1 <= k <= rem -> k < blen -> err_ok ch (blen - k) (rem - k) err -> err_ok ch blen rem err.
Proof.
  intros Hk Hb [->|(-> & H1 & H2 & H3)]; [left | right; repeat split; auto; lia].
  destruct (Z.eqb_spec (blen - k) 0), (Z.eqb_spec blen 0); try lia.
  destruct (Z.ltb_spec (rem - k) (blen - k)), (Z.ltb_spec rem blen); try reflexivity; lia.
Qed.

Lemma min_more k blen rem : 1 <= k <= rem -> k < blen -> k + Z.min (blen - k) (rem - k) = Z.min blen rem.
Proof. lia. Qed.

Lemma read_loop_ok file ch e seq : layout file e seq ->
  forall send, 0 <= send <= r_len e ->
  forall fuel c cur blen acc, 0 <= cur <= send -> 1 <= blen -> send - cur <= Z.of_nat fuel ->
  exists err c',
  read_loop file ch e (offset e send) send fuel c cur blen acc =
  Ok (acc ++ slice seq cur (cur + Z.min blen (send - cur)), cur + Z.min blen (send - cur), err, c')
  /\ err_ok ch blen (send - cur) err.
Proof.
  intros (HL & HB & Hread) send Hsend.
  assert (Hdone : forall c blen acc, 1 <= blen ->
            exists err c', (Ok (acc, send, EOF, c) : outcome (list Z * Z * Z * nat)) =
              Ok (acc ++ slice seq send (send + Z.min blen (send - send)), send + Z.min blen (send - send), err, c')
              /\ err_ok ch blen (send - send) err).
  { intros c blen acc Hb. exists EOF, c. rewrite Z.sub_diag, Z.min_r, Z.add_0_r, slice_nil_eq, app_nil_r by lia.
    split; [reflexivity|]. apply err_ok_eof. lia. }
  induction fuel as [|fuel IH]; intros c cur blen acc Hcur Hblen Hfuel; cbn [read_loop];
    (destruct (Z.ltb_spec cur send) as [Hlt|Hge];
      [|assert (cur = send) by lia; subst cur; apply Hdone; assumption]); [lia|].
  rewrite !position_ok, eol_ok by lia. cbn [obind].
  destruct (chunk_bounds e cur send HB ltac:(lia) ltac:(lia)) as (Hq1 & Hq2 & Hq3).
  set (q := Z.min _ _) in *. clearbody q.
  (* [k] bases are read: the chunk, or what is left of the buffer *)
  set (k := Z.min q blen). assert (Hk : 1 <= k <= q) by lia. assert (Hkb : k = blen \/ k = q /\ k < blen) by lia.
  clearbody k. destruct (Z.ltb_spec k 0); [lia|].
  destruct (Hread (ch c) cur k) as (err0 & -> & Herr0); try lia.
  rewrite zlen_slice by lia. replace (cur + k - cur) with k by lia.
  destruct Herr0 as [->|(-> & Hch & Hlast)].
  - (* not at the end of the source, or the ReaderAt says nil *)
    change (NIL =? NIL) with true. cbn [negb orb].
    destruct Hkb as [->|[-> Hkb]].
    + rewrite Z.sub_diag, Z.eqb_refl, (Z.min_l blen (send - cur)) by lia.
      exists NIL, (S c). split; [reflexivity|]. apply err_ok_nil. lia.
    + destruct (Z.eqb_spec (blen - q) 0); [lia|]. destruct (Z.eqb_spec q 0); [lia|].
      destruct (IH (S c) (cur + q) (blen - q) (acc ++ slice seq cur (cur + q))) as (err & c' & -> & He); try lia.
      exists err, c'. rewrite <- app_assoc, slice_app_mid by lia.
      replace (send - (cur + q)) with (send - cur - q) in * by lia.
      rewrite <- Z.add_assoc, min_more by lia. split; [reflexivity|]. apply (err_ok_more ch q); auto; lia.
  - (* io.EOF with the last bytes of the source: the last bases of the record *)
    change (EOF =? NIL) with false. cbn [negb orb].
    assert (send = cur + k) by lia. exists EOF, (S c).
    rewrite (Z.min_r blen (send - cur)) by lia. replace (cur + (send - cur)) with (cur + k) by lia.
    split; [reflexivity|]. destruct Hkb as [->|[-> Hkb]].
    + right. repeat split; try lia. exists c. assumption.
    + apply err_ok_eof. lia.
Qed.

Lemma seq_read_ok file ch e seq : layout file e seq ->
  forall s send c cur blen, 0 <= cur <= send -> send <= r_len e -> 0 <= blen ->
  exists err c',
  seq_read file ch c (mkSeq e cur s send) blen =
  (Ok (slice seq cur (cur + Z.min blen (send - cur)), err),
   mkSeq e (cur + Z.min blen (send - cur)) s send, c')
  /\ err_ok ch blen (send - cur) err.
Proof.
  intros Hlay s send c cur blen Hcur Hsend Hblen.
  pose proof Hlay as (HL & HB & _).
  unfold seq_read. cbn [q_rec q_cur q_start q_end].
  destruct (Z.eqb_spec blen 0) as [->|Hnz].
  - exists NIL, c. rewrite Z.min_l, Z.add_0_r, slice_nil_eq by lia. split; [reflexivity|apply err_ok_nil; auto].
  - destruct (Z.leb_spec send cur).
    + assert (cur = send) by lia. subst cur. exists EOF, c.
      rewrite Z.sub_diag, Z.min_r, Z.add_0_r, slice_nil_eq by lia. split; [reflexivity|]. apply err_ok_eof. lia.
    + rewrite position_ok by lia.
      destruct (read_loop_ok file ch e seq Hlay send ltac:(lia) (Z.to_nat (send - cur)) c cur blen [])
        as (err & c' & -> & He); try lia.
      exists err, c'. split; [reflexivity|assumption].
Qed.

(** A whole script over a record with [layout]: its results satisfy the
    io.Reader contract over the requested bases whatever the ReaderAt chooses,
    and are exactly the ideal reader's when it never chooses io.EOF together
    with the last bytes. *)
Lemma seq_script_ok file ch e seq : layout file e seq ->
  forall s send, 0 <= s <= send -> send <= r_len e ->
  forall sizes c cur, s <= cur <= send ->
  conforms (slice seq s send) (slice seq cur send) sizes (seq_script file ch c (mkSeq e cur s send) sizes) = true
  /\ ((forall n, ch n = false) ->
      seq_script file ch c (mkSeq e cur s send) sizes = ideal_script (slice seq s send) (slice seq cur send) sizes).
Proof.
  intros Hlay s send Hs Hsend. pose proof Hlay as (HL & _).
  induction sizes as [|k t IH]; intros c cur Hcur; [split; reflexivity|].
  cbn [seq_script ideal_script conforms].
  destruct (Z.ltb_spec k 0); [apply IH; lia|].
  destruct (seq_read_ok file ch e seq Hlay s send c cur k) as (err & c' & -> & He); try lia.
  destruct (IH c' (cur + Z.min k (send - cur)) ltac:(lia)) as [IHc IHe].
  destruct (Z.eqb_spec k 0) as [->|Hk].
  - rewrite Z.min_l, Z.add_0_r in * by lia. rewrite slice_nil_eq.
    destruct He as [->|(_ & Hx & _)]; [|lia]. split; [exact IHc|]. intros Hlazy. f_equal. auto.
  - rewrite firstn_slice, skipn_slice, zlen_slice, bytes_eqb_refl, IHc by lia. cbn [andb]. rewrite andb_true_r.
    destruct He as [->|(-> & _ & Hrem & n & Hn)].
    + destruct (Z.eqb_spec k 0); [lia|]. rewrite Z.eqb_refl. split; [reflexivity|]. intros Hlazy. f_equal. auto.
    + rewrite Hrem, (Z.eqb_refl k), orb_true_r. split; [reflexivity|]. intros Hlazy. rewrite Hlazy in Hn. discriminate.
Qed.

(** Line i (0-based) of a body made of full lines of w bases, each followed
    by a terminator, and a last line. *)
Lemma body_read full : forall (i j k : Z) (last tail : list Z) (crlf : bool) (w : Z),
  Forall (fun l => zlen l = w) full -> 0 <= i -> 0 <= j -> 1 <= k ->
  (i < zlen full /\ j + k <= w \/ i = zlen full /\ j + k <= zlen last) ->
  firstn (Z.to_nat k) (skipn (Z.to_nat (i * (w + zlen (term crlf)) + j))
                             (concat (map (fun l => l ++ term crlf) full) ++ last ++ tail))
  = firstn (Z.to_nat k) (skipn (Z.to_nat (i * w + j)) (concat full ++ last)).
Proof.
  induction full as [|l full IH]; intros i j k last tail crlf w Hw Hi Hj Hk Hline.
  - rewrite zlen_nil in Hline. destruct Hline as [[Hx _]|[-> Hjk]]; [lia|].
    cbn [map concat app]. rewrite !Z.mul_0_l, !Z.add_0_l.
    apply firstn_skipn_app. unfold zlen in Hjk. lia.
  - inversion Hw as [|? ? Hl Hw']; subst. rewrite zlen_cons in Hline.
    pose proof (zlen_nonneg l) as Hl0. pose proof (term_zlen_pos crlf) as Ht.
    cbn [map concat]. rewrite <- !app_assoc.
    destruct (Z.eq_dec i 0) as [->|Hne].
    + destruct Hline as [[_ Hjk]|[Hx _]]; [|pose proof (zlen_nonneg full); lia].
      rewrite !Z.mul_0_l, !Z.add_0_l.
      rewrite !firstn_skipn_app by (unfold zlen in Hjk; lia). reflexivity.
    + (* skip the first line on both sides *)
      assert (0 <= (i - 1) * zlen l /\ 0 <= (i - 1) * (zlen l + zlen (term crlf)))
        by (split; apply Z.mul_nonneg_nonneg; lia).
      replace (i * (zlen l + zlen (term crlf)) + j)
        with (zlen (l ++ term crlf) + ((i - 1) * (zlen l + zlen (term crlf)) + j)) by (rewrite zlen_app'; ring).
      replace (i * zlen l + j) with (zlen l + ((i - 1) * zlen l + j)) by ring.
      rewrite (Z2Nat.inj_add (zlen (l ++ term crlf))), (Z2Nat.inj_add (zlen l)), <- !skipn_add
        by (auto using zlen_nonneg; lia).
      rewrite (app_assoc l (term crlf)), !skipn_zlen_app.
      apply IH; try assumption; lia.
Qed.

Lemma read_at_pre (pre B : list Z) (ch : bool) (x k : Z) :
  0 <= x -> 1 <= k -> zlen (firstn (Z.to_nat k) (skipn (Z.to_nat x) B)) = k ->
  exists err,
    read_at (pre ++ B) ch (zlen pre + x) k = (firstn (Z.to_nat k) (skipn (Z.to_nat x) B), err) /\
    (err = NIL \/ err = EOF /\ ch = true /\ x + k = zlen B).
Proof.
  intros Hx Hk Hlen. unfold read_at. pose proof (zlen_nonneg pre).
  destruct (Z.ltb_spec (zlen pre + x) 0); [lia|].
  assert (Hxl : x < zlen B).
  { unfold zlen in *. rewrite firstn_length, skipn_length in Hlen. lia. }
  rewrite zlen_app'. destruct (Z.leb_spec (zlen pre + zlen B) (zlen pre + x)); [lia|].
  rewrite Z2Nat.inj_add, <- skipn_add, skipn_zlen_app by lia.
  rewrite Hlen. rewrite Z.ltb_irrefl.
  destruct (Z.eqb_spec (zlen pre + x + k) (zlen pre + zlen B)); destruct ch; cbn [andb];
    eexists; (split; [reflexivity|]); try (left; reflexivity).
  right. repeat split; try reflexivity. lia.
Qed.

(** Full lines of [w] bases with their terminators, then a last line,
    addressed by an entry whose line length in bytes is that of a full line
    (any length not below [w] when there is no full line). *)
Lemma layout_lines pre full last tail crlf name w Y :
  Forall (fun l => zlen l = w) full -> 1 <= zlen last <= w -> w <= Y ->
  (full <> [] -> Y = w + zlen (term crlf)) ->
  layout (pre ++ concat (map (fun l => l ++ term crlf) full) ++ last ++ tail)
         (mkRec name (zlen (concat full ++ last)) (zlen pre) w Y) (concat full ++ last).
Proof.
  intros Hw Hl HY HYt. pose proof (zlen_concat_full _ _ Hw) as Hcf. pose proof (term_zlen_pos crlf) as Ht.
  unfold layout, offset. cbn [r_len r_start r_bases r_bytes].
  split; [reflexivity|]. split; [lia|].
  intros ch p k Hp Hk Hjk Hend. rewrite zlen_app', Hcf in Hend.
  destruct (line_col w p) as (Hi & Hj & Ep); try lia.
  set (i := p / w) in *. set (j := p mod w) in *. clearbody i j.
  (* the line of [p]: a full line, or the last *)
  assert (Hline : i < zlen full /\ j + k <= w \/ i = zlen full /\ j + k <= zlen last).
  { destruct (Z.lt_ge_cases i (zlen full)); [left; lia|right].
    assert (i = zlen full) by nia. split; lia. }
  assert (Hoff : i * Y + j = i * (w + zlen (term crlf)) + j).
  { destruct full as [|l0 fl]; [|rewrite HYt by discriminate; reflexivity].
    rewrite zlen_nil in Hline. assert (i = 0) by lia. subst i. lia. }
  assert (Hbody := body_read full i j k last tail crlf w Hw Hi (proj1 Hj) Hk Hline).
  rewrite <- Ep in Hbody.
  replace (firstn _ (skipn (Z.to_nat p) (concat full ++ last))) with (slice (concat full ++ last) p (p + k)) in Hbody
    by (unfold slice; do 2 f_equal; lia).
  destruct (read_at_pre pre (concat (map (fun l => l ++ term crlf) full) ++ last ++ tail) ch (i * Y + j) k)
    as (err & Hrd & Herr); [nia | assumption | |].
  - rewrite Hoff, Hbody. rewrite zlen_slice; [lia|lia|]. rewrite zlen_app', Hcf. lia.
  - exists err. rewrite Hrd, Hoff, Hbody. split; [reflexivity|].
    destruct Herr as [->|(-> & Hch & Hendf)]; [left; reflexivity|right].
    repeat split; try assumption.
    (* the chunk ends at the end of the file: it ends at the last base *)
    rewrite zlen_app', Hcf.
    rewrite !zlen_app', (zlen_concat_term w full crlf Hw), Hoff in Hendf.
    pose proof (zlen_nonneg tail) as Htail0.
    destruct Hline as [[Hlt Hjk']|[-> Hjk']]; [exfalso; nia|lia].
Qed.

Lemma layout_rec nl r pre post : wf_rec nl r = true -> is_empty r = false ->
  layout (pre ++ render_rec nl r ++ post) (entry nl (zlen pre) r) (bases r).
Proof.
  intros Hwf He. destruct (wf_rec_parts _ _ Hwf He) as (_ & _ & _ & Hf & Hl & _).
  pose proof (term_zlen_pos (s_crlf r)).
  unfold entry, render_rec, render_body, bases. rewrite He, <- !app_assoc, (app_assoc pre), <- zlen_app'.
  apply layout_lines; auto using (full_widths (width r)).
  - unfold tlen. destruct (s_full r); [destruct nl|]; lia.
  - unfold tlen. destruct (s_full r); [congruence|reflexivity].
Qed.

Lemma render_recs_split fin rs1 r rs2 :
  render_recs fin (rs1 ++ r :: rs2) =
  render_recs true rs1 ++ render_rec (match rs2 with [] => fin | _ => true end) r ++ render_recs fin rs2.
Proof.
  induction rs1 as [|x rs1 IH].
  - cbn [app render_recs]. apply render_recs_cons.
  - cbn [app]. rewrite (render_recs_cons fin x), (render_recs_cons true x), IH.
    rewrite <- app_assoc.
    replace (match rs1 ++ r :: rs2 with [] => fin | _ :: _ => true end) with true by (destruct rs1; reflexivity).
    replace (match rs1 with [] => true | _ :: _ => true end) with true by (destruct rs1; reflexivity).
    reflexivity.
Qed.

Lemma entries_split fin rs1 r rs2 : forall off,
  entries fin off (rs1 ++ r :: rs2) =
  entries true off rs1 ++
  entry (match rs2 with [] => fin | _ => true end) (off + zlen (render_recs true rs1)) r
  :: entries fin (off + zlen (render_recs true rs1) + zlen (render_rec true r)) rs2.
Proof.
  induction rs1 as [|x rs1 IH]; intros off.
  - cbn [app entries render_recs]. rewrite zlen_nil, Z.add_0_r. apply entries_cons.
  - cbn [app]. rewrite (entries_cons fin off x), (entries_cons true off x), IH.
    rewrite (render_recs_cons true x), zlen_app'.
    replace (match rs1 ++ r :: rs2 with [] => fin | _ :: _ => true end) with true by (destruct rs1; reflexivity).
    replace (match rs1 with [] => true | _ :: _ => true end) with true by (destruct rs1; reflexivity).
    cbn [app]. rewrite !Z.add_assoc. reflexivity.
Qed.

Lemma wf_recs_split fin rs1 r rs2 :
  wf_recs fin (rs1 ++ r :: rs2) = true -> wf_rec (match rs2 with [] => fin | _ => true end) r = true.
Proof.
  induction rs1 as [|x rs1 IH]; cbn [app]; rewrite wf_recs_cons; intros H; apply andb_true_iff in H as [H1 H2].
  - assumption.
  - apply IH. assumption.
Qed.

Lemma entries_fresh rs1 r rs2 : forall off,
  nodup_names (rs1 ++ r :: rs2) = true -> has_name (s_name r) (entries true off rs1) = false.
Proof.
  induction rs1 as [|x rs1 IH]; intros off H; [reflexivity|].
  cbn [app] in H. destruct (nodup_names_cons _ _ H) as [Hdiff Hnd].
  rewrite entries_cons, has_name_cons. rewrite entry_name.
  rewrite bytes_eqb_sym, (Hdiff r) by (apply in_or_app; right; left; reflexivity).
  apply IH. assumption.
Qed.

Theorem record_layout f rs1 r rs2 :
  wf f = true -> f_recs f = rs1 ++ r :: rs2 ->
  let nl := match rs2 with [] => f_final_nl f | _ => true end in
  let e := entry nl (zlen (blanks (f_lead f) ++ render_recs true rs1)) r in
  lookup (s_name r) (index_of f) = Some e /\ (is_empty r = false -> layout (render f) e (bases r)).
Proof.
  intros Hwf Hsplit nl e. unfold wf in Hwf. bprop.
  rewrite Hsplit in *.
  split.
  - unfold index_of. rewrite Hsplit, entries_split.
    rewrite lookup_app_fresh by (eapply entries_fresh; eassumption).
    subst e. rewrite zlen_app'. apply lookup_hit. apply entry_name.
  - intros He. unfold render. rewrite Hsplit, render_recs_split. fold nl.
    rewrite app_assoc. subst e.
    apply layout_rec; [eapply wf_recs_split; eassumption|assumption].
Qed.

Lemma empty_bases r : is_empty r = true -> bases r = [].
Proof.
  unfold is_empty, bases. intros H. apply andb_true_iff in H as [H1 H2].
  apply is_nil_true in H1, H2. rewrite H1, H2. reflexivity.
Qed.

Lemma entry_len nl off r : r_len (entry nl off r) = zlen (bases r).
Proof.
  unfold entry. destruct (is_empty r) eqn:He; [|reflexivity].
  rewrite (empty_bases r He). reflexivity.
Qed.

(** A Seq over no bases (of any record, whatever its layout fields) is the
    ideal reader over the empty string: never a division by zero, no ReadAt. *)
Lemma read_zero_length file ch c e sizes :
  seq_script file ch c (mkSeq e 0 0 0) sizes = ideal_script [] [] sizes.
Proof.
  induction sizes as [|k t IH]; [reflexivity|].
  cbn [seq_script ideal_script]. destruct (Z.ltb_spec k 0).
  - exact IH.
  - unfold seq_read. cbn [q_end q_cur]. destruct (Z.eqb_spec k 0).
    + f_equal. exact IH.
    + change (0 <=? 0) with true. cbv iota.
      destruct (Z.ltb_spec (zlen (@nil Z)) k) as [_|Hx]; [|rewrite zlen_nil in Hx; lia].
      destruct (Z.to_nat k); cbn [firstn skipn]; f_equal; exact IH.
Qed.

Lemma ideal_conforms data : forall sizes rest, conforms data rest sizes (ideal_script data rest sizes) = true.
Proof.
  induction sizes as [|k t IH]; intros rest; [reflexivity|].
  cbn [conforms ideal_script]. destruct (k <? 0); [apply IH|].
  destruct (k =? 0) eqn:Ek.
  - cbn [is_nil andb]. change (NIL =? NIL) with true. apply IH.
  - rewrite bytes_eqb_refl, Z.eqb_refl, IH. reflexivity.
Qed.

(** Every record of a well-formed file, every range and every script, over
    EVERY ReaderAt that keeps the io.ReaderAt contract ([ch]: its choice, call
    by call, between nil and io.EOF when the bytes asked for end at the end of
    the file): the results of a Seq positioned on bases s..e of the record's
    entry satisfy the io.Reader contract over these bases, and they are exactly
    the ideal reader's when the ReaderAt never reports io.EOF together with the
    last bytes.  A record without sequence has s = e = 0 and is never read. *)
Lemma read_record f rs1 r rs2 s e sizes ch c :
  wf f = true -> f_recs f = rs1 ++ r :: rs2 -> 0 <= s <= e -> e <= zlen (bases r) ->
  exists en, lookup (s_name r) (index_of f) = Some en /\ r_len en = zlen (bases r) /\
    conforms (slice (bases r) s e) (slice (bases r) s e) sizes (seq_script (render f) ch c (mkSeq en s s e) sizes) = true /\
    ((forall n, ch n = false) ->
     seq_script (render f) ch c (mkSeq en s s e) sizes = ideal_script (slice (bases r) s e) (slice (bases r) s e) sizes).
Proof.
  intros Hwf Hsplit Hse He.
  destruct (record_layout f rs1 r rs2 Hwf Hsplit) as [Hlook Hlay]. cbv zeta in *.
  set (en := entry _ _ r) in *. exists en. split; [exact Hlook|].
  assert (Hlen : r_len en = zlen (bases r)) by apply entry_len. split; [exact Hlen|].
  destruct (is_empty r) eqn:Hemp.
  - rewrite (empty_bases r Hemp) in *. rewrite zlen_nil in He.
    assert (s = 0) by lia. assert (e = 0) by lia. subst s e.
    rewrite slice_nil_eq, read_zero_length. split; [apply ideal_conforms|reflexivity].
  - apply (seq_script_ok _ ch _ _ (Hlay eq_refl)); lia.
Qed.

Lemma conforms_drain data : forall sizes rest rs,
  conforms data rest sizes rs = true ->
  Forall (fun k => 1 <= k) sizes -> zlen rest < fold_right Z.add 0 sizes ->
  drain rs = Some rest.
Proof.
  induction sizes as [|k t IH]; intros rest rs Hc Hpos Hsum.
  - cbn in Hsum. pose proof (zlen_nonneg rest). lia.
  - inversion Hpos as [|? ? Hk Ht]; subst. cbn [fold_right] in Hsum.
    cbn [conforms] in Hc. destruct (Z.ltb_spec k 0); [lia|].
    destruct rs as [|[[d e']| | |] rs']; try discriminate.
    destruct (Z.eqb_spec k 0); [lia|].
    apply andb_true_iff in Hc as [Hc Hrest]. apply andb_true_iff in Hc as [Hd Herr].
    apply bytes_eqb_eq in Hd. subst d. cbn [drain].
    assert (Hall : zlen rest <= k -> firstn (Z.to_nat k) rest = rest).
    { intros Hle. apply firstn_all2. unfold zlen in *. lia. }
    apply orb_true_iff in Herr as [Herr|Herr].
    + apply Z.eqb_eq in Herr. subst e'. destruct (Z.ltb_spec (zlen rest) k).
      * change (EOF =? EOF) with true. cbv iota. f_equal. apply Hall. lia.
      * change (NIL =? EOF) with false. cbv iota.
        rewrite (IH (skipn (Z.to_nat k) rest) rs' Hrest Ht).
        -- rewrite firstn_skipn. reflexivity.
        -- unfold zlen in *. rewrite skipn_length. lia.
    + apply andb_true_iff in Herr as [He1 He2]. apply Z.eqb_eq in He1, He2. subst e'.
      change (EOF =? EOF) with true. cbv iota. f_equal. apply Hall. lia.
Qed.

(** Regression witness: without advancing the offset over blank lines the
    index of a well-formed file is wrong. *)
Definition blank_witness : fasta :=
  mkF [] [mkS [97] [] [[65; 67; 71; 84]] [65; 67] false [false];
          mkS [98] [] [[71; 71; 71; 71]] [84; 84] false []] true.
