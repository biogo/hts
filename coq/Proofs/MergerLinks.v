(** C18 — the abstract link table of Model/Merger.v instantiated with what
    sam.MergeHeaders returns in the header model of C07 (Model/Header.v,
    Proofs/HeaderMerge.v, [merge_headers_spec]): every returned record's
    reference and mate reference belong to the merged header and carry the
    name (and length) they had in the source header. *)
From Coq Require Import ZArith List Bool Lia Permutation.
From Hts Require Import Base.Prim Model.Header Proofs.HeaderMerge.
From Hts Require Import Model.Merger Proofs.Merger Proofs.MergerTop Proofs.MergerFinal.
Import ListNotations.
Open Scope Z_scope.

(** Reference.ID() of the reference object behind a handle of the header world *)
Definition id_of (w' : world) (y : nat) : Z :=
  match nth_error (w_r w') y with Some o => o_id o | None => -1 end.

(** m.refLinks, as the merger uses it: the ids of the linked references *)
Definition links_of (w' : world) (hl : list (list nat)) : list (list Z) := map (map (id_of w')) hl.

(** reference id [a] of the source header [hs] (world [w]) has become id [b]:
    [b] is the id of a reference that the merged header [hm] (world [w']) owns
    and lists at that id, with the source reference's name and length; a nil
    reference stays nil *)
Definition ref_belongs (w w' : world) (hm : nat) (hs : hdr) (a b : Z) : Prop :=
  if a <? 0 then b = a else
  exists x o y oy hd,
    nth_error (t_items (h_R hs)) (Z.to_nat a) = Some x /\ nth_error (w_r w) x = Some o /\
    nth_error (w_r w') y = Some oy /\ o_owner oy = Some hm /\ nth_error (w_h w') hm = Some hd /\
    b = o_id oy /\ 0 <= b /\ nth_error (t_items (h_R hd)) (Z.to_nat b) = Some y /\
    o_name oy = o_name o /\ rp_len (o_pay oy) = rp_len (o_pay o).

(** the records of an input refer to references of its own header (what
    bam.Reader guarantees: it rejects ids out of range) *)
Definition rec_in_range (n : nat) (r : rec) : Prop := r_ref r < Z.of_nat n /\ r_mref r < Z.of_nat n.
Definition input_fits (w : world) (s : nat) (inp : input) : Prop :=
  exists hs, nth_error (w_h w) s = Some hs /\
             Forall (rec_in_range (length (t_items (h_R hs)))) (i_recs inp).
Definition inputs_fit (w : world) (srcs : list nat) (ins : list input) : Prop :=
  Forall2 (input_fits w) srcs ins.

Lemma Forall2_nth_l : forall (A B : Type) (R : A -> B -> Prop) l l' n x,
    Forall2 R l l' -> nth_error l n = Some x -> exists y, nth_error l' n = Some y /\ R x y.
Proof.
  intros A B R l l' n x F. revert n. induction F; intros [| n] Hn; simpl in *; try discriminate; eauto.
  inversion Hn; subst. eauto.
Qed.

Lemma Forall2_nth_r : forall (A B : Type) (R : A -> B -> Prop) l l' n y,
    Forall2 R l l' -> nth_error l' n = Some y -> exists x, nth_error l n = Some x /\ R x y.
Proof.
  intros A B R l l' n y F. revert n. induction F; intros [| n] Hn; simpl in *; try discriminate; eauto.
  inversion Hn; subst. eauto.
Qed.

Section Links.
  Variables w w' : world.
  Variable hm : nat.
  Variable srcs : list nat.
  Variable hl : list (list nat).
  Hypothesis HL : Forall2 (links_good w w' hm) srcs hl.

  Lemma relink1_good : forall j s hs a,
      nth_error srcs j = Some s -> nth_error (w_h w) s = Some hs ->
      a < Z.of_nat (length (t_items (h_R hs))) ->
      exists b, relink1 (links_of w' hl) (Z.of_nat j) a = Ok b /\ ref_belongs w w' hm hs a b.
  Proof.
    intros j s hs a Hj Hs Ha. unfold relink1, ref_belongs.
    destruct (Z.ltb_spec a 0) as [Hneg | Hpos]; [eauto |].
    destruct (Forall2_nth_l _ _ _ _ _ _ _ HL Hj) as [ys [Hys [hs' [Hs' F]]]].
    rewrite Hs in Hs'. inversion Hs'; subst hs'. clear Hs'.
    assert (Hx : exists x, nth_error (t_items (h_R hs)) (Z.to_nat a) = Some x).
    { destruct (nth_error (t_items (h_R hs)) (Z.to_nat a)) eqn:E; [eauto |].
      apply nth_error_None in E. lia. }
    destruct Hx as [x Hx].
    destruct (Forall2_nth_l _ _ _ _ _ _ _ F Hx) as [y [Hy G]].
    destruct G as (o & oy & hd & Ho & Hoy & Hown & Hhd & Hid & Hlist & Hname & Hlen).
    exists (o_id oy). split.
    - unfold link_of, links_of. rewrite Nat2Z.id, nth_error_map, Hys. simpl.
      rewrite nth_error_map, Hy. simpl. unfold id_of. rewrite Hoy. reflexivity.
    - exists x, o, y, oy, hd. repeat split; auto.
  Qed.

  Lemma fit_ins_ok : forall srcs' ins' j,
      (forall k s, nth_error srcs' k = Some s -> nth_error srcs (j + k) = Some s) ->
      Forall2 (input_fits w) srcs' ins' ->
      ins_ok (Some (links_of w' hl)) (Z.of_nat j) ins'.
  Proof.
    intros srcs' ins' j Hsub F. revert j Hsub. induction F as [| s inp srcs' ins' Hfit F IH]; intros j Hsub; simpl.
    - exact I.
    - split.
      + destruct Hfit as [hs [Hs Hr]]. eapply Forall_impl; [| exact Hr]. intros r [H1 H2].
        specialize (Hsub O s eq_refl). rewrite Nat.add_0_r in Hsub.
        destruct (relink1_good j s hs _ Hsub Hs H1) as [a [Ha _]].
        destruct (relink1_good j s hs _ Hsub Hs H2) as [b [Hb _]].
        eexists. apply reassign_some. eauto.
      + replace (Z.of_nat j + 1) with (Z.of_nat (S j)) by lia. apply IH.
        intros k s' Hk. specialize (Hsub (S k) s' Hk). now rewrite <- plus_n_Sm in Hsub.
  Qed.

  Lemma relinked_records : forall lessf ins,
      inputs_fit w srcs ins ->
      exists outs e mf,
        run_merge goheap (Some (links_of w' hl)) lessf ins = Ok (outs, e, mf) /\
        forall i r, In (i, r) outs ->
          exists j s hs inp r0,
            i = Z.of_nat j /\ nth_error srcs j = Some s /\ nth_error (w_h w) s = Some hs /\
            nth_error ins j = Some inp /\ In r0 (i_recs inp) /\
            r_uid r = r_uid r0 /\ r_name r = r_name r0 /\ r_pos r = r_pos r0 /\ r_key r = r_key r0 /\
            ref_belongs w w' hm hs (r_ref r0) (r_ref r) /\
            ref_belongs w w' hm hs (r_mref r0) (r_mref r).
  Proof.
    intros lessf ins Hfit.
    assert (Hok : ins_ok (Some (links_of w' hl)) 0 ins).
    { apply (fit_ins_ok srcs ins O); [intros k s Hk; exact Hk | exact Hfit]. }
    destruct (goheap_run _ lessf ins Hok) as (outs & e & mf & Hrun & Hres & _).
    exists outs, e, mf. split; [exact Hrun |]. intros i r Hin.
    destruct (result_relinked _ _ _ _ Hok Hres i r Hin) as (j & inp & r0 & -> & Hinp & Hr0 & Hre).
    destruct (Forall2_nth_r _ _ _ _ _ _ _ Hfit Hinp) as [s [Hs [hs [Hhs Hrange]]]].
    rewrite Forall_forall in Hrange. destruct (Hrange r0 Hr0) as [R1 R2].
    apply reassign_some in Hre. destruct Hre as (a & b & Ha & Hb & ->).
    destruct (relink1_good j s hs _ Hs Hhs R1) as [a' [Ha' Ba]].
    destruct (relink1_good j s hs _ Hs Hhs R2) as [b' [Hb' Bb]].
    rewrite Ha in Ha'. rewrite Hb in Hb'. inversion Ha'; inversion Hb'; subst a' b'.
    exists j, s, hs, inp, r0. simpl. repeat split; auto.
  Qed.
End Links.
