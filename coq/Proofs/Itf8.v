(** ITF-8 (C20): the generated Len, Encode and Decode of
    cram/encoding/itf8 against the specification codec of Model/Itf8Spec.v. *)
From Coq Require Import ZArith Lia List Bool.
From Hts Require Import Base.Prim Base.Bits Generated Model.Itf8Spec Proofs.Varint.
Open Scope Z_scope.

Definition int32 (v : Z) : Prop := - 2^31 <= v < 2^31.
Definition int64 (v : Z) : Prop := - 2^63 <= v < 2^63.

Lemma getz_explicit_app pre tl i : 0 <= i < zlen pre -> getz (pre ++ tl) i = getz pre i.
Proof. apply getz_app. Qed.

Lemma s32_u32 v : int32 v -> s32 (v mod 2^32) = v.
Proof. exact (wraps_wrapu 32 v eq_refl). Qed.

Lemma itf8_spec_len_range u : 1 <= itf8_spec_len u <= 5.
Proof. unfold itf8_spec_len. repeat (apply if_ltb_elim; intros _; [easy|]). easy. Qed.

Lemma itf8_Len_spec v : itf8_Len v = Ok (itf8_spec_len (v mod 2^32)).
Proof. unfold itf8_Len. cbv zeta. rewrite !if_Ok. reflexivity. Qed.

(** The bytes Encode writes: the specified encoding, except that the fifth
    byte of the long form carries u mod 256 (only its low nibble is significant). *)
Definition itf8_wire (v : Z) : list Z :=
  let u := v mod 2^32 in
  if u <? 2^28 then itf8_spec_encode v
  else [240 + u / 2^28; (u / 2^20) mod 256; (u / 2^12) mod 256; (u / 2^4) mod 256; u mod 256].

Lemma itf8_top_nibble u : 0 <= u < 2^32 -> 0 <= u / 2^28 < 16.
Proof. intros Hu. split; [apply Z.div_pos|apply Z.div_lt_upper_bound]; lia. Qed.

Lemma itf8_Encode_any v buf :
  itf8_Encode buf v =
    if zlen buf <? itf8_spec_len (v mod 2^32) then Panic 1
    else Ok (itf8_spec_len (v mod 2^32), itf8_wire v ++ skipn (Z.to_nat (itf8_spec_len (v mod 2^32))) buf).
Proof.
  unfold itf8_wire, itf8_spec_encode. cbv beta delta [itf8_Encode]. open_outer_let.
  cbv beta delta [u32 wrapu]. set (u := v mod 2^32).
  assert (Hu : 0 <= u < 2^32) by (apply Z.mod_pos_bound; reflexivity).
  remember (itf8_spec_len u) as n eqn:E. unfold itf8_spec_len in E. revert E.
  apply if_ltb_both; [intros H1 ->|intros H1].
  { take_arm u. rewrite <- chk_idem. apply (put_arm buf [_] _ 1); try reflexivity.
    unfold u8, wrapu. rewrite Z.mod_small by lia. reflexivity. }
  apply if_ltb_both; [intros H2 ->|intros H2].
  { take_arm u. apply (put_arm buf [_; _] _ 2); try reflexivity.
    exact (form_written 2 u ltac:(lia) (conj (proj1 Hu) H2)). }
  apply if_ltb_both; [intros H3 ->|intros H3].
  { take_arm u. apply (put_arm buf [_; _; _] _ 3); try reflexivity.
    exact (form_written 3 u ltac:(lia) (conj (proj1 Hu) H3)). }
  apply if_ltb_both; [intros H4 ->|intros H4 ->].
  { take_arm u. apply (put_arm buf [_; _; _; _] _ 4); try reflexivity.
    exact (form_written 4 u ltac:(lia) (conj (proj1 Hu) H4)). }
  take_arm u. apply (put_arm buf [_; _; _; _; _] _ 5); try reflexivity.
  rewrite !shiftr_div by easy. apply (f_equal2 cons); [|reflexivity].
  pose proof (itf8_top_nibble u Hu) as Ht.
  unfold u8, wrapu. rewrite Z.mod_small, (lor_low_high _ 15 4) by lia. apply Z.add_comm.
Qed.

Lemma itf8_n_byte b0 : 0 <= b0 < 256 -> clz8 (u8 (Z.lnot (Z.land b0 240))) + 1 = itf8_spec_n b0.
Proof.
  intros H. apply Z.eqb_eq. revert b0 H.
  apply (byte_forall (fun b0 => clz8 (u8 (Z.lnot (Z.land b0 240))) + 1 =? itf8_spec_n b0)).
  vm_compute. reflexivity.
Qed.

Lemma itf8_spec_n_range b : 1 <= itf8_spec_n b <= 5.
Proof. unfold itf8_spec_n. repeat (apply if_ltb_elim; intros _; [easy|]). easy. Qed.

(** The specified value in the terms of Varint.v: big-endian payload under the
    low bits of the first byte; the long form is shifted by a nibble. *)
Lemma itf8_spec_value_be h t : 1 <= zlen t <= 3 ->
  itf8_spec_value (h :: t) = be_value t (h mod 2 ^ (7 - zlen t)).
Proof.
  destruct t as [|a [|b [|c [|d t]]]]; intros [H1 H2]; [now elim H1| | | |rewrite !zlen_cons in H2; pose proof (zlen_nonneg t); lia].
  - change (2 ^ (7 - zlen [a])) with 64. cbn [itf8_spec_value be_value]. ring.
  - change (2 ^ (7 - zlen [a; b])) with 32. cbn [itf8_spec_value be_value]. ring.
  - change (2 ^ (7 - zlen [a; b; c])) with 16. cbn [itf8_spec_value be_value]. ring.
Qed.

Lemma itf8_spec_value_firstn k b0 t : 2 <= k <= 4 -> k <= zlen (b0 :: t) ->
  itf8_spec_value (firstn (Z.to_nat k) (b0 :: t)) = be_value (firstn (Z.to_nat (k - 1)) t) (b0 mod 2 ^ (8 - k)).
Proof.
  intros Hk Hl. rewrite zlen_cons in Hl. replace (Z.to_nat k) with (S (Z.to_nat (k - 1))) by lia. cbn [firstn].
  assert (E : zlen (firstn (Z.to_nat (k - 1)) t) = k - 1) by (unfold zlen in *; rewrite firstn_length; lia).
  rewrite itf8_spec_value_be, E by lia. replace (7 - (k - 1)) with (8 - k) by lia. reflexivity.
Qed.

Lemma itf8_spec_value_5 b0 b1 b2 b3 b4 :
  itf8_spec_value [b0; b1; b2; b3; b4] = be_value [b1; b2; b3] (b0 mod 16) * 2^4 + b4 mod 16.
Proof. cbn [itf8_spec_value be_value]. ring. Qed.

Lemma itf8_Decode_spec bs : all_bytes bs = true -> itf8_Decode bs = Ok (itf8_spec_decode bs).
Proof.
  destruct bs as [|b0 t]; [reflexivity|]. intros Hb. pose proof (proj1 (all_bytes_cons _ _ Hb)) as B0.
  unfold itf8_Decode, itf8_spec_decode. cbv zeta.
  change (getz (b0 :: t) 0) with b0. rewrite (itf8_n_byte b0 B0).
  pose proof (itf8_spec_n_range b0) as Hr. remember (itf8_spec_n b0) as n eqn:En.
  apply decode_head; [discriminate|intros Hlong].
  apply if_eqb_split; [intros ->|intros N1].
  { reflexivity. }
  apply if_eqb_split; [intros ->|intros N2].
  { rewrite (land_mask b0 6), itf8_spec_value_firstn by easy.
    read_arm Hb Hlong 32 1%nat 0%nat (mod_byte b0 6 ltac:(easy)). }
  apply if_eqb_split; [intros ->|intros N3].
  { rewrite (land_mask b0 5), itf8_spec_value_firstn by easy.
    read_arm Hb Hlong 32 1%nat 1%nat (mod_byte b0 5 ltac:(easy)). }
  apply if_eqb_split; [intros ->|intros N4].
  { rewrite (land_mask b0 4), itf8_spec_value_firstn by easy.
    read_arm Hb Hlong 32 1%nat 2%nat (mod_byte b0 4 ltac:(easy)). }
  (* five bytes: a nibble of b[0] on top, a nibble of b[4] at the bottom *)
  apply if_eqb_split; [intros ->|lia].
  destruct t as [|b1 [|b2 [|b3 [|b4 t]]]]; try (elim Hlong; reflexivity).
  repeat (apply (chk_inb _ _ _ _ _ Hlong); [split; [discriminate|reflexivity]|]).
  change (firstn (Z.to_nat 5) (b0 :: b1 :: b2 :: b3 :: b4 :: t)) with [b0; b1; b2; b3; b4].
  rewrite !(fun a => land_mask a 4), itf8_spec_value_5 by easy. apply (f_equal (fun v => Ok (v, _, true))).
  transitivity (or_be 32 4 (b4 mod 16) (b0 mod 16) [b1; b2; b3]); [cbv [or_be]; reflexivity|apply or_be_value; try easy].
  - apply Z.mod_pos_bound. reflexivity.
  - apply (mod_byte b0 4). easy.
  - exact (forallb_firstn _ 3 _ (proj2 (all_bytes_cons _ _ Hb))).
Qed.

Lemma itf8_Decode_item : item_form itf8_Decode itf8_spec_n (fun l => s32 (itf8_spec_value l)).
Proof. split; [reflexivity|]. intros b0 t H. rewrite itf8_Decode_spec by assumption. reflexivity. Qed.

Lemma itf8_no_overread_gen bs :
  all_bytes bs = true ->
  exists v n ok,
    itf8_Decode bs = Ok (v, n, ok) /\
    (bs = [] -> n = 0 /\ ok = false) /\
    (bs <> [] -> n = itf8_spec_n (hd 0 bs) /\ ok = (n <=? zlen bs)) /\
    (ok = true -> itf8_Decode (firstn (Z.to_nat n) bs) = Ok (v, n, true)) /\
    (ok = false -> v = 0).
Proof. exact (item_no_overread _ _ _ bs itf8_Decode_item (fun b => proj1 (itf8_spec_n_range b))). Qed.

Lemma itf8_spec_decode_app b0 t rest :
  itf8_spec_n b0 = zlen (b0 :: t) ->
  itf8_spec_decode ((b0 :: t) ++ rest) = (s32 (itf8_spec_value (b0 :: t)), zlen (b0 :: t), true).
Proof.
  intros Hn. unfold itf8_spec_decode. cbn [app]. rewrite Hn.
  change (b0 :: t ++ rest) with ((b0 :: t) ++ rest).
  rewrite (proj2 (Z.ltb_ge _ _)) by (rewrite zlen_app; pose proof (zlen_nonneg rest); lia).
  unfold zlen at 1. rewrite Nat2Z.id, firstn_app_exact. reflexivity.
Qed.

Lemma itf8_canon_inv enc l : itf8_canon enc = l -> length l <> 5%nat -> enc = l.
Proof.
  destruct enc as [|a [|b [|c [|d [|e [|f r]]]]]]; cbn [itf8_canon]; intros <- H; try reflexivity.
  now elim H.
Qed.

Lemma itf8_canon_inv5 enc a b c d e :
  itf8_canon enc = [a; b; c; d; e] -> exists e', enc = [a; b; c; d; e'] /\ e' mod 16 = e.
Proof.
  destruct enc as [|a' [|b' [|c' [|d' [|e' [|f r]]]]]]; cbn [itf8_canon]; intros H; try discriminate H.
  injection H as -> -> -> -> <-. eauto.
Qed.

(** The long form: top nibble, three bytes, and a last byte of which the
    specification keeps [u mod 16] and Encode writes [u mod 256]. *)
Definition itf8_long (u m : Z) : list Z :=
  [240 + u / 2^28; (u / 2^20) mod 256; (u / 2^12) mod 256; (u / 2^4) mod 256; u mod m].

Lemma itf8_shape v : let u := v mod 2^32 in let n := itf8_spec_len u in
  n = 1 /\ u < 2^7 /\ itf8_spec_encode v = [u] \/
  2 <= n <= 4 /\ u < 2 ^ (7 * n) /\ itf8_spec_encode v = form n u \/
  n = 5 /\ 2^28 <= u /\ itf8_spec_encode v = itf8_long u 16.
Proof.
  cbv zeta. unfold itf8_spec_encode. cbv zeta. set (u := v mod 2^32). unfold itf8_spec_len.
  apply if_ltb_elim; intros H1; [auto|].
  repeat (apply if_ltb_elim; intros ?H; [right; left; split; [easy|split; [assumption|reflexivity]]|]).
  auto.
Qed.

Lemma itf8_wire_short v : v mod 2^32 < 2^28 -> itf8_wire v = itf8_spec_encode v.
Proof. intros H. unfold itf8_wire. cbv zeta. take_arm (v mod 2^32). reflexivity. Qed.

Lemma itf8_wire_long v : 2^28 <= v mod 2^32 -> itf8_wire v = itf8_long (v mod 2^32) 256.
Proof. intros H. unfold itf8_wire. cbv zeta. take_arm (v mod 2^32). reflexivity. Qed.

Lemma itf8_spec_n_form n u : 2 <= n <= 4 -> 0 <= u < 2 ^ (7 * n) ->
  itf8_spec_n (256 - 2 ^ (9 - n) + u / 2 ^ (8 * (n - 1))) = n.
Proof.
  intros Hn Hu. pose proof (top_bits n u ltac:(lia) Hu) as Ht. set (top := u / _) in *. clearbody top.
  set (p := 256 - 2 ^ (9 - n)). set (q := 2 ^ (8 - n)) in Ht.
  assert (n = 2 \/ n = 3 \/ n = 4) as [->|[->| ->]] by lia; cbv in p, q; subst p q;
    unfold itf8_spec_n; rewrite ?if_ltb_ge by lia; rewrite ?if_ltb_lt by lia; reflexivity.
Qed.

Lemma itf8_decode_form n u rest : 2 <= n <= 4 -> 0 <= u < 2 ^ (7 * n) ->
  itf8_spec_decode (form n u ++ rest) = (s32 u, n, true).
Proof.
  intros Hn Hu. pose proof (form_length n u ltac:(lia)) as Hl. unfold form in *.
  rewrite itf8_spec_decode_app by (rewrite Hl; apply itf8_spec_n_form; assumption).
  rewrite Hl, itf8_spec_value_be; rewrite zlen_cons in Hl; [|lia].
  replace (7 - zlen (be_bytes (Z.to_nat (n - 1)) u)) with (8 - n) by lia.
  rewrite form_value by (assumption || lia). reflexivity.
Qed.

Lemma itf8_decode_long u e rest : 2^28 <= u < 2^32 -> e mod 16 = u mod 16 ->
  itf8_spec_decode ([240 + u / 2^28; (u / 2^20) mod 256; (u / 2^12) mod 256; (u / 2^4) mod 256; e] ++ rest)
  = (s32 u, 5, true).
Proof.
  intros Hu He.
  pose proof (itf8_top_nibble u ltac:(lia)) as Ht.
  rewrite itf8_spec_decode_app by (unfold itf8_spec_n; take_arm (240 + u / 2^28); reflexivity).
  cbn [itf8_spec_value]. replace ((240 + u / 2^28) mod 16) with (u / 2^28)
    by (rewrite Z.add_comm, (Z_mod_plus_full _ 15 16), Z.mod_small; lia).
  rewrite He. do 2 f_equal. f_equal. clear. Z.div_mod_to_equations. lia.
Qed.

Lemma itf8_spec_roundtrip v enc rest :
  int32 v -> itf8_canon enc = itf8_spec_encode v ->
  itf8_spec_decode (enc ++ rest) = (v, itf8_spec_len (v mod 2^32), true).
Proof.
  intros Hv. rewrite <- (s32_u32 v Hv) at 2. pose proof (Z.mod_pos_bound v (2^32) eq_refl) as Hu.
  destruct (itf8_shape v) as [(E & B & ->)|[(Hn & B & ->)|(E & B & ->)]]; intros Hc.
  - apply itf8_canon_inv in Hc; [subst enc|discriminate]. rewrite E.
    rewrite itf8_spec_decode_app by (unfold itf8_spec_n; take_arm (v mod 2^32); reflexivity). reflexivity.
  - apply itf8_canon_inv in Hc; [subst enc|].
    + apply itf8_decode_form; [assumption|split; [apply Hu|exact B]].
    + pose proof (form_length (itf8_spec_len (v mod 2^32)) (v mod 2^32) ltac:(lia)). unfold zlen in *. lia.
  - apply itf8_canon_inv5 in Hc. destruct Hc as (e & -> & He). rewrite E.
    apply itf8_decode_long; [split; [exact B|apply Hu]|exact He].
Qed.

Lemma itf8_wire_props v :
  zlen (itf8_wire v) = itf8_spec_len (v mod 2^32) /\
  all_bytes (itf8_wire v) = true /\
  itf8_canon (itf8_wire v) = itf8_spec_encode v.
Proof.
  pose proof (Z.mod_pos_bound v (2^32) eq_refl) as Hu.
  destruct (itf8_shape v) as [(E & B & Hs)|[(Hn & B & Hs)|(E & B & Hs)]].
  - rewrite itf8_wire_short, Hs, E by lia. repeat split. apply all_bytes_intro; [lia|reflexivity].
  - assert (v mod 2^32 < 2^28).
    { eapply Z.lt_le_trans; [exact B|]. apply Z.pow_le_mono_r; lia. }
    pose proof (form_length (itf8_spec_len (v mod 2^32)) (v mod 2^32) ltac:(lia)) as Hl.
    rewrite itf8_wire_short, Hs by assumption.
    split; [exact Hl|split; [apply form_all_bytes; lia|]].
    destruct (form _ _) as [|a [|b [|c [|d [|e [|f r]]]]]]; try reflexivity.
    change (zlen [a; b; c; d; e]) with 5 in Hl. lia.
  - pose proof (itf8_top_nibble _ Hu) as Ht.
    rewrite itf8_wire_long, Hs, E by assumption. split; [reflexivity|split].
    + repeat (apply all_bytes_intro; [try (apply Z.mod_pos_bound; reflexivity)|]); [lia|reflexivity].
    + unfold itf8_long. cbn [itf8_canon]. do 5 f_equal. clear. Z.div_mod_to_equations. lia.
Qed.

Lemma itf8_Decode_accepts v enc rest :
  int32 v -> all_bytes enc = true -> all_bytes rest = true -> itf8_canon enc = itf8_spec_encode v ->
  itf8_Decode (enc ++ rest) = Ok (v, itf8_spec_len (v mod 2^32), true).
Proof.
  intros Hv He Hr Hc. rewrite itf8_Decode_spec by (apply all_bytes_app; assumption).
  f_equal. apply itf8_spec_roundtrip; assumption.
Qed.
