(** C06 — the round trip on records whose variable-length parts are absent:
    there UnmarshalSAM gives back every field as it was, with no premise on
    the float text. *)
From Coq Require Import ZArith List Bool Lia.
From Hts Require Import Base.Prim Generated Model.SamText Model.SamSpec
  Proofs.SamBytes Proofs.SamFormat Proofs.SamAux Proofs.SamRoundtrip.
Import ListNotations.
Open Scope Z_scope.

(** Records whose variable-length parts are absent: no CIGAR, no sequence,
    no quality, no aux fields. *)
Definition core_only (r : samrec) : Prop :=
  r_cigar r = [] /\ r_seqlen r = 0 /\ r_aux r = [] /\ (r_qual r = None \/ r_qual r = Some []).

Definition core_of (r : samrec) : samrec :=
  mk_rec (r_name r) (r_flags r) (r_ref r) (r_pos r) (r_mapq r) [] (r_mref r) (r_mpos r) (r_tlen r) 0 [] None [].

Section Roundtrip.
  Variable fmt_f32 : Z -> list Z.
  Variable parse_f32 : list Z -> option Z.

  (** For every valid record without variable-length parts and both parseable
      flag formats: MarshalSAM gives a line, UnmarshalSAM of that line gives
      the record back field by field, and formatting that record gives the
      same line again. *)
  Theorem roundtrip_core_gen : forall h r fl,
    valid 8 h r -> core_only r -> (fl = sam_FlagDecimal \/ fl = sam_FlagHex) ->
    exists line,
      format_record fmt_f32 h fl r = Ok line /\
      parse_record parse_f32 h line = Ok (core_of r) /\
      format_record fmt_f32 h fl (core_of r) = Ok line.
  Proof.
    intros h r fl V (Hc & Hs & Ha & Hq) Hfl.
    assert (E : rec_back r = core_of r).
    { destruct (v_seq _ _ _ V) as (_ & Hl & _). rewrite Hs in Hl.
      unfold rec_back, core_of. rewrite Hc, Hs, Ha.
      destruct (r_seq r); [|discriminate]. destruct Hq as [-> | ->]; reflexivity. }
    (* no float occurs: the premises on the float text hold of no value *)
    destruct (roundtrip_gen fmt_f32 parse_f32 (fun _ => False) (fun _ F => match F with end)
                (fun _ F => match F with end) h r fl V) as (line & F1 & P & _ & F2);
      [destruct Hq as [-> | ->]; [exact I|left; reflexivity]|rewrite Ha; constructor|exact Hfl|].
    rewrite E in *. exists line. auto.
  Qed.
End Roundtrip.
