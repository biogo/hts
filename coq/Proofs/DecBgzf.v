(** C11 — proofs about the BGZF member header and Seek models (Model/DecBgzf.v). *)
From Coq Require Import ZArith Lia List Bool.
From Hts Require Import Base.Prim Base.DecBase Generated Model.DecBgzf Proofs.DecLemmas.
Open Scope Z_scope.

(** expectedMemberSize, as translated from the Go source, returns for every
    Extra field and whatever bytes.Index answers: the two index expressions are
    covered by the guard in front of them. When Extra holds bytes, its value is
    -1 or a size in 1..65536. *)
Lemma expectedMemberSize_ok (idx : list Z -> list Z -> Z) extra :
  post (c11_expectedMemberSize idx extra) (fun v => all_bytes extra = true -> v = -1 \/ 1 <= v <= 65536).
Proof.
  unfold c11_expectedMemberSize. cbv zeta. set (i := idx extra c11_bgzfExtraPrefix).
  destruct (Z.ltb_spec i 0); [left; reflexivity|]. destruct (Z.leb_spec (zlen extra) (i + 5)); [left; reflexivity|].
  apply post_inb; [lia|]. apply post_inb; [lia|]. intros Hb. right.
  pose proof (all_bytes_getz extra Hb (i + 4) ltac:(lia)). pose proof (all_bytes_getz extra Hb (i + 5) ltac:(lia)).
  rewrite shiftl_mul, lor_low_high by lia. lia.
Qed.

Lemma gz_read_string_ok s : forall i, post (gz_read_string s i) (fun r => zlen r < zlen s).
Proof.
  induction s as [|c t IH]; intros i; simpl; [exact I|]. rewrite zlen_cons.
  destruct (512 <=? i); [exact I|]. destruct (c =? 0); [apply post_ret; lia|].
  apply (post_weaken (IH (i + 1))). lia.
Qed.

Lemma gz_extra_ok flg s : all_bytes s = true ->
  post (gz_extra flg s) (fun '(e, s') => zlen s' <= zlen s /\ all_bytes e = true).
Proof.
  intros Hb. unfold gz_extra. destruct (negb (Z.land flg 4 =? 0)); [|split; [lia|reflexivity]].
  apply (post_bind2 (rd_u_ok 2 s)). intros xlen s1 (L1 & B1). destruct (B1 Hb) as [Hx Hb1].
  apply post_make; [exact Hx|].
  apply post_take; [exact I|]. intros e s2 _ L2 B2.
  split; [lia|apply (B2 Hb1)].
Qed.

Lemma gz_skip_string_ok on s : post (gz_skip_string on s) (fun s' => zlen s' <= zlen s).
Proof.
  unfold gz_skip_string. destruct on; [|apply post_ret; lia].
  apply (post_weaken (gz_read_string_ok s 0)). lia.
Qed.

Lemma gz_hcrc_ok on c s : post (gz_hcrc on c s) (fun s' => zlen s' <= zlen s).
Proof.
  unfold gz_hcrc. destruct on; [|apply post_ret; lia].
  apply post_take; [exact I|]. intros x s1 _ L _.
  destruct c; [apply post_ret; lia|exact I].
Qed.

(** The gzip header walk consumes at least the ten fixed bytes. *)
Lemma gz_read_header_ok hcrc s : all_bytes s = true ->
  post (gz_read_header hcrc s) (fun '(extra, rest) => zlen rest + 10 <= zlen s /\ all_bytes extra = true).
Proof.
  intros Hb. apply post_take; [exact I|]. intros h s1 _ L1 B1. destruct (B1 Hb) as [_ Hb1].
  destruct (negb _); [exact I|]. cbv zeta.
  apply (post_bind2 (gz_extra_ok (getz h 3) s1 Hb1)). intros e s2 [L2 Hbe].
  apply (post_bind (gz_skip_string_ok _ s2)). intros s3 L3.
  apply (post_bind (gz_skip_string_ok _ s3)). intros s4 L4.
  apply (post_bind (gz_hcrc_ok _ hcrc s4)). intros s5 L5.
  split; [lia|exact Hbe].
Qed.

Lemma bgzf_read_member_safe hcrc s : all_bytes s = true -> safe (bgzf_read_member hcrc s).
Proof.
  intros Hb. unfold bgzf_read_member.
  apply (post_bind2 (gz_read_header_ok hcrc s Hb)). intros extra rest [Ls Hbe].
  apply (post_bind (expectedMemberSize_ok bytes_index extra)). intros bs R. specialize (R Hbe).
  destruct (Z.ltb_spec bs 0); [exact I|].
  destruct (Z.leb_spec (bs - (zlen s - zlen rest)) 0); [exact I|].
  apply post_chk; [unfold maxBlockSize; change bgzf_MaxBlockSize with 65536; lia|].
  destruct (take _ rest); exact I.
Qed.

Lemma block_seek_safe st sk : cur_has st = true -> safe (snd (block_seek st sk)).
Proof. intros H. unfold block_seek. rewrite H. destruct sk; exact I. Qed.

(** Seek never reaches block.seek on a block without data: either the guard
    (as translated from the source) sends it to the fetch, or the block has data. *)
Lemma reader_seek_safe st off hit ok sk : safe (snd (reader_seek st off hit ok sk)).
Proof.
  unfold reader_seek, c11_seek_guard. destruct (negb (off =? cur_base st) || negb (cur_has st)) eqn:G.
  - destruct hit; [apply block_seek_safe; reflexivity|]. destruct ok; [apply block_seek_safe; reflexivity|exact I].
  - apply block_seek_safe. destruct (cur_has st); [reflexivity|]. rewrite orb_true_r in G. discriminate.
Qed.

Lemma seek_history_safe h : forall st, safe (seek_history st h).
Proof.
  induction h as [|[[[off hit] ok] sk] t IH]; intros st; cbn [seek_history]; [exact I|].
  pose proof (reader_seek_safe st off hit ok sk) as S.
  destruct (reader_seek st off hit ok sk) as [st' [u|e|w|]]; simpl in S; try contradiction; apply IH.
Qed.

(** Without the hasData part of the guard the second Seek to a failed block panics. *)
Lemma seek_without_hasdata_guard_panics :
  is_panic (snd (block_seek {| cur_base := 100; cur_has := false |} true)) = true.
Proof. reflexivity. Qed.
