(** C05 — what Reader.Read returns on any block: the buffer decision is
    irrelevant, nothing of reused storage is retained, and on byte strings
    the result is a record or an error. *)
From Coq Require Import ZArith Lia List Bool.
From Hts Require Import Base.Prim Generated Model.BamCodec Base.BytesLE
  Proofs.BamAux Proofs.BamRecord.
Import ListNotations.
Open Scope Z_scope.

Lemma record_roundtrip_omit nrefs r omit sh :
  valid_rec nrefs r = true ->
  exists body,
    encode_record r = Ok (le_put 4 (zlen body) ++ body) /\
    zlen body = block_size r /\
    decode_record omit nrefs sh body = Ok (omit_view omit (canon r), false).
Proof.
  intros Hv. destruct (record_roundtrip_all nrefs r Hv) as (body & He & Hl & Hd).
  exists body. auto.
Qed.

(** Both buffer decisions give [storage_reused] the value [false] (the three
    generated facts), and [b_bytes] does not look at the flag: the two sides
    are convertible. *)
Lemma shared_irrelevant_all_inputs omit nrefs data :
  decode_record omit nrefs true data = decode_record omit nrefs false data.
Proof. reflexivity. Qed.

(** The buffer only ever holds and hands out bytes of the block. *)
Lemma b_unsafe_bytes b n : all_bytes (fst b) = true ->
  all_bytes (odef [] (fst (b_unsafe b n))) = true /\ all_bytes (fst (snd (b_unsafe b n))) = true.
Proof.
  destruct b as [d e]. cbn [fst]. intros H. unfold b_unsafe.
  destruct e; [cbn; tauto|]. destruct (zlen d <? n); [cbn; tauto|].
  cbn [fst snd odef]. unfold zfirstn, zskipn. split; [apply all_bytes_firstn|apply all_bytes_skipn]; assumption.
Qed.

Lemma b_discard_bytes b n : all_bytes (fst b) = true -> all_bytes (fst (b_discard b n)) = true.
Proof.
  destruct b as [d e]. cbn [fst]. intros H. unfold b_discard.
  destruct e; [assumption|]. destruct (zlen d <? n); [assumption|]. cbn [fst]. apply all_bytes_skipn. assumption.
Qed.

Lemma b_read_bytes b w k : all_bytes (fst b) = true -> all_bytes (fst (snd (b_read b w k))) = true.
Proof.
  intros H. unfold b_read. destruct (k =? 2); [cbn [snd]; apply b_discard_bytes; assumption|].
  destruct b as [d e]. cbn [fst] in H. destruct e; [assumption|]. destruct (zlen d <? w); [assumption|].
  cbn [fst snd]. apply all_bytes_skipn. assumption.
Qed.

Lemma read_fixed_bytes l : forall b env, all_bytes (fst b) = true -> all_bytes (fst (snd (read_fixed l b env))) = true.
Proof.
  induction l as [|[[w k] dst] t IH]; intros b env H; [assumption|].
  cbn [read_fixed]. pose proof (b_read_bytes b w k H) as Hb.
  destruct (b_read b w k) as [v b']. cbn [snd] in Hb. apply IH. assumption.
Qed.

(** What Reader.Read can return on a block: a record with nothing of reused
    storage retained, or an error; a panic or no result only if the block is
    not a byte string. *)
Definition read_outcome (bytes : Prop) (o : outcome (rec * bool)) : Prop :=
  match o with Ok res => snd res = false | Err _ => True | _ => ~ bytes end.

Lemma decode_outcome omit nrefs sh data :
  read_outcome (all_bytes data = true) (decode_record omit nrefs sh data).
Proof.
  unfold decode_record. rewrite storage_not_reused.
  pose proof (read_fixed_bytes bam_Read_fixed (data, false) (fun _ => 0)) as Hb0.
  destruct (read_fixed bam_Read_fixed (data, false) (fun _ => 0)) as [env b]. cbn [fst snd] in Hb0.
  destruct (env 3 <? 1); [exact I|].
  pose proof (fun Hd => b_discard_bytes _ 1 (proj2 (b_unsafe_bytes b (bam_Read_nameLen (env 3)) (Hb0 Hd)))) as Hb1.
  destruct (b_unsafe b _) as [nm b1]. cbn [fst snd] in Hb1.
  pose proof (fun Hd => proj2 (b_unsafe_bytes _ (bam_Read_cigarLen (env 6)) (Hb1 Hd))) as Hb2.
  destruct (b_unsafe (b_discard b1 1) _) as [cb b2]. cbn [fst snd] in Hb2.
  (* in every Omit mode the flag handed on is [false] *)
  match goal with |- read_outcome _ (obind ?v _) =>
    assert (Hv : match v with Ok x => snd (fst x) = false | Err _ => True | _ => ~ all_bytes data = true end);
      [|destruct v as [x| | |]; [|exact I|exact Hv..]] end.
  { destruct (bam_AllVariableLengthData <=? omit); [reflexivity|].
    destruct (env 8 <? 0); [exact I|]. unfold b_bytes.
    pose proof (fun Hd => proj2 (b_unsafe_bytes b2 (bam_Read_seqLen (env 8)) (Hb2 Hd))) as Hb3.
    destruct (b_unsafe b2 _) as [sq b3]. cbn [fst snd] in Hb3.
    pose proof (fun Hd => proj2 (b_unsafe_bytes b3 (env 8) (Hb3 Hd))) as Hb4.
    destruct (b_unsafe b3 _) as [ql b4]. cbn [fst snd] in Hb4.
    destruct (bam_AuxTags <=? omit); [reflexivity|].
    pose proof (fun Hd => proj1 (b_unsafe_bytes b4 (b_len b4) (Hb4 Hd))) as Hax.
    destruct (b_unsafe b4 _) as [ax b5]. cbn [fst] in Hax.
    destruct (parse_aux (odef [] ax)) eqn:E; [reflexivity|exact I|..];
      intros Hd; destruct (parse_aux_total _ (Hax Hd)) as [[? E']|[? E']]; congruence. }
  destruct x as [[[[[ls sq] ql] aa] alias] berr]. cbn [fst snd] in Hv. subst alias. cbn [obind].
  destruct berr; [exact I|].
  destruct (negb (env 1 =? -1)); [destruct ((env 1 <? -1) || (nrefs <=? env 1)); [exact I|]|]; cbn [obind];
    (destruct (negb (env 9 =? -1)); [|reflexivity];
     destruct (env 1 =? env 9); [reflexivity|];
     destruct ((env 9 <? -1) || (nrefs <=? env 9)); [exact I|reflexivity]).
Qed.

Lemma no_alias omit nrefs sh data res :
  decode_record omit nrefs sh data = Ok res -> snd res = false.
Proof. intros E. pose proof (decode_outcome omit nrefs sh data) as S. rewrite E in S. exact S. Qed.

Theorem decode_total omit nrefs sh data :
  all_bytes data = true -> ok_or_err (decode_record omit nrefs sh data).
Proof.
  intros Hd. pose proof (decode_outcome omit nrefs sh data) as S.
  destruct (decode_record omit nrefs sh data); [apply ok_or_err_Ok|apply ok_or_err_Err|destruct (S Hd)..].
Qed.

(** A record cut inside a fixed-size aux field; a B array of element type Z. *)
Definition cut_aux_record : list Z :=
  [255;255;255;255; 255;255;255;255; 2; 0; 0;0; 0;0; 0;0; 0;0;0;0; 255;255;255;255; 255;255;255;255; 0;0;0;0;
   97; 0; 88; 89; 105; 1; 2].
Definition stuck_aux : list Z := [88; 89; 66; 90; 8; 0; 0; 0].
