(** C07 — the field loops of the line parsers, abstractly: on "XX:value"
    fields with pairwise distinct tags the loop with its duplicate-tag check
    is the plain fold of its step function. *)
From Coq Require Import ZArith List Bool Lia.
From Hts Require Import Base.Prim Model.Header Proofs.HeaderText Proofs.HeaderNum.
Import ListNotations.
Open Scope Z_scope.

Lemma tag_eqb_eq : forall a b, tag_eqb a b = true <-> a = b.
Proof.
  intros [a1 a2] [b1 b2]. unfold tag_eqb; simpl. rewrite andb_true_iff, !Z.eqb_eq. split; [intros []; subst; auto|intro H; inversion H; auto].
Qed.
Lemma tag_eqb_refl : forall a, tag_eqb a a = true.
Proof. intro; apply tag_eqb_eq; reflexivity. Qed.
Lemma tag_eqb_sym : forall a b, tag_eqb a b = tag_eqb b a.
Proof. intros [a1 a2] [b1 b2]. unfold tag_eqb; simpl. rewrite (Z.eqb_sym a1), (Z.eqb_sym a2). reflexivity. Qed.

Definition Within (seen K : list tag) : Prop := forall x, mem_tag x seen = true -> mem_tag x K = true.
Lemma Within_nil : forall K, Within [] K.
Proof. intros K x H. discriminate. Qed.

Lemma mem_tag_false_cons : forall t a K, mem_tag t (a :: K) = false -> tag_eqb t a = false /\ mem_tag t K = false.
Proof. unfold mem_tag. simpl. intros t a K H. apply orb_false_iff in H. exact H. Qed.
Lemma mem_tag_In : forall t K, In t K -> mem_tag t K = true.
Proof. intros t K H. apply existsb_exists. exists t. split; [exact H|apply tag_eqb_refl]. Qed.

Fixpoint tdist (l : list tagpair) : Prop :=
  match l with [] => True | tp :: r => mem_tag (fst tp) (map fst r) = false /\ tdist r end.

(** the fields of a printed line as (tag, value) pairs: the standard fields that are present, in the
    order of [spec], then the other tags [rest] *)
Fixpoint pick (spec : list (tag * option str)) (rest : list tagpair) : list tagpair :=
  match spec with
  | [] => rest
  | (t, Some v) :: s => (t, v) :: pick s rest
  | (_, None) :: s => pick s rest
  end.
Definition ne (v : str) : option str := if is_empty v then None else Some v.
Definition fopt (t : tag) (ov : option str) : list str := match ov with Some v => [body t v] | None => [] end.

Lemma fields_pick : forall t ov s r, other_fields (pick ((t, ov) :: s) r) = fopt t ov ++ other_fields (pick s r).
Proof. intros t [v|] s r; reflexivity. Qed.
Lemma fields_pick_ne : forall t v s r, other_fields (pick ((t, ne v) :: s) r) = optf t v ++ other_fields (pick s r).
Proof. intros t v s r. unfold ne, optf. destruct (is_empty v); reflexivity. Qed.

Lemma pick_tags : forall spec rest x, In x (map fst (pick spec rest)) -> In x (map fst spec) \/ In x (map fst rest).
Proof.
  induction spec as [|[t [v|]] s IH]; intros rest x H; simpl in *; auto.
  - destruct H as [H|H]; auto. destruct (IH _ _ H); auto.
  - destruct (IH _ _ H); auto.
Qed.

Fixpoint nodup_tags (l : list tag) : bool :=
  match l with [] => true | t :: r => negb (mem_tag t r) && nodup_tags r end.

Lemma tdist_pick : forall K spec rest, nodup_tags (map fst spec) = true -> forallb (fun k => mem_tag k K) (map fst spec) = true ->
  (forall tp, In tp rest -> mem_tag (fst tp) K = false) -> tdist rest -> tdist (pick spec rest).
Proof.
  intros K. induction spec as [|[t ov] s IH]; intros rest ND HK HR D; [exact D|].
  simpl in ND, HK. apply andb_true_iff in ND. destruct ND as (N1 & N2). apply negb_true_iff in N1.
  apply andb_true_iff in HK. destruct HK as (K1 & K2).
  assert (D' := IH rest N2 K2 HR D). destruct ov as [v|]; [|exact D']. split; [|exact D']. cbn [fst].
  destruct (mem_tag t (map fst (pick s rest))) eqn:M; [|reflexivity]. exfalso.
  apply existsb_exists in M. destruct M as (x & Hx & E). apply tag_eqb_eq in E. subst x.
  destruct (pick_tags _ _ _ Hx) as [H|H].
  - rewrite (mem_tag_In _ _ H) in N1. discriminate.
  - apply in_map_iff in H. destruct H as (tp & E & Hin). rewrite <- E, (HR tp Hin) in K1. discriminate.
Qed.

Section Loop.
  Variables (O FL R : Type).
  Variable F : O -> list tag -> FL -> list str -> outcome R.
  Variable STEP : O -> FL -> tag -> str -> outcome (O * FL).
  Variable FIN : O -> FL -> outcome R.
  Hypothesis F_nil : forall o seen fl, F o seen fl [] = FIN o fl.
  Hypothesis F_cons : forall o seen fl f l, F o seen fl (f :: l) =
    match split_field f with
    | None => Err eBadHeader
    | Some (t, v) =>
      if mem_tag t seen then Err eDupTag
      else match STEP o fl t v with
           | Ok (o', fl') => F o' (t :: seen) fl' l
           | Err e => Err e | Panic n => Panic n | Stuck => Stuck
           end
    end.

  (** the loop without the set of tags seen *)
  Fixpoint run (o : O) (fl : FL) (l : list tagpair) : outcome R :=
    match l with
    | [] => FIN o fl
    | (t, v) :: l' => match STEP o fl t v with
                      | Ok (o', fl') => run o' fl' l'
                      | Err e => Err e | Panic n => Panic n | Stuck => Stuck
                      end
    end.

  Lemma loop_run : forall l o seen fl, tdist l -> (forall tp, In tp l -> mem_tag (fst tp) seen = false) ->
    F o seen fl (other_fields l) = run o fl l.
  Proof.
    induction l as [|[t v] l IH]; intros o seen fl D HS; simpl; [apply F_nil|].
    assert (M := HS (t, v) (or_introl eq_refl)). cbn [fst] in M. rewrite F_cons, split_field_body, M.
    destruct (STEP o fl t v) as [[o' fl']| | |]; auto. destruct D as (D1 & D2). apply IH; auto.
    intros tp Hin. unfold mem_tag. simpl. fold (mem_tag (fst tp) seen). rewrite (HS tp (or_intror Hin)), orb_false_r.
    destruct (tag_eqb (fst tp) t) eqn:E; auto. apply tag_eqb_eq in E. subst t.
    cbn [fst] in D1. rewrite (mem_tag_In _ _ (in_map fst _ _ Hin)) in D1. discriminate.
  Qed.

  Lemma loop_pick : forall K spec rest o fl, nodup_tags (map fst spec) = true -> forallb (fun k => mem_tag k K) (map fst spec) = true ->
    (forall tp, In tp rest -> mem_tag (fst tp) K = false) -> tdist rest ->
    F o [] fl (other_fields (pick spec rest)) = run o fl (pick spec rest).
  Proof. intros. apply loop_run; [eapply tdist_pick; eauto|reflexivity]. Qed.

  Lemma run_some : forall o fl t v s r o' fl', STEP o fl t v = Ok (o', fl') ->
    run o fl (pick ((t, Some v) :: s) r) = run o' fl' (pick s r).
  Proof. intros. simpl. rewrite H. reflexivity. Qed.
  Lemma run_none : forall o fl t s r, run o fl (pick ((t, None) :: s) r) = run o fl (pick s r).
  Proof. reflexivity. Qed.
  (** a field that is printed only when not empty and whose empty value is what the object holds anyway *)
  Lemma run_ne : forall o fl t v s r o' fl', STEP o fl t v = Ok (o', fl') -> (v = [] -> o' = o /\ fl' = fl) ->
    run o fl (pick ((t, ne v) :: s) r) = run o' fl' (pick s r).
  Proof.
    intros o fl t v s r o' fl' HS HE. unfold ne. destruct v; [|apply run_some; exact HS].
    destruct (HE eq_refl) as (-> & ->). reflexivity.
  Qed.

  (** an invariant of the loop over fields whose tag and value satisfy [C] *)
  Variable C : tag -> str -> Prop.
  Variable J : O -> list tag -> FL -> Prop.
  Hypothesis J_step : forall o seen fl t v o' fl', J o seen fl -> mem_tag t seen = false -> C t v ->
    STEP o fl t v = Ok (o', fl') -> J o' (t :: seen) fl'.

  Lemma loop_inv : forall fs o seen fl r, Forall (fun f => forall t v, split_field f = Some (t, v) -> C t v) fs ->
    J o seen fl -> F o seen fl fs = Ok r -> exists o' seen' fl', FIN o' fl' = Ok r /\ J o' seen' fl'.
  Proof.
    induction fs as [|f l IH]; intros o seen fl r HC HJ HF.
    - rewrite F_nil in HF. eauto.
    - rewrite F_cons in HF. inversion HC as [|? ? Cf Cl]; subst.
      destruct (split_field f) as [[t v]|] eqn:SF; [|discriminate].
      destruct (mem_tag t seen) eqn:M; [discriminate|].
      destruct (STEP o fl t v) as [[o' fl']| | |] eqn:S; try discriminate.
      apply (IH o' (t :: seen) fl' r Cl); [exact (J_step o seen fl t v o' fl' HJ M (Cf t v eq_refl) S)|exact HF].
  Qed.

  Variable ADD : O -> tagpair -> O.
  Variable K0 : list tag.
  Hypothesis STEP_other : forall o fl t v, mem_tag t K0 = false -> STEP o fl t v = Ok (ADD o (t, v), fl).

  Lemma run_others : forall l o fl, (forall tp, In tp l -> mem_tag (fst tp) K0 = false) ->
    run o fl (pick [] l) = FIN (fold_left ADD l o) fl.
  Proof.
    induction l as [|[t v] l IH]; intros o fl HK; simpl; [reflexivity|].
    rewrite (STEP_other o fl t v (HK (t, v) (or_introl eq_refl))). apply IH. intros tp Hin. apply HK. right; exact Hin.
  Qed.
End Loop.
Arguments pick : simpl never.
Arguments run : simpl never.
