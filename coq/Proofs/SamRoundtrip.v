(** C06 — the full SAM text round trip: UnmarshalSAM inverts MarshalSAM field
    by field (reference names and the mate column, ParseCigar after
    Cigar.String, contract after Expand, quality -33 after +33), then on the
    whole line. *)
From Coq Require Import ZArith List Bool Lia.
From Hts Require Import Base.Prim Base.Bits Generated Model.SamText Model.SamSpec.
From Hts Require Import Proofs.SamBytes Proofs.SamFormat Proofs.SamAux.
Import ListNotations.
Open Scope Z_scope.

Lemma find_ref_nth : forall h i k n l,
  NoDup (map fst h) -> nth_error h i = Some (n, l) -> find_ref h n k = Some (k + i)%nat.
Proof.
  induction h as [|[n0 l0] h IH]; intros i k n l N E; [destruct i; discriminate|].
  inversion N as [|? ? Hnin N']; subst. cbn [find_ref].
  destruct i as [|i]; cbn [nth_error] in E.
  - inversion E; subst. rewrite beq_refl, Nat.add_0_r. reflexivity.
  - destruct (beq n0 n) eqn:Eb.
    + apply beq_true_iff in Eb. subst. destruct Hnin.
      apply in_map_iff. exists (n, l). split; [reflexivity|]. eapply nth_error_In; eauto.
    + rewrite (IH i (S k) n l N' E). f_equal. lia.
Qed.

Lemma reference_for_name_spec : forall h r, hdr_ok h -> ref_ok h r ->
  reference_for_name h (star_or (view_name h r)) = Ok r.
Proof.
  intros h [i|] Hh Hr; [|reflexivity].
  destruct (ref_entry h i Hh Hr) as (n & l & E & -> & _ & Hs & _).
  cbn [star_or]. unfold reference_for_name.
  rewrite (proj2 (beq_false_iff n [42]) Hs), (find_ref_nth h i 0 n l (proj1 Hh) E). reflexivity.
Qed.

Lemma free9_star : free 9 [42].
Proof. apply free_one. lia. Qed.

Lemma rname_free : forall h r, hdr_ok h -> ref_ok h r -> free 9 (star_or (view_name h r)).
Proof.
  intros h [i|] Hh Hr; [|exact free9_star].
  destruct (ref_entry h i Hh Hr) as (n & l & _ & -> & _ & _ & _ & F). exact F.
Qed.

Lemma rnext_free : forall h ref mate, hdr_ok h -> ref_ok h ref -> ref_ok h mate -> free 9 (rnext_text h ref mate).
Proof.
  intros h ref mate Hh Hr Hm. unfold rnext_text.
  destruct mate as [j|]; [|exact free9_star].
  destruct (ref_entry h j Hh Hm) as (mn & ml & _ & -> & _ & _ & _ & F).
  destruct (view_name h ref) as [rn|]; [|assumption].
  destruct (beq mn rn); [apply free_one; lia|assumption].
Qed.

Lemma mate_back : forall h ref mate, hdr_ok h -> ref_ok h ref -> ref_ok h mate ->
  (if beq (star_or (view_name h ref)) (rnext_text h ref mate) || beq (rnext_text h ref mate) [61]
   then Ok ref else reference_for_name h (rnext_text h ref mate)) = Ok mate.
Proof.
  intros h ref mate Hh Hr Hm. unfold rnext_text.
  pose proof (reference_for_name_spec h mate Hh Hm) as L.
  destruct mate as [j|].
  - destruct (ref_entry h j Hh Hm) as (mn & ml & Ej & Vj & _ & Hms & Hme & _). rewrite Vj in *. cbn [star_or] in L.
    apply beq_false_iff in Hme.
    destruct ref as [i|].
    + destruct (ref_entry h i Hh Hr) as (rn & rl & Ei & -> & _). cbn [star_or].
      destruct (beq mn rn) eqn:Eb.
      * (* same name, hence the same reference *)
        apply beq_true_iff in Eb. subst rn. rewrite Hme, beq_refl. cbn [orb]. do 2 f_equal.
        exact (same_name_same_ref h i j mn rl ml Hh Ei Ej).
      * rewrite Hme, (proj2 (beq_false_iff rn mn)) by (intros ->; rewrite beq_refl in Eb; discriminate).
        exact L.
    + cbn [view_name star_or]. rewrite Hme, (proj2 (beq_false_iff [42] mn)) by congruence. exact L.
  - destruct ref as [i|]; [|reflexivity].
    destruct (ref_entry h i Hh Hr) as (rn & rl & _ & -> & _ & Hrs & _). cbn [view_name star_or].
    rewrite (proj2 (beq_false_iff rn [42]) Hrs). reflexivity.
Qed.

Lemma lor_divmod16 : forall x, Z.lor (x / 16 * 16) (x mod 16) = x.
Proof.
  intro x. pose proof (Z.mod_pos_bound x 16 eq_refl) as H.
  etransitivity; [apply (lor_high_low (x mod 16) (x / 16) 4); lia|]. clear H. dlia.
Qed.

Definition all_digits (l : list Z) : Prop := Forall (fun c => is_digit c = true) l.

Lemma print_nat10_digits : forall n, 0 <= n -> all_digits (print_nat_base 10 n).
Proof.
  intros n Hn. eapply Forall_impl; [|apply (print_nat_base_chars 10 n); lia]. intros c (d & Hd & ->).
  rewrite digit_char_dec by lia. unfold is_digit. apply andb_true_iff. split; apply Z.leb_le; lia.
Qed.

Lemma span_digits_app : forall l c rest, all_digits l -> is_digit c = false ->
  span_digits (l ++ c :: rest) = (l, c :: rest).
Proof.
  induction l as [|x l IH]; intros c rest Hl Hc.
  - cbn [app span_digits]. rewrite Hc. reflexivity.
  - inversion Hl; subst. cbn [app span_digits]. rewrite H1. rewrite IH by assumption. reflexivity.
Qed.

Lemma digits_val_dec : forall l acc, all_digits l -> digits_val 10 false l acc = Some (dec_val l acc).
Proof.
  induction l as [|c l IH]; intros acc H; [reflexivity|].
  inversion H as [|? ? Hc Hl]; subst. cbn [digits_val dec_val].
  rewrite andb_false_r. unfold digit_val. rewrite Hc.
  unfold is_digit in Hc. apply andb_true_iff in Hc. destruct Hc as [H1 H2].
  apply Z.leb_le in H1. apply Z.leb_le in H2.
  rewrite (proj2 (Z.leb_gt 10 (c - 48))), IH by (assumption || lia).
  do 2 f_equal. unfold u8, wrapu. rewrite Z.mod_small by lia. lia.
Qed.

Lemma pdigits_length : forall fuel k n, 0 <= n < 10 ^ Z.of_nat (S k) ->
  (length (pdigits 10 fuel n) <= S k)%nat.
Proof.
  induction fuel as [|f IH]; intros k n H; cbn [pdigits length]; [lia|].
  destruct (Z.ltb_spec n 10) as [E|E]; [cbn; lia|].
  rewrite app_length. cbn [length].
  destruct k as [|k]; [change (10 ^ Z.of_nat 1) with 10 in H; lia|].
  rewrite (Nat2Z.inj_succ (S k)), Z.pow_succ_r in H by lia.
  specialize (IH k (n / 10) ltac:(dlia)). lia.
Qed.

(** atoi of cigar.go reads back an operation length: at most nine digits. *)
Lemma cigar_atoi_print : forall n, 0 <= n < 2 ^ 28 -> cigar_atoi (print_nat_base 10 n) = Some n.
Proof.
  intros n H. unfold cigar_atoi.
  assert (L : (length (print_nat_base 10 n) <= 9)%nat).
  { apply (pdigits_length _ 8). change (10 ^ Z.of_nat 9) with 1000000000. lia. }
  change (zlen sam_powers) with 13. unfold zlen.
  rewrite (proj2 (Z.ltb_ge 13 _)) by lia. f_equal.
  assert (V := print_nat_base_val 10 false n ltac:(lia) ltac:(lia)).
  rewrite digits_val_dec in V by (apply print_nat10_digits; lia). congruence.
Qed.

Lemma spec_op_facts : forall t, 0 <= t < 9 ->
  let c := nth (Z.to_nat t) spec_ops 63 in
  is_digit c = false /\ cigar_lookup c = t /\ c <> 9.
Proof. apply (range_Forall _ 9). repeat constructor; discriminate. Qed.

Lemma new_cigar_op_back : forall co, 0 <= co < 2 ^ 32 ->
  new_cigar_op (co mod 16) (Z.min (co / 16) cig_max) = Ok co.
Proof.
  intros co H. destruct (div16_bounds co (2 ^ 28) H) as [Hq Hr]. unfold new_cigar_op, cig_max.
  change (2 ^ 28) with 268435456 in *.
  rewrite Z.min_l, (proj2 (Z.ltb_ge _ 0)), (proj2 (Z.ltb_ge _ (co / 16))) by lia. cbn [orb].
  f_equal. unfold u32, wrapu. change (2 ^ 32) with 4294967296.
  rewrite (Z.mod_small (co mod 16)), (Z.mod_small (co / 16)), Z.shiftl_mul_pow2 by lia. change (2 ^ 4) with 16.
  rewrite (Z.mod_small (co / 16 * 16)), Z.lor_comm by lia. apply lor_divmod16.
Qed.

Lemma cig_emit_one : forall co acc, 0 <= co < 2 ^ 32 ->
  cig_emit (cig_emit_fuel (co / 16)) (co mod 16) (co / 16) acc = Ok (co / 16 - cig_max, acc ++ [co]).
Proof.
  intros co acc H. unfold cig_emit_fuel. cbn [cig_emit]. rewrite new_cigar_op_back by assumption.
  unfold cig_max. rewrite (proj2 (Z.leb_le _ 0)) by (pose proof (div16_bounds co (2 ^ 28) H); lia). reflexivity.
Qed.

Lemma parse_cigar_loop_text : forall c fuel op n acc,
  Forall (fun co => 0 <= co < 2 ^ 32 /\ co mod 16 <= 8) c ->
  (length (cigar_text c) < fuel)%nat ->
  parse_cigar_loop fuel (cigar_text c) op n acc = Ok (acc ++ c).
Proof.
  induction c as [|co c IH]; intros fuel op n acc H Hf; (destruct fuel as [|f]; [inversion Hf|]).
  - cbn. rewrite app_nil_r. reflexivity.
  - inversion H as [|? ? [H1 H2] H3]; subst.
    unfold cigar_text in *. cbn [map flat_map fst snd] in *. fold (cigar_text c) in *.
    destruct (div16_bounds co (2 ^ 28) H1) as [Hq Hr]. assert (Hm : 0 <= co mod 16 < 9) by lia.
    destruct (spec_op_facts (co mod 16) Hm) as (Hd & Hl & _).
    set (letter := nth (Z.to_nat (co mod 16)) spec_ops 63) in *.
    rewrite print_Z_nonneg, <- app_assoc in * by lia. cbn [app] in *.
    pose proof (print_nat_base_nonempty 10 (co / 16)) as NE.
    rewrite app_length in Hf. cbn [length] in Hf.
    (* the loop looks at its input only to see that it is not empty *)
    cbn [parse_cigar_loop].
    destruct (print_nat_base 10 (co / 16) ++ letter :: cigar_text c) as [|x xs] eqn:Ex;
      [destruct (app_eq_nil _ _ Ex); contradiction|]. rewrite <- Ex.
    rewrite span_digits_app, cigar_atoi_print, Hl by (assumption || apply print_nat10_digits; lia).
    rewrite (proj2 (Z.eqb_neq _ sam_lastCigar)) by (change sam_lastCigar with 10; lia).
    rewrite cig_emit_one by assumption. cbn [obind].
    rewrite IH, <- app_assoc by (assumption || lia). reflexivity.
Qed.

Theorem parse_cigar_back : forall c,
  Forall (fun co => 0 <= co < 2 ^ 32 /\ co mod 16 <= 8) c ->
  parse_cigar (spec_cigar (map (fun co => (co / 16, co mod 16)) c)) = Ok c.
Proof.
  intros c H. destruct c as [|co c]; [reflexivity|].
  change (spec_cigar _) with (cigar_text (co :: c)).
  unfold parse_cigar. rewrite parse_cigar_loop_text by (assumption || apply Nat.lt_succ_diag_r).
  (* the text begins with a digit, so it is not "*" *)
  inversion H as [|? ? [H1 _] _]; subst. destruct (div16_bounds co (2 ^ 28) H1) as [Hq _].
  unfold cigar_text. cbn [map flat_map fst snd]. rewrite print_Z_nonneg by lia.
  destruct (print_nat_base_head 10 (co / 16) ltac:(lia) ltac:(lia)) as (d & t & -> & Hd & _).
  cbn [app beq]. rewrite digit_char_dec, (proj2 (Z.eqb_neq (48 + d) 42)) by lia.
  reflexivity.
Qed.

Lemma cigar_text_free : forall c,
  Forall (fun co => 0 <= co < 2 ^ 32 /\ co mod 16 <= 8) c ->
  free 9 (spec_cigar (map (fun co => (co / 16, co mod 16)) c)).
Proof.
  intros c H. destruct c as [|co c]; [exact free9_star|].
  change (spec_cigar _) with (cigar_text (co :: c)).
  induction H as [|x l [H1 H2] Hl IH]; [apply free_nil|].
  unfold cigar_text in *. cbn [map flat_map fst snd].
  rewrite !free_app. repeat split; [apply print_Z_free; lia| |exact IH].
  apply free_one, spec_op_facts. pose proof (Z.mod_pos_bound x 16). lia.
Qed.

Lemma spec_base_facts : forall k, 0 <= k < 16 ->
  let c := nth (Z.to_nat k) spec_bases 0 in
  getz sam_n16Table c = k /\ c <> 9 /\ c <> 42.
Proof. apply (range_Forall _ 16). repeat constructor; discriminate. Qed.

Lemma n16_back : forall k, 0 <= k < 16 -> getz sam_n16Table (nth (Z.to_nat k) spec_bases 0) = k.
Proof. intros. apply spec_base_facts. assumption. Qed.

Lemma base_at_char : forall ds j, Forall (fun d => 0 <= d < 256) ds ->
  base_at ds j <> 9 /\ base_at ds j <> 42.
Proof.
  intros ds j Hb. unfold base_at.
  assert (Hd : 0 <= nth (Nat.div2 j) ds 0 < 256).
  { destruct (nth_in_or_default (Nat.div2 j) ds 0) as [Hin| ->]; [|lia]. rewrite Forall_forall in Hb. auto. }
  apply spec_base_facts. destruct (Nat.even j); apply (div16_bounds _ 16 Hd).
Qed.

Lemma base_at_0 : forall d ds, base_at (d :: ds) 0 = nth (Z.to_nat (d / 16)) spec_bases 0.
Proof. reflexivity. Qed.
Lemma base_at_1 : forall d ds, base_at (d :: ds) 1 = nth (Z.to_nat (d mod 16)) spec_bases 0.
Proof. reflexivity. Qed.
Lemma base_at_SS : forall d ds j, base_at (d :: ds) (S (S j)) = base_at ds j.
Proof. reflexivity. Qed.

Lemma seq_SS : forall m, seq 0 (S (S m)) = 0%nat :: 1%nat :: map (fun j => S (S j)) (seq 0 m).
Proof. intro m. cbn [seq]. rewrite <- seq_shift, <- seq_shift, map_map. reflexivity. Qed.

Lemma byte_pack : forall d, 0 <= d < 256 ->
  Z.lor (u8 (Z.shiftl (d / 16) 4)) (d mod 16) = d.
Proof.
  intros d H. rewrite Z.shiftl_mul_pow2 by lia. change (2 ^ 4) with 16.
  unfold u8, wrapu. change (2 ^ 8) with 256. rewrite Z.mod_small by (pose proof (div16_bounds d 16 H); lia).
  apply lor_divmod16.
Qed.

Lemma contract_bases : forall ds n,
  length ds = Nat.div2 (S n) -> Forall (fun d => 0 <= d < 256) ds ->
  (Nat.odd n = true -> (last ds 0) mod 16 = 0) ->
  contract (map (base_at ds) (seq 0 n)) = ds.
Proof.
  induction ds as [|d ds IH]; intros n Hl Hb Ho.
  - destruct n as [|[|n]]; [reflexivity|discriminate|discriminate].
  - inversion Hb as [|? ? Hd Hds]; subst. destruct (div16_bounds d 16 Hd) as [Hh Hlo].
    destruct n as [|[|m]]; [discriminate| |].
    + destruct ds; [|discriminate].
      cbn [seq map]. rewrite base_at_0. cbn [contract]. rewrite n16_back by assumption.
      specialize (Ho eq_refl). cbn [last] in Ho. pose proof (byte_pack d Hd) as P. rewrite Ho, Z.lor_0_r in P. rewrite P. reflexivity.
    + rewrite seq_SS. cbn [map]. rewrite base_at_0, base_at_1, map_map.
      rewrite (map_ext _ (base_at ds)) by (intro; apply base_at_SS).
      cbn [contract]. rewrite !n16_back, byte_pack by assumption. f_equal.
      apply IH; [|assumption|].
      * change (Nat.div2 (S (S (S m)))) with (S (Nat.div2 (S m))) in Hl. cbn [length] in Hl. lia.
      * intro O. destruct ds as [|d2 ds']; [destruct m; discriminate|]. apply Ho, O.
Qed.

Lemma bases_free : forall ds l, Forall (fun d => 0 <= d < 256) ds -> free 9 (map (base_at ds) l).
Proof.
  intros ds l Hb H. apply in_map_iff in H. destruct H as (j & E & _). exact (proj1 (base_at_char ds j Hb) E).
Qed.

Lemma qual_back_bytes : forall l, Forall (fun v => 0 <= v <= 93) l ->
  map (fun c => u8 (c - 33)) (map (fun p => p + 33) l) = l.
Proof.
  induction 1 as [|v l Hv Hl IH]; [reflexivity|]. cbn [map]. rewrite IH. f_equal.
  unfold u8, wrapu. change (2 ^ 8) with 256. rewrite Z.mod_small; lia.
Qed.

Lemma all_ff_repeat : forall l, all_ff l = true -> l = repeat 255 (length l).
Proof.
  induction l as [|v l IH]; intro H; [reflexivity|].
  cbn in H. apply andb_true_iff in H. destruct H as [H1 H2]. apply Z.eqb_eq in H1. subst.
  cbn [length repeat]. f_equal. apply IH. exact H2.
Qed.

Lemma phred_text_free : forall l, Forall (fun v => 0 <= v <= 93) l -> free 9 (map (fun p => p + 33) l).
Proof.
  intros l H X. apply in_map_iff in X. destruct X as (v & E & Hin).
  rewrite Forall_forall in H. apply H in Hin. lia.
Qed.

(** [seq_ok] in the terms of [contract_bases]: doublet count and parity over nat. *)
Lemma seq_ok_nat : forall len ds, seq_ok len ds ->
  length ds = Nat.div2 (S (Z.to_nat len)) /\ (Nat.odd (Z.to_nat len) = true -> last ds 0 mod 16 = 0).
Proof.
  intros len ds (H0 & Hl & _ & Ho). split.
  - apply Nat2Z.inj. rewrite Nat.div2_div, Nat2Z.inj_div, Nat2Z.inj_succ, Z2Nat.id by exact H0. exact Hl.
  - intro O. apply Ho. apply Nat.odd_spec in O. destruct O as [k O]. dlia.
Qed.

Theorem seq_roundtrip_full :
  forall len ds, seq_ok len ds ->
    expand len ds = Ok (map (base_at ds) (seq 0 (Z.to_nat len))) /\
    contract (map (base_at ds) (seq 0 (Z.to_nat len))) = ds.
Proof.
  intros len ds S. destruct (seq_ok_nat len ds S) as [Hlen Hodd]. destruct S as (H0 & Hl & Hb & _). split.
  - unfold expand. rewrite (proj2 (Z.ltb_ge len 0) H0). apply (expand_from_spec ds len (Z.to_nat len) 0 Hb); lia.
  - apply contract_bases; assumption.
Qed.

Definition seq_text (r : samrec) : list Z :=
  match map (base_at (r_seq r)) (seq 0 (Z.to_nat (r_seqlen r))) with [] => [42] | q => q end.

Lemma seq_text_free : forall r, seq_ok (r_seqlen r) (r_seq r) -> free 9 (seq_text r).
Proof.
  intros r (_ & _ & Hb & _). unfold seq_text.
  destruct (map _ _) eqn:E; [exact free9_star|]. rewrite <- E. apply bases_free, Hb.
Qed.

Lemma parse_seq_back : forall r,
  seq_ok (r_seqlen r) (r_seq r) ->
  (r_cigar r = [] \/ r_seqlen r = 0 \/ cigar_is_valid (r_cigar r) (r_seqlen r) = Ok true) ->
  parse_seq_field (r_cigar r) (seq_text r) = Ok (r_seqlen r, r_seq r).
Proof.
  intros r S Hc. destruct (seq_roundtrip_full _ _ S) as [_ C]. destruct S as (H0 & Hl & Hb & _).
  unfold seq_text, parse_seq_field.
  destruct (Z.to_nat (r_seqlen r)) as [|n] eqn:En.
  - assert (E : r_seqlen r = 0) by lia. rewrite E in Hl.
    destruct (r_seq r); [rewrite E; reflexivity|unfold zlen in Hl; cbn [length] in Hl; dlia].
  - set (bs := map (base_at (r_seq r)) (seq 0 (S n))) in *.
    assert (ZL : zlen bs = r_seqlen r) by (unfold zlen, bs; rewrite map_length, seq_length; lia).
    assert (NS : beq bs [42] = false).
    { apply beq_false_iff. intros E. unfold bs in E. cbn [seq map] in E. injection E as E1 _.
      exact (proj2 (base_at_char _ _ Hb) E1). }
    destruct bs eqn:Eb; [discriminate|]. rewrite NS, ZL, C. cbn [negb].
    destruct Hc as [->|[Hc| ->]]; [reflexivity|lia|destruct (r_cigar r); reflexivity].
Qed.

Definition qual_back (seqlen : Z) (q : option (list Z)) : option (list Z) :=
  match q with
  | Some l => if all_ff l then (if seqlen =? 0 then None else Some l) else Some l
  | None => if seqlen =? 0 then None else Some (repeat 255 (Z.to_nat seqlen))
  end.

Lemma all_ff_repeat255 : forall n, all_ff (repeat 255 n) = true.
Proof. induction n; [reflexivity|]. cbn. exact IHn. Qed.

Definition qual_text (r : samrec) : list Z :=
  match (match r_qual r with None => None | Some q => if all_ff q then None else Some q end) with
  | None => [42]
  | Some q => map (fun p => p + 33) q
  end.

Lemma qual_text_free : forall r, phred_ok (r_qual r) -> free 9 (qual_text r).
Proof.
  intros r H. unfold qual_text.
  destruct (r_qual r) as [l|]; [|exact free9_star].
  destruct (all_ff l) eqn:E; [exact free9_star|].
  destruct H as [H|H]; [congruence|]. apply phred_text_free. exact H.
Qed.

Lemma parse_qual_back : forall r,
  qual_ok (r_seqlen r) (r_qual r) -> phred_ok (r_qual r) ->
  parse_qual_field (qual_text r) (r_seqlen r) = qual_back (r_seqlen r) (r_qual r).
Proof.
  intros r Hq Hp. unfold qual_text, parse_qual_field, qual_back.
  destruct (r_qual r) as [l|]; [|cbn [beq Z.eqb Pos.eqb andb negb]; destruct (r_seqlen r =? 0); reflexivity].
  destruct Hq as (Hl & Hb & Hx).
  destruct (all_ff l) eqn:E.
  - cbn [beq Z.eqb Pos.eqb andb negb].
    destruct (r_seqlen r =? 0); [reflexivity|]. cbn [negb].
    rewrite (all_ff_repeat l E). do 2 f_equal. unfold zlen in Hl. lia.
  - destruct Hp as [Hp|Hp]; [congruence|].
    destruct (Hx eq_refl) as [_ N9].
    assert (NS : beq (map (fun p => p + 33) l) [42] = false).
    { apply beq_false_iff. intro X. destruct l as [|v [|w l']]; try discriminate.
      inversion X. apply N9. f_equal. lia. }
    rewrite NS. cbn [negb]. destruct l as [|v l']; [discriminate|].
    exact (f_equal Some (qual_back_bytes _ Hp)).
Qed.

Lemma qual_back_len : forall seqlen q, 0 <= seqlen -> qual_ok seqlen q ->
  let ql := match qual_back seqlen q with Some l => zlen l | None => 0 end in
  negb (ql =? 0) && negb (ql =? seqlen) = false.
Proof.
  intros seqlen q H0 Hq. cbv zeta. unfold qual_back.
  assert (R : zlen (repeat 255 (Z.to_nat seqlen)) = seqlen) by (unfold zlen; rewrite repeat_length; lia).
  destruct q as [l|].
  - destruct Hq as (Hl & _).
    destruct (all_ff l); [destruct (seqlen =? 0); [reflexivity|]|]; rewrite Hl, Z.eqb_refl; apply andb_false_r.
  - destruct (seqlen =? 0); [reflexivity|]. rewrite R, Z.eqb_refl. apply andb_false_r.
Qed.

Lemma qual_back_ok : forall seqlen q, 0 <= seqlen -> qual_ok seqlen q -> qual_ok seqlen (qual_back seqlen q).
Proof.
  intros seqlen q H0 Hq. unfold qual_back. destruct q as [l|].
  - destruct (all_ff l); [destruct (seqlen =? 0); [exact I|exact Hq]|exact Hq].
  - destruct (seqlen =? 0); [exact I|]. cbn [qual_ok]. split; [unfold zlen; rewrite repeat_length; lia|].
    split.
    + apply Forall_forall. intros v Hin. apply repeat_spec in Hin. lia.
    + intro X. rewrite all_ff_repeat255 in X. discriminate.
Qed.

Lemma qual_back_phred : forall seqlen q, phred_ok q -> phred_ok (qual_back seqlen q).
Proof.
  intros seqlen q H. unfold qual_back. destruct q as [l|].
  - destruct (all_ff l); [destruct (seqlen =? 0); [exact I|exact H]|exact H].
  - destruct (seqlen =? 0); [exact I|]. left. apply all_ff_repeat255.
Qed.

Lemma qual_back_view : forall seqlen q,
  match qual_back seqlen q with None => None | Some l => if all_ff l then None else Some l end =
  match q with None => None | Some l => if all_ff l then None else Some l end.
Proof.
  intros seqlen q. unfold qual_back. destruct q as [l|].
  - destruct (all_ff l) eqn:E; [destruct (seqlen =? 0); [reflexivity|rewrite E; reflexivity]|rewrite E; reflexivity].
  - destruct (seqlen =? 0); [reflexivity|]. rewrite all_ff_repeat255. reflexivity.
Qed.

(** What UnmarshalSAM returns for the line of a record: the record itself up
    to the representation of an absent quality (nil when there is no
    sequence, all 0xff otherwise) and the width of aux integers (smallest). *)
Definition rec_back (r : samrec) : samrec :=
  mk_rec (r_name r) (r_flags r) (r_ref r) (r_pos r) (r_mapq r) (r_cigar r) (r_mref r) (r_mpos r)
         (r_tlen r) (r_seqlen r) (r_seq r) (qual_back (r_seqlen r) (r_qual r)) (map aux_back (r_aux r)).

Lemma rec_back_view : forall h r, view h (rec_back r) = view h r.
Proof.
  intros h r. unfold view, rec_back.
  cbn [r_name r_flags r_ref r_mref r_pos r_mpos r_tlen r_mapq r_cigar r_seqlen r_seq r_qual r_aux].
  rewrite qual_back_view. f_equal.
  rewrite map_map. apply map_ext. intro a. unfold aux_back. cbn [a_t0 a_t1 a_val]. rewrite view_canon. reflexivity.
Qed.

Lemma rec_back_valid : forall h r, valid 8 h r -> valid 8 h (rec_back r).
Proof.
  intros h r V. destruct V.
  constructor; cbn [rec_back r_name r_flags r_ref r_mref r_pos r_mpos r_tlen r_mapq r_cigar r_seqlen r_seq r_qual r_aux]; auto.
  - apply qual_back_ok; [destruct v_seq|]; auto.
  - rewrite Forall_map. eapply Forall_impl; [|exact v_aux]. intros a (A & B & C).
    repeat split; auto. apply canon_ok. exact C.
Qed.

Section Roundtrip.
  Variable fmt_f32 : Z -> list Z.
  Variable parse_f32 : list Z -> option Z.
  Variable f32_ok : Z -> Prop.
  Hypothesis f32_law : forall x, f32_ok x -> parse_f32 (fmt_f32 x) = Some x.
  Hypothesis f32_clean : forall x, f32_ok x -> free 9 (fmt_f32 x) /\ free 44 (fmt_f32 x).

  Definition aux_texts (l : list aux) : list (list Z) :=
    map (spec_opt fmt_f32) (map (fun a => ([a_t0 a; a_t1 a], view_val (a_val a))) l).

  Lemma parse_auxes_back : forall l,
    Forall aux_ok l -> Forall (fun a => floats_ok_all f32_ok (a_val a)) l ->
    parse_auxes parse_f32 (aux_texts l) = Ok (map aux_back l) /\ Forall (free 9) (aux_texts l).
  Proof.
    induction l as [|a l IH]; intros Ha Hf; [split; [reflexivity|constructor]|].
    inversion Ha as [|? ? Hok Hal]; subst. inversion Hf as [|? ? Hfa Hfl]; subst.
    destruct (IH Hal Hfl) as [IH1 IH2]. unfold aux_texts in *. cbn [map parse_auxes]. split.
    - rewrite (aux_roundtrip_all fmt_f32 parse_f32 f32_ok f32_law f32_clean a (proj2 (proj2 Hok)) Hfa), IH1. reflexivity.
    - constructor; [eapply aux_text_free; eassumption|exact IH2].
  Qed.

  (** UnmarshalSAM of the line of the specification, whatever readable text
      stands in the FLAG column. *)
  Lemma parse_line_back : forall h r ftext,
    valid 8 h r -> phred_ok (r_qual r) -> Forall (fun a => floats_ok_all f32_ok (a_val a)) (r_aux r) ->
    free 9 ftext -> go_parse_uint ftext 0 16 = Some (r_flags r) ->
    parse_record parse_f32 h (spec_format fmt_f32 ftext (view h r)) = Ok (rec_back r).
  Proof.
    intros h r ftext V Hp Hfl Hff Hfp. destruct V.
    destruct (parse_auxes_back (r_aux r) v_aux Hfl) as [Hax Haf].
    unfold spec_format, view, spec_rnext.
    cbn [s_qname s_flag s_rname s_pos s_mapq s_cigar s_rnext s_pnext s_tlen s_seq s_qual s_opt].
    fold (rnext_text h (r_ref r) (r_mref r)). fold (seq_text r). fold (qual_text r). fold (aux_texts (r_aux r)).
    unfold parse_record. rewrite split_join.
    2:{ intro X. apply app_eq_nil in X. destruct X. discriminate. }
    2:{ apply Forall_app. split; [|exact Haf].
        repeat (apply Forall_cons || apply Forall_nil);
          auto using rname_free, rnext_free, seq_text_free, qual_text_free, cigar_text_free;
          apply print_Z_free; lia. }
    cbn [app]. unfold atoi_o.
    rewrite Hfp, reference_for_name_spec, !atoi_print, parse_uint10_print by (assumption || (change (2 ^ 8) with 256; lia)).
    cbn [obind]. rewrite parse_cigar_back by assumption.
    cbn [obind]. rewrite mate_back by assumption.
    cbn [obind]. rewrite parse_seq_back by assumption. cbn [obind].
    rewrite parse_qual_back, qual_back_len, Hax by (destruct v_seq; auto). cbn [obind].
    rewrite !Z.add_simpl_r, !s64_id by lia. reflexivity.
  Qed.

  (** SAM text round trip.  For every record expressible in SAM text and both
      parseable flag formats: MarshalSAM gives a line; UnmarshalSAM of the line
      (same header) gives [rec_back r], which has the same view at the level
      of the specification as [r] (field-wise equal; aux integers by value;
      absent quality in its canonical form); MarshalSAM of it gives the line. *)
  Theorem roundtrip_gen : forall h r fl,
    valid 8 h r -> phred_ok (r_qual r) -> Forall (fun a => floats_ok_all f32_ok (a_val a)) (r_aux r) ->
    (fl = sam_FlagDecimal \/ fl = sam_FlagHex) ->
    exists line,
      format_record fmt_f32 h fl r = Ok line /\
      parse_record parse_f32 h line = Ok (rec_back r) /\
      view h (rec_back r) = view h r /\
      format_record fmt_f32 h fl (rec_back r) = Ok line.
  Proof.
    intros h r fl V Pq Hfl Hf.
    destruct (flag_text_back fl (r_flags r) (v_flags _ _ _ V)) as [Ff Fp].
    exists (spec_format fmt_f32 (flag_text fl (r_flags r)) (view h r)).
    split; [apply format_is_spec; assumption|]. split; [apply parse_line_back; assumption|].
    split; [apply rec_back_view|].
    rewrite <- rec_back_view. apply (format_is_spec fmt_f32 h (rec_back r) fl); [apply rec_back_valid, V|apply qual_back_phred, Pq|exact Hf].
  Qed.
End Roundtrip.
