(** The sequential writer machine (Model/Writer.v) run without failures
    ([sstep None []]): its invariant, what the invariant gives at the end of a
    script, and termination. *)
From Coq Require Import ZArith Lia List Bool.
From Hts Require Import Base.Prim Base.WrList Generated Model.Bgzf Model.Writer.
Import ListNotations.
Open Scope Z_scope.

Definition step0 := sstep None [].

Definition pcb (s : sst) : list Z :=
  match s_pc s with AWLoop b _ _ | AWSend b _ | AWAdd b _ | AWRecv b _ => b | _ => [] end.

Definition pend (s : sst) : list Z :=
  match s_pc s with
  | AWAdd _ _ | AWRecv _ _ | ACAdd | ACRecv | ACCompress => []
  | AFSend => s_local s ++ s_act s
  | _ => s_act s
  end.

Definition close_pc (pc : apc) : bool :=
  match pc with ACSend | ACAdd | ACRecv | ACCompress | ACCloseQ | ACWg => true | _ => false end.

Definition closing (s : sst) : bool := s_closed s || close_pc (s_pc s).

Definition small (p : list Z) : Prop := zlen p <= bgzf_BlockSize.

Record SInv (W : list Z) (s : sst) : Prop := {
  si_act : small (s_act s);
  si_local : small (s_local s);
  si_sub : Forall small (s_sub s);
  si_data : concat (s_sub s) ++ pend s = s_data s;
  si_written : s_data s ++ pcb s ++ (if closing s then [] else written (s_script s)) = W;
  si_eof : s_closed s = true -> s_pc s = ACWg \/ s_eof s = true;
  si_eof_closed : s_eof s = true -> s_closed s = true;
  si_closed_pc : s_closed s = true ->
                 (s_pc s = AIdle \/ s_pc s = AWaitQ \/ s_pc s = ACWg \/ s_pc s = ADone) /\ (s_pc s <> ACWg -> s_act s = []);
  si_closepc_open : close_pc (s_pc s) = true -> s_pc s <> ACWg -> s_closed s = false;
  si_flushmark : 0 <= s_flushmark s <= zlen (concat (s_sub s));
  si_durable : 0 <= s_durable s <= zlen (concat (s_sub s));
  si_wloop : match s_pc s with AWLoop _ _ (Some _) => False | _ => True end;
  si_fact : s_pc s = AFSend \/ s_pc s = AFAdd \/ s_pc s = ACCloseQ \/ s_pc s = ACWg -> s_act s = [];
  si_wg : s_pc s = ACWg -> s_closed s = true;
  si_done : s_pc s = ADone -> s_script s = [];
  si_close_eof : close_pc (s_pc s) = true -> s_eof s = false
}.

Lemma small_nil : small [].
Proof. unfold small, bgzf_BlockSize. cbn. lia. Qed.

Lemma isnil_nil {A} (l : list A) : isnil l = true -> l = [].
Proof. destruct l; [reflexivity|discriminate]. Qed.

Lemma wcopy_n_range act b : small act -> 0 <= wcopy_n act b <= zlen b /\ zlen act + wcopy_n act b <= bgzf_BlockSize.
Proof.
  intros Ha. unfold small in Ha. unfold wcopy_n.
  pose proof (zlen_nonneg act). pose proof (zlen_nonneg b).
  destruct ((zlen act =? 0) || (zlen act + zlen b <=? bgzf_BlockSize)); lia.
Qed.

Ltac sproj := cbn [s_pc s_act s_local s_script s_closed s_eof s_res s_sub s_data s_flushmark s_durable s_marks
                   set_pc ret pop set_flushmark set_durable submit set_act] in *.

(** The leaves of [sstep e fb s], for a goal that mentions it (or [step0 s]):
    by program counter; at AIdle by the next call of the script, by whether the
    writer is closed (Hcl) and, for Flush, whether the block is empty (Hact);
    at AWLoop by whether Write returns (Hret) and whether the copy filled the
    block (Hfull); only the cases that agree with an equation for [s_pc s] or
    [s_script s] in the context.  The analysis runs on one copy of the step,
    set aside in an equation; the successor state is then reduced to field
    values of [s].  A test of [e] stays. *)
Ltac sstep_cases s :=
  unfold step0;
  lazymatch goal with
  | |- context [sstep ?e ?fb s] =>
      let s' := fresh "s'" in
      let E := fresh "E" in
      remember (sstep e fb s) as s' eqn:E; unfold sstep in E;
      first [match goal with H : s_pc s = _ |- _ => rewrite H in E; pose proof H as Hpc end
            |destruct (s_pc s) eqn:Hpc; try discriminate];
      lazymatch goal with
      | _ : s_pc s = AIdle |- _ =>
          destruct (s_script s) as [|[] ?] eqn:Hscr; try discriminate; sproj;
          try match type of E with context [if s_closed s then _ else _] => destruct (s_closed s) eqn:Hcl end;
          try match type of E with context [isnil (s_act s)] => destruct (isnil (s_act s)) eqn:Hact end
      | _ : s_pc s = AWLoop _ _ _ |- _ =>
          match type of E with context [isnil ?b || is_some ?er] => destruct (isnil b || is_some er) eqn:Hret end;
          [|unfold write_iter in E;
            match type of E with context [if ?c then AWSend _ _ else _] => destruct c eqn:Hfull end]
      | _ => idtac
      end; subst s'; sproj;
      repeat match goal with
             | H : s_pc s = _ |- context [s_pc s] => rewrite H
             | H : s_script s = _ |- context [s_script s] => rewrite H
             | H : s_closed s = _ |- context [s_closed s] => rewrite H
             end
  end.

(** The control part of [SInv] in one piece: what the program counter says
    about the flags.  Close sets bg.closed on the way to ACWg and writes the
    marker on the way out of it; the caller's block is empty wherever it has
    just been handed on. *)
Definition phase (s : sst) : Prop :=
  match s_pc s with
  | AIdle | AWaitQ => s_closed s = s_eof s /\ (s_closed s = true -> s_act s = [])
  | ADone => s_script s = [] /\ s_closed s = s_eof s /\ (s_closed s = true -> s_act s = [])
  | ACWg => s_closed s = true /\ s_eof s = false /\ s_act s = []
  | AFSend | AFAdd | ACCloseQ => s_closed s = false /\ s_eof s = false /\ s_act s = []
  | AWLoop _ _ (Some _) => False
  | _ => s_closed s = false /\ s_eof s = false
  end.

Lemma closed_pcs s : (s_closed s = true ->
                 (s_pc s = AIdle \/ s_pc s = AWaitQ \/ s_pc s = ACWg \/ s_pc s = ADone) /\ (s_pc s <> ACWg -> s_act s = [])) ->
  forall pc, s_pc s = pc -> pc <> AIdle -> pc <> AWaitQ -> pc <> ACWg -> pc <> ADone -> s_closed s = false.
Proof.
  intros H pc Hpc H1 H2 H3 H4. destruct (s_closed s); [|reflexivity].
  destruct (H eq_refl) as [[E|[E|[E|E]]] _]; congruence.
Qed.

Lemma SInv_phase W s : SInv W s -> phase s.
Proof.
  intros [_ _ _ _ _ He Hec Hcp _ _ _ Hwl Hfa Hwg Hdn Hce]. unfold phase.
  assert (Hopen : forall pc, s_pc s = pc -> pc <> AIdle -> pc <> AWaitQ -> pc <> ACWg -> pc <> ADone ->
                  s_closed s = false /\ s_eof s = false).
  { intros pc E H1 H2 H3 H4. pose proof (closed_pcs s Hcp pc E H1 H2 H3 H4) as C. split; [exact C|].
    destruct (s_eof s); [rewrite Hec in C by reflexivity; discriminate C|reflexivity]. }
  assert (Hidle : s_pc s <> ACWg -> s_closed s = s_eof s /\ (s_closed s = true -> s_act s = [])).
  { intros N. split; [|intros C; apply (Hcp C), N].
    destruct (s_closed s) eqn:C; [destruct (He eq_refl); [contradiction|congruence]|].
    destruct (s_eof s); [apply Hec; reflexivity|reflexivity]. }
  destruct (s_pc s) as [| ? ? []| | | | | | | | | | | | | |] eqn:Hpc; try contradiction;
    try (apply Hidle; discriminate);
    try (destruct (Hopen _ eq_refl) as [C E]; try discriminate; auto 8; fail).
  - auto 8.
  - split; [auto|]. apply Hidle; discriminate.
Qed.

Lemma SInv_intro W s :
  phase s -> small (s_act s) /\ small (s_local s) /\ Forall small (s_sub s) ->
  concat (s_sub s) ++ pend s = s_data s /\
  s_data s ++ pcb s ++ (if closing s then [] else written (s_script s)) = W ->
  0 <= s_flushmark s <= zlen (concat (s_sub s)) /\ 0 <= s_durable s <= zlen (concat (s_sub s)) ->
  SInv W s.
Proof.
  unfold phase. intros P (? & ? & ?) (? & ?) (? & ?).
  constructor; try assumption; try (intros [E|[E|[E|E]]]; rewrite E in P; apply P).
  all: destruct (s_pc s) as [| ? ? []| | | | | | | | | | | | | |]; cbn [close_pc]; try discriminate; try exact I;
    try contradiction; intros; decompose [and] P; try congruence; try (right; congruence); auto 7.
Qed.

Lemma sinit_inv script : SInv (written script) (sinit script).
Proof.
  apply SInv_intro; cbn; auto using small_nil. pose proof small_nil. unfold small, zlen in *. cbn in *. lia.
Qed.

(** A step keeps each of the four parts of the invariant: the control part,
    block sizes, the whereabouts of every byte of W (submitted, pending in a
    block, rest of the payload being written, still in the script), the marks. *)
Lemma phase_step s : phase s -> phase (step0 s).
Proof.
  unfold phase. sstep_cases s; try (destruct err; [contradiction|]); intuition congruence.
Qed.

Lemma step0_small s :
  small (s_act s) /\ small (s_local s) /\ Forall small (s_sub s) ->
  small (s_act (step0 s)) /\ small (s_local (step0 s)) /\ Forall small (s_sub (step0 s)).
Proof.
  intros (Ha & Hl & Hs). sstep_cases s; auto using small_nil, Forall_snoc.
  all: split; [|auto].
  all: destruct (wcopy_n_range (s_act s) b Ha) as [[? ?] ?]; unfold small; rewrite zlen_app', zlen_firstn; lia.
Qed.

Lemma step0_bytes W s :
  phase s ->
  concat (s_sub s) ++ pend s = s_data s /\
  s_data s ++ pcb s ++ (if closing s then [] else written (s_script s)) = W ->
  concat (s_sub (step0 s)) ++ pend (step0 s) = s_data (step0 s) /\
  s_data (step0 s) ++ pcb (step0 s) ++ (if closing (step0 s) then [] else written (s_script (step0 s))) = W.
Proof.
  unfold phase, pend, pcb, closing. sstep_cases s.
  all: cbn [close_pc orb written]; rewrite ?orb_false_r, ?orb_true_r, ?concat_snoc, ?app_nil_r, <- ?app_assoc;
    intros P [Hd Hw]; try (split; assumption).
  (* the copy moves bytes from the payload into the block *)
  2, 3: split; [rewrite app_assoc, Hd; reflexivity|rewrite (app_assoc (firstn _ _)), firstn_skipn; assumption].
  - (* Write returns: nothing of the payload is left *)
    destruct err; [contradiction|]. destruct b; [split; assumption|discriminate].
  - destruct P as [-> _]. split; [assumption|]. rewrite app_nil_r. assumption.
Qed.

(** A mark moves up to the length of the data only where no byte is pending. *)
Lemma step0_marks s :
  phase s -> concat (s_sub s) ++ pend s = s_data s ->
  0 <= s_flushmark s <= zlen (concat (s_sub s)) /\ 0 <= s_durable s <= zlen (concat (s_sub s)) ->
  0 <= s_flushmark (step0 s) <= zlen (concat (s_sub (step0 s))) /\
  0 <= s_durable (step0 s) <= zlen (concat (s_sub (step0 s))).
Proof.
  unfold phase, pend. sstep_cases s; intros P Hd Hm; try assumption.
  all: rewrite ?concat_snoc, ?zlen_app'; try (pose proof (zlen_nonneg (s_act s)); pose proof (zlen_nonneg (s_local s)); lia).
  all: cbn [is_some]; rewrite <- Hd; (rewrite (isnil_nil _ Hact) || destruct P as (_ & _ & ->)); rewrite app_nil_r; lia.
Qed.

Lemma step0_inv W s : SInv W s -> SInv W (step0 s).
Proof.
  intros I. pose proof (SInv_phase _ _ I) as P. destruct I.
  apply SInv_intro; [apply phase_step|apply step0_small|apply step0_bytes|apply step0_marks]; auto.
Qed.

Lemma siter_step0 n s : siter (S n) s = siter n (step0 s).
Proof. reflexivity. Qed.

Lemma siter_inv W n : forall s, SInv W s -> SInv W (siter n s).
Proof. induction n; intros s H; [assumption|]. cbn [siter]. apply IHn. apply step0_inv. assumption. Qed.

Lemma siter_keeps (P : sst -> Prop) :
  (forall s, phase s -> P s -> P (step0 s)) -> forall W n s, SInv W s -> P s -> P (siter n s).
Proof.
  intros HP W. induction n; intros s I H; [assumption|]. cbn [siter].
  apply IHn; [apply step0_inv, I|apply HP; [apply (SInv_phase _ _ I)|exact H]].
Qed.

Lemma run_writer_inv fuel script : SInv (written script) (run_writer fuel script).
Proof. apply siter_inv. apply sinit_inv. Qed.

Lemma step0_done s : sdone s = true -> step0 s = s.
Proof. unfold sdone, step0, sstep. destruct (s_pc s); try discriminate. reflexivity. Qed.

Lemma siter_done n s : sdone s = true -> siter n s = s.
Proof. induction n; intros H; [reflexivity|]. cbn [siter]. fold step0. rewrite step0_done by assumption. auto. Qed.

Lemma siter_add n m s : siter (n + m) s = siter m (siter n s).
Proof. revert s. induction n; intros s; [reflexivity|]. cbn [Nat.add siter]. apply IHn. Qed.

Lemma siter_done_unique n m s :
  sdone (siter n s) = true -> sdone (siter m s) = true -> siter n s = siter m s.
Proof.
  intros Hn Hm. destruct (Nat.le_ge_cases n m) as [H|H].
  - replace m with (n + (m - n))%nat by lia. rewrite siter_add. rewrite (siter_done (m - n) (siter n s)) by assumption. reflexivity.
  - replace n with (m + (n - m))%nat by lia. rewrite siter_add. rewrite (siter_done (n - m) (siter m s)) by assumption. reflexivity.
Qed.

Lemma eof_complete W s : SInv W s -> s_eof s = true -> s_closed s = true /\ concat (s_sub s) = W.
Proof.
  intros I He. pose proof (SInv_phase _ _ I) as P. pose proof (si_data _ _ I) as Hd. pose proof (si_written _ _ I) as Hw.
  revert P Hd Hw. unfold phase, pend, pcb, closing. rewrite He.
  destruct (s_pc s) as [| ? ? []| | | | | | | | | | | | | |]; try (intros []; congruence); try (intros (_ & ? & _); congruence).
  all: intros P; assert (Q : s_closed s = true /\ s_act s = []) by (split; [|apply P]; tauto); destruct Q as [-> ->].
  all: cbn [orb]; rewrite !app_nil_r; intros -> ->; auto.
Qed.

(** A script that still contains a Close ends closed. *)
Definition is_close (o : wop) : bool := match o with OpClose => true | _ => false end.
Definition will_close (s : sst) : Prop := existsb is_close (s_script s) = true \/ closing s = true.

Lemma step0_will_close s : phase s -> will_close s -> will_close (step0 s).
Proof.
  unfold phase, will_close, closing.
  sstep_cases s; cbn [existsb is_close close_pc orb]; rewrite ?orb_false_r, ?orb_true_r; tauto.
Qed.

Lemma close_finished script fuel :
  sdone (run_writer fuel (script ++ [OpClose])) = true -> s_eof (run_writer fuel (script ++ [OpClose])) = true.
Proof.
  set (s := run_writer fuel (script ++ [OpClose])). intros Hd.
  pose proof (SInv_phase _ _ (run_writer_inv fuel (script ++ [OpClose]))) as P.
  assert (Hc : will_close s).
  { apply (siter_keeps will_close step0_will_close (written (script ++ [OpClose]))); [apply sinit_inv|].
    left. cbn [sinit s_script]. rewrite existsb_app. cbn. apply orb_true_r. }
  fold s in P. revert Hc Hd P. unfold will_close, closing, sdone, phase.
  destruct (s_pc s); try discriminate. intros Hc _ (Hscr & <- & _). rewrite Hscr, orb_false_r in Hc.
  destruct Hc; [discriminate|assumption].
Qed.

Lemma sub_prefix_written W s : SInv W s -> prefix_of (concat (s_sub s)) W.
Proof.
  intros I. rewrite <- (si_written _ _ I), <- (si_data _ _ I), <- app_assoc. eexists; reflexivity.
Qed.

Lemma data_prefix_written W s : SInv W s -> prefix_of (s_data s) W.
Proof. intros I. rewrite <- (si_written _ _ I). eexists; reflexivity. Qed.

(** No Close, and the last two calls are Flush, Wait. *)
Fixpoint fw_script (l : list wop) : bool :=
  match l with
  | [OpFlush; OpWait] => true
  | [] | OpClose :: _ => false
  | _ :: r => fw_script r
  end.

Lemma fw_script_cons o r : fw_script (o :: r) = true ->
  o <> OpClose /\ ((o = OpFlush /\ r = [OpWait]) \/ fw_script r = true).
Proof.
  destruct o; cbn; try discriminate; try (split; [discriminate|tauto]).
  destruct r as [|[] [|]]; split; try discriminate; tauto.
Qed.

(** The run of such a script by its remaining calls: Flush and Wait still
    ahead; in or after the last Flush (the mark is set when it returns);
    in or after the last Wait. *)
Definition fwJ (s : sst) : Prop :=
  closing s = false /\
  (fw_script (s_script s) = true
   \/ (s_script s = [OpWait] /\
       (s_pc s = AFRecv \/ s_pc s = AFSend \/ s_pc s = AFAdd \/ (s_pc s = AIdle /\ s_flushmark s = zlen (s_data s))))
   \/ (s_script s = [] /\
       ((s_pc s = AWaitQ /\ s_flushmark s = zlen (s_data s))
        \/ ((s_pc s = AIdle \/ s_pc s = ADone) /\ s_durable s = zlen (s_data s))))).

Lemma fwJ_step s : phase s -> fwJ s -> fwJ (step0 s).
Proof.
  unfold fwJ. intros P [Hc [A|[[S B]|[S B]]]].
  - (* only a call taken from the script matters: the last Flush leads into the second phase *)
    cut (closing (step0 s) = false /\
         (fw_script (s_script (step0 s)) = true \/
          s_script (step0 s) = [OpWait] /\
          (s_pc (step0 s) = AFRecv \/ s_pc (step0 s) = AIdle /\ s_flushmark (step0 s) = zlen (s_data (step0 s))))).
    { intuition auto. }
    revert P Hc A. unfold phase, closing.
    sstep_cases s; cbn [close_pc orb]; rewrite ?orb_false_r, ?orb_true_r; intros P Hc A; try discriminate;
      try (destruct err; [contradiction|]); try (split; [exact Hc|left; exact A]).
    all: destruct (fw_script_cons _ _ A) as [N [[E ->]|F]]; try discriminate; try congruence; auto 6.
  - (* the last Flush runs to its return, which sets the mark; then Wait is taken from the script *)
    revert P Hc. unfold phase, closing.
    destruct B as [E|[E|[E|[E F]]]]; sstep_cases s; try injection S as ->; cbn [close_pc]; rewrite ?orb_false_r;
      intros P Hc; rewrite ?Hc; auto 12.
  - (* the last Wait returns with the mark made durable; then the script is exhausted *)
    revert P Hc. unfold phase, closing.
    destruct B as [[E F]|[[E|E] F]]; sstep_cases s; cbn [close_pc]; rewrite ?orb_false_r; intros P Hc; rewrite ?Hc; auto 12.
Qed.

Lemma fw_finished script n :
  fw_script script = true -> sdone (siter n (sinit script)) = true ->
  s_durable (siter n (sinit script)) = zlen (s_data (siter n (sinit script)))
  /\ s_data (siter n (sinit script)) = written script.
Proof.
  intros Hfw. set (s := siter n (sinit script)).
  assert (I : SInv (written script) s) by apply run_writer_inv.
  assert (J : fwJ s).
  { apply (siter_keeps fwJ fwJ_step (written script)); [apply sinit_inv|]. split; [reflexivity|auto]. }
  pose proof (si_written _ _ I) as Hw. revert J Hw. unfold fwJ, sdone, pcb. intros [Hc J].
  destruct (s_pc s) eqn:Hpc; try discriminate. rewrite (si_done _ _ I Hpc), Hc in *. cbn [written]. rewrite !app_nil_r.
  intros Hw. split; [|exact Hw]. destruct J as [J|[[J _]|[_ [[J _]|[_ J]]]]]; try discriminate. exact J.
Qed.

(** Termination: [mu] decreases with every step until ADone.  A program point
    weighs the steps left in its call; copying a byte can take a full trip
    through send, add, receive and back to the loop. *)
Definition cost_op (o : wop) : Z :=
  match o with OpWrite p => 8 * zlen p + 10 | OpFlush => 5 | OpWait => 2 | OpClose => 7 end.
Fixpoint cost_script (l : list wop) : Z :=
  match l with [] => 0 | o :: r => cost_op o + cost_script r end.

Definition pcm (s : sst) : Z :=
  match s_pc s with
  | AIdle => 1
  | AWLoop b _ _ => 8 * zlen b + 5 + (if isnil (s_act s) then 0 else 4)
  | AWSend b _ => 8 * zlen b + 8
  | AWAdd b _ => 8 * zlen b + 7
  | AWRecv b _ => 8 * zlen b + 6
  | AFRecv => 4 | AFSend => 3 | AFAdd => 2
  | AWaitQ => 2
  | ACSend => 7 | ACAdd => 6 | ACRecv => 5 | ACCompress => 4 | ACCloseQ => 3 | ACWg => 2
  | ADone => 0
  end.

Definition mu (s : sst) : Z := pcm s + cost_script (s_script s).

Lemma cost_script_nonneg l : 0 <= cost_script l.
Proof.
  induction l as [|o r IH]; cbn [cost_script]; [lia|]. destruct o; cbn [cost_op]; try lia.
  pose proof (zlen_nonneg p). lia.
Qed.

Lemma mu_nonneg s : 0 <= mu s.
Proof.
  unfold mu, pcm. pose proof (cost_script_nonneg (s_script s)).
  destruct (s_pc s); try lia; pose proof (zlen_nonneg b); try lia. destruct (isnil (s_act s)); lia.
Qed.

Lemma mu_step s : small (s_act s) -> sdone s = false -> mu (step0 s) < mu s.
Proof.
  intros Hsm. unfold sdone, mu, pcm. sstep_cases s; cbn [cost_script cost_op isnil]; intros Hnd;
    try discriminate; try (pose proof (zlen_nonneg b)); try (pose proof (zlen_nonneg p)); try lia.
  - destruct (isnil (s_act s)); lia.
  - destruct (isnil (s_act s)); lia.
  - (* the copy fills the block: at least one byte went into an empty block *)
    destruct (wcopy_n_range (s_act s) b Hsm) as [[K0 K1] _]. rewrite zlen_skipn by lia.
    destruct (s_act s) eqn:Ha; cbn [isnil]; [|lia].
    unfold wcopy_n in *. cbn [zlen length Z.of_nat Z.eqb orb] in *.
    destruct b as [|b0 b']; [discriminate|]. rewrite zlen_cons in *. pose proof (zlen_nonneg b'). unfold bgzf_BlockSize. lia.
  - (* the copy leaves room: it moved at least one byte *)
    destruct (wcopy_n_range (s_act s) b Hsm) as [[K0 K1] _]. rewrite zlen_skipn by lia.
    apply orb_false_elim in Hfull. destruct Hfull as [_ Hk]. apply Z.eqb_neq in Hk.
    destruct (isnil (s_act s ++ _)), (isnil (s_act s)); lia.
Qed.

Lemma terminates_from (n : nat) : forall s W, SInv W s -> mu s <= Z.of_nat n -> sdone (siter n s) = true.
Proof.
  induction n as [|n IH]; intros s W I Hmu;
    (destruct (sdone s) eqn:E; [rewrite siter_done by assumption; assumption|]);
    pose proof (mu_step s (si_act _ _ I) E).
  - pose proof (mu_nonneg (step0 s)). lia.
  - apply (IH (step0 s) W (step0_inv _ _ I)). lia.
Qed.

Theorem run_writer_terminates script :
  sdone (run_writer (Z.to_nat (1 + cost_script script)) script) = true.
Proof.
  unfold run_writer. apply (terminates_from _ _ (written script) (sinit_inv script)).
  unfold mu, pcm. cbn [sinit s_pc s_script]. pose proof (cost_script_nonneg script). lia.
Qed.
