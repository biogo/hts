(** C07 — the three field loops rebuild name and payload of an item from the
    fields printed by its String method (semantic half of the text round trip). *)
From Coq Require Import ZArith List Bool Lia.
From Hts Require Import Base.Prim Model.Header Proofs.HeaderText Proofs.HeaderNum Proofs.HeaderLoop.
Import ListNotations.
Open Scope Z_scope.

Definition tclean (t : tag) : Prop := clean [fst t; snd t].
(** other tags of an item: not among the standard tags [K], pairwise distinct, clean *)
Definition others_ok (K : list tag) (l : list tagpair) : Prop :=
  (forall tp, In tp l -> mem_tag (fst tp) K = false /\ tclean (fst tp) /\ clean (snd tp)) /\ tdist l.

Definition KR := [tSN; tLN; tAS; tM5; tSP; tUR].
Definition KG := [tID; tCN; tDS; tDT; tFO; tKS; tLB; tPG; tPI; tPL; tPU; tSM].
Definition KP := [tID; tPN; tCL; tPP; tVN].

Lemma clean_cons : forall c s, c <> TAB -> c <> LF -> c <> CR -> clean s -> clean (c :: s).
Proof. intros c s H1 H2 H3 (A & B & C). repeat split; intros [E|E]; auto; congruence. Qed.
Lemma clean_nil : clean [].
Proof. repeat split; intros []. Qed.
Lemma tclean_const : forall a b, a <> TAB -> a <> LF -> a <> CR -> b <> TAB -> b <> LF -> b <> CR -> tclean (a, b).
Proof. intros. unfold tclean. simpl. apply clean_cons; auto. apply clean_cons; auto. apply clean_nil. Qed.
Ltac tcl := apply cleanb_ok; reflexivity.
Lemma clean_body : forall t v, tclean t -> clean v -> clean (body t v).
Proof.
  intros [a b] v (A & B & C) Cv. unfold body. simpl in *.
  apply clean_cons; [intro; subst; apply A|intro; subst; apply B|intro; subst; apply C|]; simpl; auto.
  apply clean_cons; [intro; subst; apply A|intro; subst; apply B|intro; subst; apply C|]; simpl; auto.
  apply clean_cons; try discriminate. exact Cv.
Qed.

(** a standard field: its tag is clean and so is its value when it is printed *)
Definition okf (x : tag * option str) : Prop := tclean (fst x) /\ forall v, snd x = Some v -> clean v.
Lemma okf_some : forall t v, tclean t -> clean v -> okf (t, Some v).
Proof. intros t v Ht Hv. split; [exact Ht|]. intros v' E. inversion E; subst. exact Hv. Qed.
Lemma okf_ne : forall t v, tclean t -> clean v -> okf (t, ne v).
Proof. intros t v Ht Hv. split; [exact Ht|]. unfold ne. cbn [snd]. destruct (is_empty v); intros v' E; inversion E; subst. exact Hv. Qed.

Lemma pick_clean : forall K spec rest f, Forall okf spec -> others_ok K rest -> In f (other_fields (pick spec rest)) -> clean f.
Proof.
  intros K spec rest f FS (HO & _). induction FS as [|[t ov] s (Ht & Hv) FS IH]; intro Hin.
  - apply in_map_iff in Hin. destruct Hin as (tp & <- & Hin). destruct (HO tp Hin) as (_ & a & b). apply clean_body; auto.
  - rewrite fields_pick in Hin. apply in_app_or in Hin. destruct Hin as [Hin|Hin]; [|auto].
    destruct ov as [v|]; [|destruct Hin]. destruct Hin as [<-|[]]. apply clean_body; auto.
Qed.

Section SQ.
  Variable pu : str -> option str.

  Definition sq_step (o : obj refpay) (fl : bool * bool) (t : tag) (v : str) : outcome (obj refpay * (bool * bool)) :=
    let p := o_pay o in
    let nok := fst fl in let lok := snd fl in
    if tag_eqb t tSN then Ok (with_name o v, (true, lok))
    else if tag_eqb t tLN then
      match atoi v with
      | None => Err eBadHeader
      | Some n => if valid_len n
                  then Ok (mkObj (o_owner o) (o_id o) (o_name o) (mkRef n (rp_md5 p) (rp_as p) (rp_sp p) (rp_uri p) (rp_other p)), (nok, true))
                  else Err eBadLen
      end
    else if tag_eqb t tAS then
      Ok (mkObj (o_owner o) (o_id o) (o_name o) (mkRef (rp_len p) (rp_md5 p) v (rp_sp p) (rp_uri p) (rp_other p)), (nok, lok))
    else if tag_eqb t tM5 then
      if 32 <? zlen v then Err eBadHeader
      else match hex_decode 0 v [] with
           | Ok b => if Nat.eqb (length b) 16
                     then Ok (mkObj (o_owner o) (o_id o) (o_name o) (mkRef (rp_len p) b (rp_as p) (rp_sp p) (rp_uri p) (rp_other p)), (nok, lok))
                     else Err eBadHeader
           | Err e => Err e | Panic n => Panic n | Stuck => Stuck
           end
    else if tag_eqb t tSP then
      Ok (mkObj (o_owner o) (o_id o) (o_name o) (mkRef (rp_len p) (rp_md5 p) (rp_as p) v (rp_uri p) (rp_other p)), (nok, lok))
    else if tag_eqb t tUR then
      match pu v with
      | None => Err eOther
      | Some u => Ok (mkObj (o_owner o) (o_id o) (o_name o) (mkRef (rp_len p) (rp_md5 p) (rp_as p) (rp_sp p) (Some u) (rp_other p)), (nok, lok))
      end
    else Ok (mkObj (o_owner o) (o_id o) (o_name o) (mkRef (rp_len p) (rp_md5 p) (rp_as p) (rp_sp p) (rp_uri p) (rp_other p ++ [(t, v)])), (nok, lok)).

  Definition Fsq (o : obj refpay) (seen : list tag) (fl : bool * bool) (fs : list str) := sq_fields pu o seen (fst fl) (snd fl) fs.
  Definition FINsq (o : obj refpay) (fl : bool * bool) : outcome (obj refpay * bool * bool) := Ok (o, fst fl, snd fl).
  Definition ADDsq (o : obj refpay) (tp : tagpair) : obj refpay :=
    let p := o_pay o in mkObj (o_owner o) (o_id o) (o_name o) (mkRef (rp_len p) (rp_md5 p) (rp_as p) (rp_sp p) (rp_uri p) (rp_other p ++ [tp])).

  Lemma Fsq_nil : forall o seen fl, Fsq o seen fl [] = FINsq o fl.
  Proof. reflexivity. Qed.
  Lemma Fsq_cons : forall o seen fl f l, Fsq o seen fl (f :: l) =
    match split_field f with
    | None => Err eBadHeader
    | Some (t, v) =>
      if mem_tag t seen then Err eDupTag
      else match sq_step o fl t v with
           | Ok (o', fl') => Fsq o' (t :: seen) fl' l
           | Err e => Err e | Panic n => Panic n | Stuck => Stuck
           end
    end.
  Proof.
    intros o seen [nok lok] f l. unfold Fsq. cbn [fst snd sq_fields].
    destruct (split_field f) as [[t v]|]; [|reflexivity]. destruct (mem_tag t seen); [reflexivity|].
    unfold sq_step. cbn [fst snd].
    destruct (tag_eqb t tSN); [reflexivity|].
    destruct (tag_eqb t tLN). { destruct (atoi v); [|reflexivity]. destruct (valid_len z); reflexivity. }
    destruct (tag_eqb t tAS); [reflexivity|].
    destruct (tag_eqb t tM5). { destruct (32 <? zlen v); [reflexivity|]. destruct (hex_decode 0 v []); try reflexivity. destruct (Nat.eqb (length a) 16); reflexivity. }
    destruct (tag_eqb t tSP); [reflexivity|].
    destruct (tag_eqb t tUR). { destruct (pu v); reflexivity. }
    reflexivity.
  Qed.

  Lemma sq_step_other : forall o fl t v, mem_tag t KR = false -> sq_step o fl t v = Ok (ADDsq o (t, v), fl).
  Proof.
    intros o [nok lok] t v H. unfold KR in H.
    repeat (apply mem_tag_false_cons in H; destruct H as [? H]).
    unfold sq_step. rewrite H0, H1, H2, H3, H4, H5. reflexivity.
  Qed.

  Lemma fold_ADDsq : forall l o, fold_left ADDsq l o =
    mkObj (o_owner o) (o_id o) (o_name o) (mkRef (rp_len (o_pay o)) (rp_md5 (o_pay o)) (rp_as (o_pay o)) (rp_sp (o_pay o)) (rp_uri (o_pay o)) (rp_other (o_pay o) ++ l)).
  Proof.
    induction l as [|tp l IH]; intro o; simpl.
    - rewrite app_nil_r. destruct o as [ow id nm [a b c d e f]]; reflexivity.
    - rewrite IH. unfold ADDsq; simpl. rewrite <- app_assoc. reflexivity.
  Qed.

  (** what a reference must satisfy to be printable and re-readable *)
  Definition WFref (o : obj refpay) : Prop :=
    let p := o_pay o in
    clean (o_name o) /\ valid_len (rp_len p) = true /\
    (rp_md5 p = [] \/ (length (rp_md5 p) = 16%nat /\ bytes (rp_md5 p))) /\
    clean (rp_as p) /\ clean (rp_sp p) /\
    (forall u, rp_uri p = Some u -> pu u = Some u /\ clean u) /\
    others_ok KR (rp_other p).

  (** the standard fields of an @SQ line, in the order printed *)
  Definition ref_spec (o : obj refpay) : list (tag * option str) :=
    let p := o_pay o in
    [(tSN, Some (o_name o)); (tLN, Some (dec (rp_len p))); (tM5, if is_empty (rp_md5 p) then None else Some (hex_of (rp_md5 p)));
     (tAS, ne (rp_as p)); (tSP, ne (rp_sp p)); (tUR, rp_uri p)].

  Lemma ref_fields_pick : forall o, ref_fields o = other_fields (pick (ref_spec o) (rp_other (o_pay o))).
  Proof.
    intro o. unfold ref_fields, ref_spec. repeat first [rewrite fields_pick_ne | rewrite fields_pick]. cbn [fopt app].
    destruct (is_empty (rp_md5 (o_pay o))), (rp_uri (o_pay o)); reflexivity.
  Qed.

  Lemma ref_fields_clean : forall o f, WFref o -> In f (ref_fields o) -> clean f.
  Proof.
    intros o f (Cn & Vl & Hm & Ca & Cs & Hu & Ho). rewrite ref_fields_pick. apply (pick_clean KR); [|exact Ho].
    unfold ref_spec. repeat apply Forall_cons; try apply Forall_nil; first [apply okf_ne|apply okf_some|split]; try tcl; try assumption; cbn [snd].
    - apply digitish_clean, dec_digits.
    - destruct (is_empty (rp_md5 (o_pay o))) eqn:E; intros v Ev; inversion Ev; subst. apply digitish_clean, hex_of_digits.
      destruct Hm as [Hm|(_ & B)]; [rewrite Hm in E; discriminate|exact B].
    - intros u Eu. apply (Hu u Eu).
  Qed.

  Lemma sq_rebuild : forall o, WFref o ->
    sq_fields pu (mkObj None 0 [] (mkRef 0 [] [] [] None [])) [] false false (ref_fields o)
    = Ok (mkObj None 0 (o_name o) (o_pay o), true, true).
  Proof.
    (* each printed standard field steps the object to the next prefix of [o]; [run_others] appends the other tags *)
    intros o WF. assert (WF' := WF). destruct WF' as (Cn & Vl & Hm & Ca & Cs & Hu & Ho).
    change (Fsq (mkObj None 0 [] (mkRef 0 [] [] [] None [])) [] (false, false) (ref_fields o) = FINsq (mkObj None 0 (o_name o) (o_pay o)) (true, true)).
    rewrite ref_fields_pick, (loop_pick _ _ _ Fsq sq_step FINsq Fsq_nil Fsq_cons KR);
      [|reflexivity|reflexivity|exact (fun tp H => proj1 (proj1 Ho tp H))|exact (proj2 Ho)].
    destruct o as [ow id name [len md5 as_ sp uri other]]. unfold ref_spec. cbn [o_name o_pay rp_len rp_md5 rp_as rp_sp rp_uri rp_other] in *.
    erewrite run_some by reflexivity.
    erewrite run_some.
    2:{ unfold sq_step. cbn [tag_eqb tLN tSN T fst snd Z.eqb Pos.eqb andb]. rewrite atoi_dec, Vl; [reflexivity|].
        unfold valid_len in Vl. apply andb_true_iff in Vl. destruct Vl as (V1 & V2). apply Z.leb_le in V1. apply Z.leb_le in V2. lia. }
    cbn [with_name o_owner o_id o_name o_pay rp_len rp_md5 rp_as rp_sp rp_uri rp_other fst snd].
    assert (M5 : forall s r, run _ _ _ sq_step FINsq (mkObj None 0 name (mkRef len [] [] [] None [])) (true, true)
                   (pick ((tM5, if is_empty md5 then None else Some (hex_of md5)) :: s) r)
                 = run _ _ _ sq_step FINsq (mkObj None 0 name (mkRef len md5 [] [] None [])) (true, true) (pick s r)).
    { intros s r. destruct Hm as [->|(L16 & By)]; [reflexivity|]. destruct md5 as [|b md5']; [discriminate|]. cbn [is_empty].
      apply run_some. unfold sq_step. cbn [tag_eqb tM5 tLN tSN tAS T fst snd Z.eqb Pos.eqb andb o_pay rp_len rp_md5 rp_as rp_sp rp_uri rp_other o_owner o_id o_name].
      replace (32 <? zlen (hex_of (b :: md5'))) with false by (symmetry; apply Z.ltb_ge; unfold zlen; rewrite hex_of_length, L16; simpl; lia).
      rewrite hex_decode_hex_of by (auto; rewrite L16; lia). cbn [rev app]. rewrite L16. reflexivity. }
    rewrite M5.
    erewrite (run_ne _ _ _ sq_step FINsq _ _ tAS as_); [|reflexivity|intros ->; split; reflexivity].
    cbn [o_owner o_id o_name o_pay rp_len rp_md5 rp_as rp_sp rp_uri rp_other fst snd].
    erewrite (run_ne _ _ _ sq_step FINsq _ _ tSP sp); [|reflexivity|intros ->; split; reflexivity].
    cbn [o_owner o_id o_name o_pay rp_len rp_md5 rp_as rp_sp rp_uri rp_other fst snd].
    destruct uri as [u|]; [erewrite run_some by (unfold sq_step; cbn; rewrite (proj1 (Hu u eq_refl)); reflexivity)|rewrite run_none].
    all: rewrite (run_others _ _ _ sq_step FINsq ADDsq KR sq_step_other), fold_ADDsq by (intros tp Hin; apply (proj1 Ho tp Hin)); reflexivity.
  Qed.
End SQ.

Section RG.
  Variable pt : str -> option str.
  Variable names : smap.

  Definition ADDrg (o : obj rgpay) (tp : tagpair) : obj rgpay :=
    let p := o_pay o in
    mkObj (o_owner o) (o_id o) (o_name o)
          (mkRG (g_cn p) (g_ds p) (g_dt p) (g_fo p) (g_ks p) (g_lb p) (g_pg p) (g_pi p) (g_pl p) (g_pu p) (g_sm p) (g_other p ++ [tp])).

  Definition rg_step (o : obj rgpay) (idok : bool) (t : tag) (v : str) : outcome (obj rgpay * bool) :=
    let p := o_pay o in
    if tag_eqb t tID then
      match mget v names with Some _ => Err eDupRG | None => Ok (with_name o v, true) end
    else if tag_eqb t tDT then
      match pt v with
      | None => Err eOther
      | Some d => Ok (mkObj (o_owner o) (o_id o) (o_name o)
                        (mkRG (g_cn p) (g_ds p) (Some d) (g_fo p) (g_ks p) (g_lb p) (g_pg p) (g_pi p) (g_pl p) (g_pu p) (g_sm p) (g_other p)), idok)
      end
    else if tag_eqb t tPI then
      match atoi v with
      | None => Err eOther
      | Some n => if valid_int32 n
                  then Ok (mkObj (o_owner o) (o_id o) (o_name o)
                             (mkRG (g_cn p) (g_ds p) (g_dt p) (g_fo p) (g_ks p) (g_lb p) (g_pg p) n (g_pl p) (g_pu p) (g_sm p) (g_other p)), idok)
                  else Err eBadLen
      end
    else if rg_plain t then Ok (mkObj (o_owner o) (o_id o) (o_name o) (rg_set o t v), idok)
    else Ok (ADDrg o (t, v), idok).

  Definition Frg (o : obj rgpay) (seen : list tag) (idok : bool) (fs : list str) := rg_fields pt names o seen idok fs.
  Definition FINrg (o : obj rgpay) (idok : bool) : outcome (obj rgpay * bool) := Ok (o, idok).

  Lemma Frg_nil : forall o seen fl, Frg o seen fl [] = FINrg o fl.
  Proof. reflexivity. Qed.
  Lemma Frg_cons : forall o seen fl f l, Frg o seen fl (f :: l) =
    match split_field f with
    | None => Err eBadHeader
    | Some (t, v) =>
      if mem_tag t seen then Err eDupTag
      else match rg_step o fl t v with
           | Ok (o', fl') => Frg o' (t :: seen) fl' l
           | Err e => Err e | Panic n => Panic n | Stuck => Stuck
           end
    end.
  Proof.
    intros o seen idok f l. unfold Frg. cbn [rg_fields].
    destruct (split_field f) as [[t v]|]; [|reflexivity]. destruct (mem_tag t seen); [reflexivity|].
    unfold rg_step.
    destruct (tag_eqb t tID). { destruct (mget v names); reflexivity. }
    destruct (tag_eqb t tDT). { destruct (pt v); reflexivity. }
    destruct (tag_eqb t tPI). { destruct (atoi v); [|reflexivity]. destruct (valid_int32 z); reflexivity. }
    destruct (rg_plain t); reflexivity.
  Qed.

  Lemma rg_step_other : forall o fl t v, mem_tag t KG = false -> rg_step o fl t v = Ok (ADDrg o (t, v), fl).
  Proof.
    intros o fl t v H. unfold KG in H.
    repeat (apply mem_tag_false_cons in H; destruct H as [? H]).
    unfold rg_step, rg_plain. rewrite H0, H1, H2, H3, H4, H5, H6, H7, H8, H9, H10, H11. reflexivity.
  Qed.

  Lemma fold_ADDrg : forall l o, fold_left ADDrg l o =
    let p := o_pay o in
    mkObj (o_owner o) (o_id o) (o_name o)
          (mkRG (g_cn p) (g_ds p) (g_dt p) (g_fo p) (g_ks p) (g_lb p) (g_pg p) (g_pi p) (g_pl p) (g_pu p) (g_sm p) (g_other p ++ l)).
  Proof.
    induction l as [|tp l IH]; intro o; simpl.
    - rewrite app_nil_r. destruct o as [ow id nm [a b c d e f g h i j k m]]; reflexivity.
    - rewrite IH. unfold ADDrg; simpl. rewrite <- app_assoc. reflexivity.
  Qed.

  Definition WFrg (o : obj rgpay) : Prop :=
    let p := o_pay o in
    clean (o_name o) /\ clean (g_cn p) /\ clean (g_ds p) /\
    (forall d, g_dt p = Some d -> pt d = Some d /\ clean d) /\
    clean (g_fo p) /\ clean (g_ks p) /\ clean (g_lb p) /\ clean (g_pg p) /\
    valid_int32 (g_pi p) = true /\
    clean (g_pl p) /\ clean (g_pu p) /\ clean (g_sm p) /\ others_ok KG (g_other p).

  (** the standard fields of an @RG line, in the order printed (which is that of [KG]) *)
  Definition rg_spec (o : obj rgpay) : list (tag * option str) :=
    let p := o_pay o in
    [(tID, Some (o_name o)); (tCN, ne (g_cn p)); (tDS, ne (g_ds p)); (tDT, g_dt p); (tFO, ne (g_fo p)); (tKS, ne (g_ks p));
     (tLB, ne (g_lb p)); (tPG, ne (g_pg p)); (tPI, if g_pi p =? 0 then None else Some (dec (g_pi p)));
     (tPL, ne (g_pl p)); (tPU, ne (g_pu p)); (tSM, ne (g_sm p))].

  Lemma rg_fields_pick : forall o, rg_fields_of o = other_fields (pick (rg_spec o) (g_other (o_pay o))).
  Proof.
    intro o. unfold rg_fields_of, rg_spec. repeat first [rewrite fields_pick_ne | rewrite fields_pick]. cbn [fopt app].
    destruct (g_dt (o_pay o)), (g_pi (o_pay o) =? 0); reflexivity.
  Qed.

  Lemma rg_fields_clean : forall o f, WFrg o -> In f (rg_fields_of o) -> clean f.
  Proof.
    intros o f (C0 & C1 & C2 & Hd & C3 & C4 & C5 & C6 & Vp & C7 & C8 & C9 & Ho). rewrite rg_fields_pick. apply (pick_clean KG); [|exact Ho].
    unfold rg_spec. repeat apply Forall_cons; try apply Forall_nil; first [apply okf_ne|apply okf_some|split]; try tcl; try assumption; cbn [snd].
    - intros d Ed. apply (Hd d Ed).
    - destruct (g_pi (o_pay o) =? 0); intros v Ev; inversion Ev; subst. apply digitish_clean, dec_digits.
  Qed.

  (** one plain optional field: stepping with the empty value changes nothing; the object is kept in normal form *)
  Ltac plain t v := erewrite (run_ne _ _ _ rg_step FINrg _ _ t v); [|reflexivity|intros ->; split; reflexivity];
    cbn [with_name rg_set tag_eqb tCN tDS tFO tKS tLB tPG tPL tPU tSM T fst snd Z.eqb Pos.eqb andb
         o_owner o_id o_name o_pay g_cn g_ds g_dt g_fo g_ks g_lb g_pg g_pi g_pl g_pu g_sm g_other].

  Lemma rg_rebuild : forall o, WFrg o -> mget (o_name o) names = None ->
    rg_fields pt names (mkObj None 0 [] (mkRG [] [] None [] [] [] [] 0 [] [] [] [])) [] false (rg_fields_of o)
    = Ok (mkObj None 0 (o_name o) (o_pay o), true).
  Proof.
    intros o WF Hn. assert (WF' := WF). destruct WF' as (_ & _ & _ & Hdt & _ & _ & _ & _ & Vpi & _ & _ & _ & Ho).
    change (Frg (mkObj None 0 [] (mkRG [] [] None [] [] [] [] 0 [] [] [] [])) [] false (rg_fields_of o) = FINrg (mkObj None 0 (o_name o) (o_pay o)) true).
    rewrite rg_fields_pick, (loop_pick _ _ _ Frg rg_step FINrg Frg_nil Frg_cons KG);
      [|reflexivity|reflexivity|exact (fun tp H => proj1 (proj1 Ho tp H))|exact (proj2 Ho)].
    destruct o as [ow id name [cn ds dt fo ks lb pg pi pl pu sm other]]. unfold rg_spec. cbn [o_name o_pay g_cn g_ds g_dt g_fo g_ks g_lb g_pg g_pi g_pl g_pu g_sm g_other] in *.
    erewrite run_some by (unfold rg_step; cbn [tag_eqb tID T fst snd Z.eqb Pos.eqb andb]; rewrite Hn; reflexivity).
    plain tCN cn. plain tDS ds.
    assert (DT : forall s r, run _ _ _ rg_step FINrg (mkObj None 0 name (mkRG cn ds None [] [] [] [] 0 [] [] [] [])) true (pick ((tDT, dt) :: s) r)
                 = run _ _ _ rg_step FINrg (mkObj None 0 name (mkRG cn ds dt [] [] [] [] 0 [] [] [] [])) true (pick s r)).
    { intros s r. destruct dt as [d|]; [|reflexivity]. apply run_some. unfold rg_step. cbn [tag_eqb tDT tID T fst snd Z.eqb Pos.eqb andb].
      rewrite (proj1 (Hdt d eq_refl)). reflexivity. }
    rewrite DT. plain tFO fo. plain tKS ks. plain tLB lb. plain tPG pg.
    assert (PI : forall s r, run _ _ _ rg_step FINrg (mkObj None 0 name (mkRG cn ds dt fo ks lb pg 0 [] [] [] [])) true
                   (pick ((tPI, if pi =? 0 then None else Some (dec pi)) :: s) r)
                 = run _ _ _ rg_step FINrg (mkObj None 0 name (mkRG cn ds dt fo ks lb pg pi [] [] [] [])) true (pick s r)).
    { intros s r. destruct (pi =? 0) eqn:Ep; [apply Z.eqb_eq in Ep; subst pi; reflexivity|]. apply run_some.
      unfold rg_step. cbn [tag_eqb tPI tID tDT T fst snd Z.eqb Pos.eqb andb]. rewrite atoi_dec, Vpi; [reflexivity|].
      unfold valid_int32 in Vpi. apply andb_true_iff in Vpi. destruct Vpi as (V1 & V2). apply Z.leb_le in V1. apply Z.leb_le in V2. lia. }
    rewrite PI. plain tPL pl. plain tPU pu. plain tSM sm.
    rewrite (run_others _ _ _ rg_step FINrg ADDrg KG rg_step_other), fold_ADDrg by (intros tp Hin; apply (proj1 Ho tp Hin)). reflexivity.
  Qed.
End RG.

Section PG.
  Variable names : smap.

  Definition ADDpg (o : obj pgpay) (tp : tagpair) : obj pgpay :=
    let p := o_pay o in mkObj (o_owner o) (o_id o) (o_name o) (mkPG (p_pp p) (p_pn p) (p_cl p) (p_vn p) (p_other p ++ [tp])).

  Definition pg_step (o : obj pgpay) (idok : bool) (t : tag) (v : str) : outcome (obj pgpay * bool) :=
    let p := o_pay o in
    if tag_eqb t tID then
      match mget v names with Some _ => Err eDupPG | None => Ok (with_name o v, true) end
    else if tag_eqb t tPN then Ok (mkObj (o_owner o) (o_id o) (o_name o) (mkPG (p_pp p) v (p_cl p) (p_vn p) (p_other p)), idok)
    else if tag_eqb t tCL then Ok (mkObj (o_owner o) (o_id o) (o_name o) (mkPG (p_pp p) (p_pn p) v (p_vn p) (p_other p)), idok)
    else if tag_eqb t tPP then Ok (mkObj (o_owner o) (o_id o) (o_name o) (mkPG v (p_pn p) (p_cl p) (p_vn p) (p_other p)), idok)
    else if tag_eqb t tVN then Ok (mkObj (o_owner o) (o_id o) (o_name o) (mkPG (p_pp p) (p_pn p) (p_cl p) v (p_other p)), idok)
    else Ok (ADDpg o (t, v), idok).

  Definition Fpg (o : obj pgpay) (seen : list tag) (idok : bool) (fs : list str) := pg_fields names o seen idok fs.
  Definition FINpg (o : obj pgpay) (idok : bool) : outcome (obj pgpay * bool) := Ok (o, idok).

  Lemma Fpg_nil : forall o seen fl, Fpg o seen fl [] = FINpg o fl.
  Proof. reflexivity. Qed.
  Lemma Fpg_cons : forall o seen fl f l, Fpg o seen fl (f :: l) =
    match split_field f with
    | None => Err eBadHeader
    | Some (t, v) =>
      if mem_tag t seen then Err eDupTag
      else match pg_step o fl t v with
           | Ok (o', fl') => Fpg o' (t :: seen) fl' l
           | Err e => Err e | Panic n => Panic n | Stuck => Stuck
           end
    end.
  Proof.
    intros o seen idok f l. unfold Fpg. cbn [pg_fields].
    destruct (split_field f) as [[t v]|]; [|reflexivity]. destruct (mem_tag t seen); [reflexivity|].
    unfold pg_step.
    destruct (tag_eqb t tID). { destruct (mget v names); reflexivity. }
    destruct (tag_eqb t tPN); [reflexivity|]. destruct (tag_eqb t tCL); [reflexivity|].
    destruct (tag_eqb t tPP); [reflexivity|]. destruct (tag_eqb t tVN); reflexivity.
  Qed.

  Lemma pg_step_other : forall o fl t v, mem_tag t KP = false -> pg_step o fl t v = Ok (ADDpg o (t, v), fl).
  Proof.
    intros o fl t v H. unfold KP in H.
    repeat (apply mem_tag_false_cons in H; destruct H as [? H]).
    unfold pg_step. rewrite H0, H1, H2, H3, H4. reflexivity.
  Qed.

  Lemma fold_ADDpg : forall l o, fold_left ADDpg l o =
    let p := o_pay o in mkObj (o_owner o) (o_id o) (o_name o) (mkPG (p_pp p) (p_pn p) (p_cl p) (p_vn p) (p_other p ++ l)).
  Proof.
    induction l as [|tp l IH]; intro o; simpl.
    - rewrite app_nil_r. destruct o as [ow id nm [a b c d e]]; reflexivity.
    - rewrite IH. unfold ADDpg; simpl. rewrite <- app_assoc. reflexivity.
  Qed.

  Definition WFpg (o : obj pgpay) : Prop :=
    let p := o_pay o in
    clean (o_name o) /\ clean (p_pn p) /\ clean (p_cl p) /\ clean (p_pp p) /\ clean (p_vn p) /\ others_ok KP (p_other p).

  (** the standard fields of a @PG line, in the order printed (which is that of [KP]) *)
  Definition pg_spec (o : obj pgpay) : list (tag * option str) :=
    let p := o_pay o in [(tID, Some (o_name o)); (tPN, ne (p_pn p)); (tCL, ne (p_cl p)); (tPP, ne (p_pp p)); (tVN, ne (p_vn p))].

  Lemma pg_fields_pick : forall o, pg_fields_of o = other_fields (pick (pg_spec o) (p_other (o_pay o))).
  Proof. intro o. unfold pg_fields_of, pg_spec. repeat first [rewrite fields_pick_ne | rewrite fields_pick]. reflexivity. Qed.

  Lemma pg_fields_clean : forall o f, WFpg o -> In f (pg_fields_of o) -> clean f.
  Proof.
    intros o f (C0 & C1 & C2 & C3 & C4 & Ho). rewrite pg_fields_pick. apply (pick_clean KP); [|exact Ho].
    unfold pg_spec. repeat apply Forall_cons; try apply Forall_nil; first [apply okf_ne|apply okf_some]; try tcl; assumption.
  Qed.

  Ltac plain t v := erewrite (run_ne _ _ _ pg_step FINpg _ _ t v); [|reflexivity|intros ->; split; reflexivity];
    cbn [with_name o_owner o_id o_name o_pay p_pp p_pn p_cl p_vn p_other].

  Lemma pg_rebuild : forall o, WFpg o -> mget (o_name o) names = None ->
    pg_fields names (mkObj None 0 [] (mkPG [] [] [] [] [])) [] false (pg_fields_of o) = Ok (mkObj None 0 (o_name o) (o_pay o), true).
  Proof.
    intros o WF Hn. assert (Ho := proj2 (proj2 (proj2 (proj2 (proj2 WF))))).
    change (Fpg (mkObj None 0 [] (mkPG [] [] [] [] [])) [] false (pg_fields_of o) = FINpg (mkObj None 0 (o_name o) (o_pay o)) true).
    rewrite pg_fields_pick, (loop_pick _ _ _ Fpg pg_step FINpg Fpg_nil Fpg_cons KP);
      [|reflexivity|reflexivity|exact (fun tp H => proj1 (proj1 Ho tp H))|exact (proj2 Ho)].
    destruct o as [ow id name [pp pn cl vn other]]. unfold pg_spec. cbn [o_name o_pay p_pp p_pn p_cl p_vn p_other] in *.
    erewrite run_some by (unfold pg_step; cbn [tag_eqb tID T fst snd Z.eqb Pos.eqb andb]; rewrite Hn; reflexivity).
    plain tPN pn. plain tCL cl. plain tPP pp. plain tVN vn.
    rewrite (run_others _ _ _ pg_step FINpg ADDpg KP pg_step_other), fold_ADDpg by (intros tp Hin; apply (proj1 Ho tp Hin)). reflexivity.
  Qed.
End PG.
