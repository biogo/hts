(** C19: the five-column text form of an index round-trips through
    WriteTo / ReadFrom (encoding/csv modelled as a plain LF / TAB split). *)
From Coq Require Import ZArith Lia List Bool Permutation.
From Hts Require Import Base.Prim Model.Fai Proofs.FaiBase.
Open Scope Z_scope.

(** Names that survive the TAB / LF split of ReadFrom: no TAB, no LF
    (NewIndex cuts names at white space, so it never produces others). *)
Definition plainch (c : Z) : bool := negb (c =? 9) && negb (c =? 10).
Definition int64 (v : Z) : Prop := - 2^63 <= v < 2^63.
Definition good_rec (r : frec) : Prop :=
  forallb plainch (r_name r) = true /\ int64 (r_len r) /\ int64 (r_start r) /\ int64 (r_bases r) /\ int64 (r_bytes r)
  /\ geometry_ok r = true.

Definition numch (c : Z) : bool := is_digit c || (c =? 45).

Lemma parse_digits_app a b acc :
  parse_digits acc (a ++ b) = match parse_digits acc a with Some v => parse_digits v b | None => None end.
Proof.
  revert acc. induction a as [|c a IH]; intros acc; [reflexivity|].
  cbn [app parse_digits]. destruct (is_digit c); [apply IH|reflexivity].
Qed.

Lemma is_digit_48 d : 0 <= d < 10 -> is_digit (48 + d) = true.
Proof. intros H. unfold is_digit. apply andb_true_iff. split; [apply Z.leb_le|apply Z.leb_le]; lia. Qed.

Lemma digits_fuel_ok fuel : forall n, 0 <= n < 2 ^ Z.of_nat fuel -> (0 < fuel)%nat ->
  parse_digits 0 (digits_fuel fuel n) = Some n /\
  forallb is_digit (digits_fuel fuel n) = true /\
  exists p d, digits_fuel fuel n = p ++ [d] /\ is_digit d = true.
Proof.
  induction fuel as [|f IH]; intros n Hn Hfuel.
  - lia.
  - rewrite Nat2Z.inj_succ, Z.pow_succ_r in Hn by lia.
    cbn [digits_fuel]. destruct (Z.ltb_spec n 10) as [Hlt|Hge].
    + split; [|split].
      * cbn [parse_digits]. rewrite is_digit_48 by lia. f_equal. lia.
      * cbn [forallb]. rewrite is_digit_48 by lia. reflexivity.
      * exists [], (48 + n). split; [reflexivity|apply is_digit_48; lia].
    + assert (Hq : 0 <= n / 10 < 2 ^ Z.of_nat f).
      { split; [apply Z.div_pos; lia|]. apply Z.div_lt_upper_bound; lia. }
      assert (Hf : (0 < f)%nat).
      { destruct f; [|lia]. change (2 ^ Z.of_nat 0) with 1 in Hq.
        assert (1 <= n / 10) by (apply Z.div_le_lower_bound; lia). lia. }
      destruct (IH (n / 10) Hq Hf) as (Hp & Hall & _).
      pose proof (Z.mod_pos_bound n 10 ltac:(lia)) as Hm.
      split; [|split].
      * rewrite parse_digits_app, Hp. cbn [parse_digits]. rewrite is_digit_48 by lia.
        f_equal. pose proof (Z.div_mod n 10 ltac:(lia)). lia.
      * rewrite forallb_app, Hall. cbn [forallb]. rewrite is_digit_48 by lia. reflexivity.
      * exists (digits_fuel f (n / 10)), (48 + n mod 10). split; [reflexivity|apply is_digit_48; lia].
Qed.

Lemma digits_ok n : 0 <= n ->
  parse_digits 0 (digits n) = Some n /\ forallb is_digit (digits n) = true /\
  exists p d, digits n = p ++ [d] /\ is_digit d = true.
Proof.
  intros Hn. unfold digits. apply digits_fuel_ok; [|lia]. split; [assumption|].
  rewrite Nat2Z.inj_succ, Z2Nat.id by apply Z.log2_nonneg.
  destruct (Z.eq_dec n 0) as [->|Hne]; [reflexivity|].
  apply Z.log2_spec. lia.
Qed.

Lemma is_digit_range c : is_digit c = true -> 48 <= c <= 57.
Proof. unfold is_digit. intros H. apply andb_true_iff in H as [H1 H2]. apply Z.leb_le in H1, H2. lia. Qed.

Lemma in_range lo hi v : lo <= v < hi -> (lo <=? v) && (v <? hi) = true.
Proof. intros H. apply andb_true_iff. split; [apply Z.leb_le | apply Z.ltb_lt]; apply H. Qed.

Lemma parse_print n : int64 n -> parse_int (print_int n) = Some n.
Proof.
  intros Hn. apply in_range in Hn. unfold print_int, parse_int. destruct (Z.ltb_spec n 0) as [Hneg|Hpos].
  - destruct (digits_ok (- n) ltac:(lia)) as (Hp & _ & (p & d & Hd & _)).
    change (45 =? 45) with true. cbv iota beta.
    assert (Hnn : is_nil (digits (- n)) = false) by (rewrite Hd; destruct p; reflexivity).
    rewrite Hnn, Hp, Z.opp_involutive, Hn. reflexivity.
  - destruct (digits_ok n Hpos) as (Hp & Hall & (p & d & Hd & Hdd)).
    destruct (digits n) as [|c t] eqn:E; [destruct p; discriminate|].
    cbn [forallb] in Hall. apply andb_true_iff in Hall as [Hc _]. apply is_digit_range in Hc.
    destruct (Z.eqb_spec c 45); [lia|]. destruct (Z.eqb_spec c 43); [lia|].
    cbn [is_nil]. rewrite Hp, Hn. reflexivity.
Qed.

Lemma print_int_chars n : forallb numch (print_int n) = true /\ exists p d, print_int n = p ++ [d] /\ is_digit d = true.
Proof.
  unfold print_int. destruct (Z.ltb_spec n 0).
  - destruct (digits_ok (- n) ltac:(lia)) as (_ & Hall & (p & d & Hd & Hdd)). split.
    + cbn [forallb]. apply andb_true_iff. split; [reflexivity|].
      eapply forallb_impl; [|exact Hall]. intros x Hx. unfold numch. rewrite Hx. reflexivity.
    + exists (45 :: p), d. rewrite Hd. split; [reflexivity|assumption].
  - destruct (digits_ok n ltac:(lia)) as (_ & Hall & Hlast). split; [|assumption].
    eapply forallb_impl; [|exact Hall]. intros x Hx. unfold numch. rewrite Hx. reflexivity.
Qed.

Lemma split_on_field sep f rest :
  forallb (fun c => negb (c =? sep)) f = true -> split_on sep (f ++ sep :: rest) = f :: split_on sep rest.
Proof.
  induction f as [|c f IH]; intros H.
  - cbn [app split_on]. rewrite Z.eqb_refl. reflexivity.
  - cbn [forallb] in H. apply andb_true_iff in H as [Hc Hf]. apply negb_true_iff in Hc.
    cbn [app split_on]. rewrite Hc, IH by assumption. reflexivity.
Qed.

Lemma split_on_last sep f : forallb (fun c => negb (c =? sep)) f = true -> split_on sep f = [f].
Proof.
  induction f as [|c f IH]; intros H; [reflexivity|].
  cbn [forallb] in H. apply andb_true_iff in H as [Hc Hf]. apply negb_true_iff in Hc.
  cbn [split_on]. rewrite Hc, IH by assumption. reflexivity.
Qed.

Lemma plain_notab c : plainch c = true -> negb (c =? 9) = true.
Proof. intros H. apply andb_true_iff in H. apply H. Qed.
Lemma plain_nolf c : plainch c = true -> negb (c =? 10) = true.
Proof. intros H. apply andb_true_iff in H. apply H. Qed.
Lemma numch_plain c : numch c = true -> plainch c = true.
Proof.
  unfold numch, plainch. intros H. apply orb_true_iff in H as [H|H]; [apply is_digit_range in H|apply Z.eqb_eq in H];
    rewrite !(proj2 (Z.eqb_neq c _)) by lia; reflexivity.
Qed.

Lemma print_int_plain n : forallb plainch (print_int n) = true.
Proof. exact (forallb_impl _ _ _ numch_plain (proj1 (print_int_chars n))). Qed.

Definition tsv_pre (r : frec) : list Z :=
  r_name r ++ [9] ++ print_int (r_len r) ++ [9] ++ print_int (r_start r) ++ [9] ++ print_int (r_bases r) ++ [9].
Definition tsv_body (r : frec) : list Z := tsv_pre r ++ print_int (r_bytes r).

Lemma tsv_line_body r : tsv_line r = tsv_body r ++ [10].
Proof. unfold tsv_line, tsv_body, tsv_pre. repeat rewrite <- app_assoc. reflexivity. Qed.

Lemma tsv_body_nolf r : forallb plainch (r_name r) = true ->
  forallb (fun x => negb (x =? 10)) (tsv_body r) = true.
Proof.
  intros Hn. unfold tsv_body, tsv_pre. repeat rewrite forallb_app.
  pose proof (fun n => forallb_impl _ _ _ plain_nolf (print_int_plain n)) as Hp.
  rewrite !Hp. rewrite (forallb_impl _ _ _ plain_nolf Hn). reflexivity.
Qed.

Lemma tsv_body_fields r : forallb plainch (r_name r) = true ->
  split_on 9 (tsv_body r) =
  [r_name r; print_int (r_len r); print_int (r_start r); print_int (r_bases r); print_int (r_bytes r)].
Proof.
  intros Hn. unfold tsv_body, tsv_pre. repeat rewrite <- app_assoc. cbn [app].
  pose proof (fun n => forallb_impl _ _ _ plain_notab (print_int_plain n)) as Hp.
  rewrite split_on_field by (exact (forallb_impl _ _ _ plain_notab Hn)).
  rewrite !split_on_field by apply Hp.
  rewrite split_on_last by apply Hp. reflexivity.
Qed.

Lemma chomp_line r : chomp (tsv_line r) = tsv_body r.
Proof.
  rewrite tsv_line_body. unfold tsv_body.
  destruct (print_int_chars (r_bytes r)) as (_ & p & d & Hd & Hdd). rewrite Hd.
  apply is_digit_range in Hdd.
  unfold chomp. unfold strip_last at 2. rewrite !rev_app_distr. cbn [rev app].
  change (10 =? 10) with true. cbv iota.
  cbn [rev]. rewrite rev_app_distr, !rev_involutive. rewrite <- app_assoc. cbn [app].
  unfold strip_last. rewrite app_assoc, rev_app_distr. cbn [rev app].
  destruct (Z.eqb_spec d 13); [lia|]. reflexivity.
Qed.

Lemma tsv_body_nonnil r : is_nil (tsv_body r) = false.
Proof. unfold tsv_body, tsv_pre. destruct (r_name r); reflexivity. Qed.

Lemma rf_line_ok idx r : good_rec r -> has_name (r_name r) idx = false ->
  rf_line idx (tsv_line r) = Ok (idx ++ [r]).
Proof.
  intros (Hn & H1 & H2 & H3 & H4 & Hgeo) Hfresh. unfold rf_line.
  rewrite chomp_line, tsv_body_nonnil, tsv_body_fields by assumption.
  rewrite Hfresh, !parse_print by assumption. destruct r; simpl in Hgeo |- *.
  rewrite Hgeo. reflexivity.
Qed.

Lemma lines_tsv l rest : Forall good_rec l ->
  lines (concat (map tsv_line l) ++ rest) = map tsv_line l ++ lines rest.
Proof.
  induction 1 as [|r l Hr _ IH]; [reflexivity|].
  cbn [map concat]. rewrite <- app_assoc. rewrite tsv_line_body at 1. rewrite <- app_assoc. cbn [app].
  rewrite lines_lf by (apply tsv_body_nolf; apply Hr).
  rewrite IH, <- tsv_line_body. reflexivity.
Qed.

Lemma not_in_has_name n idx : ~ In n (map r_name idx) -> has_name n idx = false.
Proof.
  intros H. rewrite has_name_existsb. destruct (existsb _ idx) eqn:E; [|reflexivity].
  apply existsb_exists in E as (x & Hx & Hb). apply bytes_eqb_eq in Hb. subst n.
  exfalso. apply H. apply in_map. assumption.
Qed.

Lemma rf_fold_ok l : forall idx, Forall good_rec l -> NoDup (map r_name (idx ++ l)) ->
  rf_fold idx (map tsv_line l) = Ok (idx ++ l).
Proof.
  induction l as [|r l IH]; intros idx Hg Hnd.
  - rewrite app_nil_r. reflexivity.
  - inversion Hg as [|? ? Hr Hl]; subst. cbn [map rf_fold].
    rewrite rf_line_ok; [|assumption|].
    + cbn [obind]. rewrite IH; [|assumption|].
      * rewrite <- app_assoc. reflexivity.
      * rewrite <- app_assoc. exact Hnd.
    + apply not_in_has_name. rewrite map_app in Hnd. cbn [map] in Hnd.
      apply NoDup_remove_2 in Hnd. intros Hin. apply Hnd. apply in_or_app. left. assumption.
Qed.

Theorem readfrom_lines l : Forall good_rec l -> NoDup (map r_name l) ->
  readfrom (concat (map tsv_line l)) = Ok l.
Proof.
  intros Hg Hnd. unfold readfrom.
  rewrite <- (app_nil_r (concat (map tsv_line l))). rewrite lines_tsv by assumption.
  cbn [lines]. rewrite app_nil_r. apply (rf_fold_ok l [] Hg Hnd).
Qed.

Lemma insert_perm r l : Permutation (insert_by_start r l) (r :: l).
Proof.
  induction l as [|x t IH]; cbn [insert_by_start]; [reflexivity|].
  destruct (r_start r <? r_start x); [reflexivity|].
  rewrite IH. apply perm_swap.
Qed.

Lemma sort_perm l : Permutation (sort_by_start l) l.
Proof.
  induction l as [|x t IH]; cbn [sort_by_start]; [reflexivity|].
  rewrite insert_perm. constructor. assumption.
Qed.

Theorem tsv_roundtrip idx : NoDup (map r_name idx) -> Forall good_rec idx ->
  readfrom (writeto idx) = Ok (sort_by_start idx) /\ Permutation (sort_by_start idx) idx.
Proof.
  intros Hnd Hg. split; [|apply sort_perm].
  unfold writeto. apply readfrom_lines.
  - eapply Permutation_Forall; [symmetry; apply sort_perm|assumption].
  - eapply Permutation_NoDup; [apply Permutation_map; symmetry; apply sort_perm|assumption].
Qed.

Fixpoint inc_starts (l : list frec) : bool :=
  match l with
  | x :: t => match t with y :: _ => (r_start x <? r_start y) && inc_starts t | [] => true end
  | [] => true
  end.

Lemma sort_sorted l : inc_starts l = true -> sort_by_start l = l.
Proof.
  induction l as [|x t IH]; intros H; [reflexivity|].
  cbn [sort_by_start]. destruct t as [|y t'].
  - reflexivity.
  - cbn [inc_starts] in H. apply andb_true_iff in H as [Hxy Ht]. rewrite IH by assumption.
    cbn [insert_by_start]. rewrite Hxy. reflexivity.
Qed.

Lemma rf_line_geom idx line idx' :
  rf_line idx line = Ok idx' -> Forall (fun r => geometry_ok r = true) idx ->
  Forall (fun r => geometry_ok r = true) idx'.
Proof.
  unfold rf_line. destruct (is_nil (chomp line)); [intros H; injection H as <-; auto|].
  destruct (split_on 9 (chomp line)) as [|f0 [|f1 [|f2 [|f3 [|f4 [|? ?]]]]]]; try discriminate.
  destruct (has_name f0 idx); [discriminate|].
  destruct (parse_int f1) as [a|]; [|discriminate].
  destruct (parse_int f2) as [b|]; [|discriminate].
  destruct (parse_int f3) as [c|]; [|discriminate].
  destruct (parse_int f4) as [d|]; [|discriminate].
  destruct (geometry_ok (mkRec f0 a b c d)) eqn:G; [|discriminate].
  intros H Hall. injection H as <-. apply Forall_app. split; [assumption|]. constructor; [exact G|constructor].
Qed.

Lemma rf_fold_geom ls : forall idx idx',
  rf_fold idx ls = Ok idx' -> Forall (fun r => geometry_ok r = true) idx ->
  Forall (fun r => geometry_ok r = true) idx'.
Proof.
  induction ls as [|l ls IH]; intros idx idx' H Hall.
  - injection H as <-. assumption.
  - cbn [rf_fold] in H. destruct (rf_line idx l) as [idx1| | |] eqn:E; try discriminate.
    cbn [obind] in H. eapply IH; [exact H|]. eapply rf_line_geom; eassumption.
Qed.
