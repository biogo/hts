(** C16: the CIGAR / record arithmetic of Model/Cigar.v against
    Model/SamSpecArith.v.  The row the consume table has for a decoded operation
    [o] is [(coeff_q o, coeff_r o)] ([consumes_known]), which turns the loops
    into sums; the End loop keeps [cur <= e] ([end_loop_spec]). *)
From Coq Require Import ZArith Lia List Bool.
From Hts Require Import Base.Prim Base.Bits Base.BinArith Generated
  Model.SamSpecArith Model.Cigar.
Import ListNotations.
Open Scope Z_scope.

Lemma type_is_mod w : sam_CigarOp_Type w = Ok (spec_op_code w).
Proof.
  unfold sam_CigarOp_Type, spec_op_code. f_equal.
  change 15 with (2 ^ 4 - 1). rewrite land_ones_mod by lia. change (2 ^ 4) with 16.
  pose proof (Z.mod_pos_bound w 16 ltac:(lia)).
  unfold u8, wrapu. apply Z.mod_small. lia.
Qed.

Lemma len_is_div w : sam_CigarOp_Len w = Ok (spec_op_len w).
Proof. unfold sam_CigarOp_Len, spec_op_len. f_equal. rewrite shiftr_div by lia. reflexivity. Qed.

Lemma newcigarop_roundtrip_gen t n :
  0 <= t <= 15 -> 0 <= n <= 2 ^ 28 - 1 ->
  exists w, sam_NewCigarOp t n = Ok w /\ 0 <= w < 2 ^ 32 /\
            sam_CigarOp_Type w = Ok t /\ sam_CigarOp_Len w = Ok n.
Proof.
  intros Ht Hn. unfold sam_NewCigarOp.
  rewrite (proj2 (Z.ltb_ge 268435455 (u64 n))) by (unfold u64, wrapu; rewrite Z.mod_small; lia).
  eexists. split; [reflexivity|].
  rewrite (u32_id t) by lia. rewrite (u32_id n) by lia.
  rewrite shiftl_mul by lia. rewrite (u32_id (n * 2 ^ 4)) by lia.
  rewrite lor_low_high by lia.
  rewrite type_is_mod, len_is_div. unfold spec_op_code, spec_op_len.
  change (2 ^ 4) with 16.
  split; [lia|]. split; f_equal.
  - rewrite Z.mod_add by lia. apply Z.mod_small. lia.
  - rewrite Z.div_add by lia. rewrite Z.div_small by lia. lia.
Qed.

Lemma newcigarop_panics_gen t n :
  - 2 ^ 63 <= n < 2 ^ 63 -> (n < 0 \/ 2 ^ 28 - 1 < n) -> sam_NewCigarOp t n = Panic 2.
Proof.
  intros Hr Hn. unfold sam_NewCigarOp.
  assert (H : 268435455 <? u64 n = true).
  { apply Z.ltb_lt. unfold u64, wrapu. destruct Hn as [Hn|Hn].
    - replace (n mod 2 ^ 64) with (n + 2 ^ 64); [lia|].
      apply Z.mod_unique with (q := -1); lia.
    - rewrite Z.mod_small; lia. }
  rewrite H. reflexivity.
Qed.

(** The row of the library's [consume] table for an operation: the factors by
    which its length moves the query and the reference position (B moves back). *)
Definition coeff_q (o : cop) : Z := if consumes_query o then 1 else 0.
Definition coeff_r (o : cop) : Z :=
  match o with opB => -1 | _ => if consumes_ref o then 1 else 0 end.

Lemma cop_of_code_cases (P : Z -> cop -> Prop) :
  P 0 opM -> P 1 opI -> P 2 opD -> P 3 opN -> P 4 opS -> P 5 opH -> P 6 opP -> P 7 opEQ ->
  P 8 opX -> P 9 opB -> P 10 opU -> P 11 opU -> P 12 opU -> P 13 opU -> P 14 opU -> P 15 opU ->
  forall k o, cop_of_code k = Some o -> P k o.
Proof.
  do 16 intro. intros k o E. destruct k as [|p|p]; try discriminate.
  - injection E as <-. assumption.
  - do 4 (try destruct p as [p|p|]); simpl in E; try discriminate E; injection E as <-; assumption.
Qed.

Lemma cop_of_code_total k : 0 <= k < 16 -> exists o, cop_of_code k = Some o.
Proof.
  intros H.
  assert (T : forallb (fun k => if cop_of_code k then true else false) (zcount 0 16) = true) by reflexivity.
  rewrite forallb_forall in T. specialize (T k ltac:(apply In_zcount; lia)).
  destruct (cop_of_code k) as [o|]; [exists o; reflexivity|discriminate].
Qed.

Lemma consumes_known k o : cop_of_code k = Some o -> consumes k = Ok (coeff_q o, coeff_r o).
Proof. revert k o. apply cop_of_code_cases; reflexivity. Qed.

Lemma code_is_H k o n : cop_of_code k = Some o -> (k =? sam_CigarHardClipped) = is_H (o, n).
Proof. revert k o. apply cop_of_code_cases; reflexivity. Qed.

Lemma code_is_S k o n : cop_of_code k = Some o -> (k =? sam_CigarSoftClipped) = is_S (o, n).
Proof. revert k o. apply cop_of_code_cases; reflexivity. Qed.

Lemma code_is_B k o : cop_of_code k = Some o ->
  (k =? sam_CigarBack) = match o with opB => true | _ => false end.
Proof. revert k o. apply cop_of_code_cases; reflexivity. Qed.

Lemma op_consume_known w o :
  cop_of_code (spec_op_code w) = Some o ->
  op_consume w = Ok (spec_op_len w, coeff_q o, coeff_r o).
Proof.
  intros H. unfold op_consume. rewrite len_is_div, type_is_mod. cbn [obind].
  rewrite (consumes_known _ _ H). reflexivity.
Qed.

Lemma decode_cons w tl sc :
  spec_decode (w :: tl) = Some sc ->
  exists o r, cop_of_code (spec_op_code w) = Some o /\ spec_decode tl = Some r /\
              sc = (o, spec_op_len w) :: r.
Proof.
  cbn [spec_decode]. destruct (cop_of_code (spec_op_code w)) as [o|]; [|discriminate].
  destruct (spec_decode tl) as [r|]; [|discriminate].
  intros [= <-]. exists o, r. auto.
Qed.

Lemma decode_total c : exists sc, spec_decode c = Some sc.
Proof.
  induction c as [|w c [sc IH]]; [exists []; reflexivity|].
  destruct (cop_of_code_total (spec_op_code w)) as [o Ho]; [apply Z.mod_pos_bound; lia|].
  exists ((o, spec_op_len w) :: sc). cbn [spec_decode]. rewrite Ho, IH. reflexivity.
Qed.

Lemma decode_known c :
  Forall (fun w => 0 <= spec_op_code w <= 9) c -> exists sc, spec_decode c = Some sc.
Proof. intros _. apply decode_total. Qed.

Lemma decode_app a b :
  spec_decode (a ++ b) =
  match spec_decode a, spec_decode b with Some sa, Some sb => Some (sa ++ sb) | _, _ => None end.
Proof.
  induction a as [|w a IH]; cbn [app spec_decode]; [destruct (spec_decode b); reflexivity|].
  rewrite IH. destruct (cop_of_code (spec_op_code w)), (spec_decode a), (spec_decode b); reflexivity.
Qed.

Lemma decode_length c sc : spec_decode c = Some sc -> length sc = length c.
Proof.
  revert sc. induction c as [|w c IH]; intros sc H.
  - injection H as <-. reflexivity.
  - destruct (decode_cons _ _ _ H) as (o & r & _ & Hr & ->). simpl. rewrite (IH r Hr). reflexivity.
Qed.

Lemma decode_lens_nonneg c sc :
  spec_decode c = Some sc -> Forall (fun w => 0 <= w) c -> Forall (fun x => 0 <= snd x) sc.
Proof.
  revert sc. induction c as [|w c IH]; intros sc H Hc.
  - injection H as <-. constructor.
  - destruct (decode_cons _ _ _ H) as (o & r & _ & Hr & ->).
    inversion Hc; subst. constructor; [|apply IH; assumption].
    simpl. unfold spec_op_len. apply Z.div_pos; lia.
Qed.

Lemma lengths_step o n r :
  (if negb (match o with opB => true | _ => false end) then r + n * coeff_r o else r)
  = r + (if consumes_ref o then n else 0).
Proof. destruct o; cbn; lia. Qed.

Lemma lengths_loop_spec c : forall sc r q,
  spec_decode c = Some sc ->
  lengths_loop c r q = Ok (r + spec_reflen sc, q + spec_querylen sc).
Proof.
  induction c as [|w c IH]; intros sc r q H.
  - injection H as <-. simpl. f_equal. f_equal; lia.
  - destruct (decode_cons _ _ _ H) as (o & tl & Ho & Htl & ->).
    cbn [lengths_loop]. rewrite (op_consume_known _ _ Ho). cbn [obind].
    rewrite type_is_mod. cbn [obind]. rewrite (code_is_B _ _ Ho).
    rewrite (IH tl _ _ Htl), lengths_step. cbn [spec_reflen spec_querylen].
    unfold coeff_q. destruct (consumes_query o); do 2 f_equal; lia.
Qed.

Lemma go_max_max a b : go_max a b = Z.max a b.
Proof. unfold go_max. destruct (Z.ltb_spec a b); lia. Qed.

Lemma ref_step_coeff o n : ref_step (o, n) = n * coeff_r o.
Proof. destruct o; cbn; lia. Qed.

Lemma spec_end_from_ge cur l : cur <= spec_end_from cur l.
Proof. destruct l; simpl; lia. Qed.

Lemma end_loop_spec c : forall sc cur e,
  spec_decode c = Some sc -> cur <= e ->
  end_loop c cur e = Ok (Z.max e (spec_end_from cur sc)).
Proof.
  induction c as [|w c IH]; intros sc cur e H Hle.
  - injection H as <-. simpl. f_equal. lia.
  - destruct (decode_cons _ _ _ H) as (o & tl & Ho & Htl & ->).
    cbn [end_loop]. rewrite (op_consume_known _ _ Ho). cbn [obind].
    rewrite go_max_max. rewrite (IH tl _ _ Htl) by lia.
    cbn [spec_end_from]. rewrite ref_step_coeff.
    pose proof (spec_end_from_ge (cur + spec_op_len w * coeff_r o) tl).
    f_equal. lia.
Qed.

Lemma land_4 a : Z.land a 4 = if Z.testbit a 2 then 4 else 0.
Proof.
  apply Z.bits_inj'. intros n Hn. rewrite Z.land_spec.
  change 4 with (2 ^ 2). rewrite Z.pow2_bits_eqb by lia.
  destruct (Z.eqb_spec 2 n) as [<-|Hne].
  - rewrite andb_true_r. destruct (Z.testbit a 2).
    + rewrite Z.pow2_bits_eqb by lia. reflexivity.
    + rewrite Z.bits_0. reflexivity.
  - rewrite andb_false_r. destruct (Z.testbit a 2).
    + rewrite Z.pow2_bits_eqb by lia. symmetry. apply Z.eqb_neq. assumption.
    + rewrite Z.bits_0. reflexivity.
Qed.

Lemma unmapped_flag flags : negb (Z.land flags sam_Unmapped =? 0) = spec_unmapped flags.
Proof.
  change sam_Unmapped with 4. rewrite land_4. unfold spec_unmapped.
  destruct (Z.testbit flags 2); reflexivity.
Qed.

Lemma record_end_spec flags pos c sc :
  spec_decode c = Some sc -> record_end flags pos c = Ok (spec_end flags pos sc).
Proof.
  intros H. unfold record_end, spec_end. rewrite unmapped_flag.
  pose proof (decode_length _ _ H) as Hl.
  destruct (spec_unmapped flags); [reflexivity|]. cbn [orb].
  destruct c as [|w c].
  - destruct sc; [reflexivity|discriminate].
  - destruct sc as [|x sc]; [discriminate|].
    replace (zlen (w :: c) =? 0) with false
      by (symmetry; apply Z.eqb_neq; unfold zlen; simpl length; lia).
    rewrite (end_loop_spec _ _ pos pos H) by lia.
    pose proof (spec_end_from_ge pos (x :: sc)). f_equal. lia.
Qed.

Lemma reflen_nonneg sc : Forall (fun x => 0 <= snd x) sc -> 0 <= spec_reflen sc.
Proof.
  induction 1 as [|[o n] sc Hn _ IH]; simpl; [lia|]. simpl in Hn.
  destruct (consumes_ref o); lia.
Qed.

Lemma spec_end_from_no_back sc : forall cur,
  has_back sc = false -> Forall (fun x => 0 <= snd x) sc ->
  spec_end_from cur sc = cur + spec_reflen sc.
Proof.
  induction sc as [|[o n] sc IH]; intros cur Hb Hn; simpl; [lia|].
  simpl in Hb. apply orb_false_iff in Hb as [Ho Hb].
  inversion Hn as [|? ? Hn0 Hn']; subst. simpl in Hn0.
  rewrite (IH _ Hb Hn'). pose proof (reflen_nonneg sc Hn').
  replace (ref_step (o, n)) with (if consumes_ref o then n else 0)
    by (destruct o; try reflexivity; discriminate Ho).
  destruct (consumes_ref o); lia.
Qed.

Lemma record_end_no_back flags pos c sc :
  spec_decode c = Some sc -> spec_unmapped flags = false -> c <> [] ->
  has_back sc = false -> Forall (fun w => 0 <= w) c ->
  record_end flags pos c = Ok (pos + spec_reflen sc).
Proof.
  intros H Hu Hc Hb Hw. rewrite (record_end_spec _ _ _ _ H). f_equal.
  unfold spec_end. rewrite Hu. cbn [orb].
  destruct sc as [|x sc'].
  - destruct c; [congruence|]. apply decode_length in H. discriminate.
  - apply spec_end_from_no_back; [assumption|]. eapply decode_lens_nonneg; eassumption.
Qed.

Lemma spec_reg2bin_unplaced : spec_reg2bin (-1) 0 = 4680.
Proof. reflexivity. Qed.
