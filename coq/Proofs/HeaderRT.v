(** C07 — text round trip: parsing the text a header marshals to rebuilds a
    header with the same exposed values, hence the same text and binary. *)
From Coq Require Import ZArith List Bool Lia.
From Hts Require Import Base.Prim Model.Header Proofs.HeaderBase Proofs.HeaderInv Proofs.HeaderWorld
     Proofs.HeaderParse Proofs.HeaderText Proofs.HeaderLoop Proofs.HeaderFields.
Import ListNotations.
Open Scope Z_scope.

(** a line: no LF, no CR (TAB allowed) *)
Definition lclean (l : str) : Prop := ~ In LF l /\ ~ In CR l.

Section RT.
  Variable pt : str -> option str.
  Variable pu : str -> option str.

  Lemma printed_line : forall a b fs, clean [AT; a; b] -> (forall f, In f fs -> clean f) ->
    strip_cr (AT :: a :: b :: cf fs) = AT :: a :: b :: cf fs /\ split TAB (AT :: a :: b :: cf fs) = [AT; a; b] :: fs.
  Proof.
    intros a b fs HC FC. split.
    - apply strip_cr_clean. apply (render_line_clean [AT; a; b] fs HC FC).
    - apply (split_preceded TAB fs [AT; a; b]); [apply HC|intros f Hf; apply (FC f Hf)].
  Qed.

  Lemma text_line_at : forall w h a b rest, let l := AT :: a :: b :: rest in strip_cr l = l ->
    text_line pt pu w h l =
    if tag_eqb (a, b) tHD then
      match nth_error (w_h w) h with
      | None => Panic pNil
      | Some hd => let '(hd', e) := header_line hd l in Ok (put_hdr w h hd', e)
      end
    else if tag_eqb (a, b) tSQ then reference_line pu w h l
    else if tag_eqb (a, b) tRG then read_group_line pt w h l
    else if tag_eqb (a, b) tPG then program_line w h l
    else if tag_eqb (a, b) tCO then comment_line w h l
    else Ok (w, eBadHeader).
  Proof. intros w h a b rest l E. unfold text_line. rewrite E. reflexivity. Qed.

  (** one line of an item whose name is new to the header: the item is appended *)
  Definition appended {P} (k : lens P) (w : world) (h : nat) (hd : hdr) (o : obj P) : world :=
    let t := l_t k hd in
    put_hdr (l_setst k w (l_st k w ++ [mkObj (Some h) (zlen (t_items t)) (o_name o) (o_pay o)])) h
            (l_sett k hd (mkTbl (t_items t ++ [length (l_st k w)]) (mset (o_name o) (zlen (t_items t)) (t_seen t)))).

  Lemma install_new_appended : forall {P} (k : lens P) w h hd (o : obj P), mget (o_name o) (t_seen (l_t k hd)) = None ->
    (let '(st', t') := install_new h (l_st k w) (l_t k hd) (mkObj None 0 (o_name o) (o_pay o)) in
     Ok (put_hdr (l_setst k w st') h (l_sett k hd t'), 0)) = Ok (appended k w h hd o, 0).
  Proof.
    intros. unfold install_new, add_fresh. cbn [owned with_ident o_owner o_id o_name orb]. change (0 <=? -1) with false. cbn iota.
    rewrite upd_app_last. reflexivity.
  Qed.

  Lemma ref_line_step : forall w h hd o,
    nth_error (w_h w) h = Some hd -> WFref pu o -> mget (o_name o) (t_seen (h_R hd)) = None ->
    text_line pt pu w h (ref_string o) = Ok (appended kR w h hd o, 0).
  Proof.
    intros w h hd o Hh WF Hm. rewrite ref_string_render.
    destruct (printed_line 83 81 (ref_fields o)) as (SC & SP); [tcl|intros f; apply (ref_fields_clean pu); exact WF|].
    unfold render_line; cbn [fst snd app]. rewrite text_line_at by exact SC.
    change (tag_eqb (83, 81) tHD) with false. change (tag_eqb (83, 81) tSQ) with true. cbv iota.
    unfold reference_line. rewrite Hh, SP. assert (SR := sq_rebuild pu o WF).
    destruct (ref_fields o) as [|f1 [|f2 fs]] eqn:EF; try (unfold ref_fields in EF; discriminate).
    rewrite SR. cbn [negb orb o_name]. rewrite Hm.
    unfold add_fresh. cbn [owned with_ident o_owner o_id orb]. change (0 <=? -1) with false. cbn iota.
    rewrite upd_app_last. reflexivity.
  Qed.

  Lemma rg_line_step : forall w h hd o,
    nth_error (w_h w) h = Some hd -> WFrg pt o -> mget (o_name o) (t_seen (h_G hd)) = None ->
    text_line pt pu w h (rg_string o) = Ok (appended kG w h hd o, 0).
  Proof.
    intros w h hd o Hh WF Hm. rewrite rg_string_render.
    destruct (printed_line 82 71 (rg_fields_of o)) as (SC & SP); [tcl|intros f; apply (rg_fields_clean pt); exact WF|].
    unfold render_line; cbn [fst snd app]. rewrite text_line_at by exact SC.
    change (tag_eqb (82, 71) tHD) with false. change (tag_eqb (82, 71) tSQ) with false. change (tag_eqb (82, 71) tRG) with true. cbv iota.
    unfold read_group_line. rewrite Hh, SP. assert (SR := rg_rebuild pt (t_seen (h_G hd)) o WF Hm).
    destruct (rg_fields_of o) as [|f1 fs] eqn:EF; try (unfold rg_fields_of in EF; discriminate).
    rewrite SR. cbn [negb]. exact (install_new_appended kG w h hd o Hm).
  Qed.

  Lemma pg_line_step : forall w h hd o,
    nth_error (w_h w) h = Some hd -> WFpg o -> mget (o_name o) (t_seen (h_P hd)) = None ->
    text_line pt pu w h (pg_string o) = Ok (appended kP w h hd o, 0).
  Proof.
    intros w h hd o Hh WF Hm. rewrite pg_string_render.
    destruct (printed_line 80 71 (pg_fields_of o)) as (SC & SP); [tcl|intros f; apply pg_fields_clean; exact WF|].
    unfold render_line; cbn [fst snd app]. rewrite text_line_at by exact SC.
    change (tag_eqb (80, 71) tHD) with false. change (tag_eqb (80, 71) tSQ) with false. change (tag_eqb (80, 71) tRG) with false.
    change (tag_eqb (80, 71) tPG) with true. cbv iota.
    unfold program_line. rewrite Hh, SP. assert (SR := pg_rebuild (t_seen (h_P hd)) o WF Hm).
    destruct (pg_fields_of o) as [|f1 fs] eqn:EF; try (unfold pg_fields_of in EF; discriminate).
    rewrite SR. cbn [negb]. exact (install_new_appended kP w h hd o Hm).
  Qed.

  Lemma co_line_step : forall w h hd c,
    nth_error (w_h w) h = Some hd -> lclean c ->
    text_line pt pu w h ([AT; 67; 79; TAB] ++ c) = Ok (put_hdr w h (set_co hd (h_co hd ++ [c])), 0).
  Proof.
    intros w h hd c Hh (L1 & L2). cbn [app]. rewrite text_line_at.
    2:{ apply strip_cr_clean. intro Hi. simpl in Hi. repeat (destruct Hi as [Hi|Hi]; [discriminate|]). exact (L2 Hi). }
    change (tag_eqb (67, 79) tHD) with false. change (tag_eqb (67, 79) tSQ) with false.
    change (tag_eqb (67, 79) tRG) with false. change (tag_eqb (67, 79) tPG) with false. change (tag_eqb (67, 79) tCO) with true. cbv iota.
    unfold comment_line. rewrite Hh. reflexivity.
  Qed.

  Definition nv {P} (o : obj P) : str * P := (o_name o, o_pay o).

  (** the lines of the items of one kind, in a header that lists [pre]: they are appended in order *)
  Lemma phase : forall {P} (k : lens P) (pr : obj P -> str) (WF : obj P -> Prop), LensInv k -> LensLaws k ->
    (forall w h hd o, nth_error (w_h w) h = Some hd -> WF o -> mget (o_name o) (t_seen (l_t k hd)) = None ->
       text_line pt pu w h (pr o) = Ok (appended k w h hd o, 0)) ->
    forall os w h hd pre rest,
    WInv w -> nth_error (w_h w) h = Some hd -> objs (l_st k w) (t_items (l_t k hd)) = Some pre ->
    Forall WF os -> NoDup (map o_name pre ++ map o_name os) ->
    exists st' t' post, text_lines pt pu w h (map pr os ++ rest) = text_lines pt pu (put_hdr (l_setst k w st') h (l_sett k hd t')) h rest /\
      WInv (put_hdr (l_setst k w st') h (l_sett k hd t')) /\ objs st' (t_items t') = Some post /\ map nv post = map nv pre ++ map nv os.
  Proof.
    intros P k pr WF LI LL STEP. induction os as [|o os IH]; intros w h hd pre rest I Hh Hpre F ND.
    - exists (l_st k w), (l_t k hd), pre. rewrite (ll_same k LL) by exact Hh. simpl. rewrite app_nil_r. auto.
    - inversion F as [|? ? WFo WFos]; subst.
      assert (Lh : (h < length (w_h w))%nat) by (eapply nth_error_valid; eauto).
      assert (Hm : mget (o_name o) (t_seen (l_t k hd)) = None).
      { eapply fresh_name; [apply (lens_TInv k LI w h hd I Hh)|exact Hpre|]. simpl in ND. apply NoDup_remove_2 in ND.
        intro Hin. apply ND. apply in_or_app. left; exact Hin. }
      assert (ST := STEP w h hd o Hh WFo Hm).
      destruct (text_line_good pt pu w h (pr o) I Lh) as (w1 & e1 & R1 & I1 & _). rewrite ST in R1. inversion R1; subst w1 e1; clear R1.
      cbn [map app text_lines]. rewrite ST. cbn [Z.eqb]. unfold appended in *.
      match type of I1 with WInv (put_hdr (l_setst k w ?s) h (l_sett k hd ?t)) =>
        destruct (IH (put_hdr (l_setst k w s) h (l_sett k hd t)) h (l_sett k hd t) (pre ++ [mkObj (Some h) (zlen (t_items (l_t k hd))) (o_name o) (o_pay o)]) rest I1)
          as (st' & t' & post & E & I' & Hp' & Hv) end.
      + apply nth_put_hdr. rewrite (ll_h k LL). exact Lh.
      + rewrite (ll_st k LL), (ll_t k LL). apply objs_snoc. exact Hpre.
      + exact WFos.
      + rewrite map_app. simpl. rewrite <- app_assoc. exact ND.
      + rewrite (ll_putput k LL) in E, I'. exists st', t', post. split; [exact E|]. split; [exact I'|]. split; [exact Hp'|].
        rewrite Hv, map_app. simpl. rewrite <- app_assoc. reflexivity.
  Qed.
End RT.

Section RT2.
  Variable pt : str -> option str.
  Variable pu : str -> option str.

  (** the @HD part and the comments of a header that can be printed and read back *)
  Definition WFhd (hd : hdr) : Prop :=
    (h_vn hd = [] -> h_so hd = 0 /\ h_go hd = 0 /\ h_other hd = []) /\ clean (h_vn hd) /\
    0 <= h_so hd <= 3 /\ 0 <= h_go hd <= 3 /\
    (forall tp, In tp (h_other hd) -> mem_tag (fst tp) [tVN; tSO; tGO] = false /\ tclean (fst tp) /\ clean (snd tp)) /\
    (forall c, In c (h_co hd) -> lclean c).

  Lemma cos_phase : forall cs w h hd rest, nth_error (w_h w) h = Some hd -> Forall lclean cs ->
    text_lines pt pu w h (map (fun c => [AT; 67; 79; TAB] ++ c) cs ++ rest)
    = text_lines pt pu (put_hdr w h (set_co hd (h_co hd ++ cs))) h rest.
  Proof.
    induction cs as [|c cs IH]; intros w h hd rest Hh F.
    - simpl. rewrite app_nil_r. replace (set_co hd (h_co hd)) with hd by (destruct hd; reflexivity). rewrite put_hdr_same; auto.
    - inversion F; subst. cbn [map]. rewrite <- app_comm_cons. cbn [text_lines]. rewrite (co_line_step pt pu w h hd c Hh) by assumption. cbn [Z.eqb].
      assert (Lh : (h < length (w_h w))%nat) by (apply nth_error_Some; congruence).
      rewrite (IH (put_hdr w h (set_co hd (h_co hd ++ [c]))) h (set_co hd (h_co hd ++ [c])) rest); auto.
      + f_equal. unfold put_hdr, set_h; simpl. rewrite upd_upd. rewrite <- app_assoc. reflexivity.
      + simpl. apply nth_error_upd_eq. exact Lh.
  Qed.

  Lemma hd_others : forall l hd, (forall tp, In tp l -> mem_tag (fst tp) [tVN; tSO; tGO] = false) ->
    hd_fields hd (other_fields l)
    = (set_hd hd (h_vn hd) (h_so hd) (h_go hd) (h_other hd ++ l), if is_empty (h_vn hd) then eBadHeader else 0).
  Proof.
    induction l as [|[t v] l IH]; intros hd H.
    - simpl. rewrite app_nil_r. destruct hd; reflexivity.
    - cbn [other_fields map hd_fields fst snd]. rewrite split_field_body.
      assert (M := H (t, v) (or_introl eq_refl)). cbn [fst] in M.
      repeat (apply mem_tag_false_cons in M; destruct M as [? M]). rewrite H0, H1, H2.
      change (map (fun tp => body (fst tp) (snd tp)) l) with (other_fields l).
      rewrite IH by (intros tp Hin; apply H; right; exact Hin). cbn [set_hd h_vn h_so h_go h_other]. rewrite <- app_assoc. reflexivity.
  Qed.

  Lemma so_rt : forall so, 0 <= so <= 3 -> so_parse (so_string so) = so.
  Proof. intros so H. assert (so = 0 \/ so = 1 \/ so = 2 \/ so = 3) as [->|[->|[->| ->]]] by lia; reflexivity. Qed.
  Lemma go_rt : forall g, 1 <= g <= 3 -> go_parse (go_string g) = g.
  Proof. intros g H. assert (g = 1 \/ g = 2 \/ g = 3) as [->|[->| ->]] by lia; reflexivity. Qed.
  Lemma so_string_clean : forall so, clean (so_string so).
  Proof. intro so. unfold so_string. repeat match goal with |- context [if ?b then _ else _] => destruct b end; tcl. Qed.
  Lemma go_string_clean : forall g, clean (go_string g).
  Proof. intro g. unfold go_string. repeat match goal with |- context [if ?b then _ else _] => destruct b end; tcl. Qed.

  Lemma hd_fields_clean : forall hd f, WFhd hd -> In f (hd_fields_of hd) -> clean f.
  Proof.
    intros hd f (_ & Cv & _ & _ & Ho & _) Hin. unfold hd_fields_of in Hin.
    repeat (apply in_app_or in Hin; destruct Hin as [Hin|Hin]).
    - destruct Hin as [<-|[<-|[]]]; apply clean_body; auto; try tcl. apply so_string_clean.
    - destruct (h_go hd =? 0); [destruct Hin|]. destruct Hin as [<-|[]]. apply clean_body; [tcl|apply go_string_clean].
    - unfold other_fields in Hin. apply in_map_iff in Hin. destruct Hin as (tp & <- & Hin).
      destruct (Ho tp Hin) as (_ & Ht & Hv). apply clean_body; auto.
  Qed.

  Lemma hd_line_step : forall w h hd0 hd, nth_error (w_h w) h = Some hd0 ->
    h_vn hd0 = [] -> h_so hd0 = 0 -> h_go hd0 = 0 -> h_other hd0 = [] ->
    WFhd hd -> is_empty (h_vn hd) = false ->
    text_line pt pu w h (AT :: 72 :: 68 :: cf (hd_fields_of hd))
    = Ok (put_hdr w h (set_hd hd0 (h_vn hd) (h_so hd) (h_go hd) (h_other hd)), 0).
  Proof.
    intros w h hd0 hd Hh V0 S0 G0 O0 WF NE.
    destruct (printed_line 72 68 (hd_fields_of hd)) as (SC & SP); [tcl|intros f; apply hd_fields_clean; exact WF|].
    rewrite (text_line_at pt pu) by exact SC. change (tag_eqb (72, 68) tHD) with true. cbv iota.
    rewrite Hh. unfold header_line. rewrite SP.
    destruct WF as (_ & _ & Rs & Rg & Ho & _).
    unfold hd_fields_of. cbn [app hd_fields]. rewrite !split_field_body.
    change (tag_eqb tVN tVN) with true. change (tag_eqb tSO tVN) with false. change (tag_eqb tSO tSO) with true. cbn iota.
    rewrite V0. cbn [is_empty negb set_hd h_so h_vn h_go h_other]. rewrite S0. cbn [Z.eqb negb].
    rewrite so_rt by exact Rs.
    destruct (h_go hd =? 0) eqn:EG.
    - apply Z.eqb_eq in EG. cbn [app]. rewrite hd_others by (intros tp Hin; apply (Ho tp Hin)).
      cbn [set_hd h_so h_vn h_go h_other]. rewrite NE, G0, O0, EG. reflexivity.
    - apply Z.eqb_neq in EG. cbn [app hd_fields]. rewrite split_field_body.
      change (tag_eqb tGO tVN) with false. change (tag_eqb tGO tSO) with false. change (tag_eqb tGO tGO) with true. cbn iota.
      cbn [set_hd h_so h_vn h_go h_other]. rewrite G0. cbn [Z.eqb negb]. rewrite go_rt by lia.
      rewrite hd_others by (intros tp Hin; apply (Ho tp Hin)).
      cbn [set_hd h_so h_vn h_go h_other]. rewrite NE, O0. reflexivity.
  Qed.
End RT2.

Definition view (w : world) (hd : hdr) :=
  (h_vn hd, h_so hd, h_go hd, h_other hd, h_co hd,
   option_map (map nv) (objs (w_r w) (t_items (h_R hd))),
   option_map (map nv) (objs (w_g w) (t_items (h_G hd))),
   option_map (map nv) (objs (w_p w) (t_items (h_P hd)))).

Definition unnv {P} (x : str * P) : obj P := mkObj None 0 (fst x) (snd x).

(** the text and the binary are functions of the exposed values *)
Lemma marshal_text_view : forall w hd, marshal_text w hd =
  let '(vn, so, go, other, co, R, G, P) := view w hd in
  match R, G, P with
  | Some rs, Some gs, Some ps =>
    Ok (hd_string (mkHdr vn so go other tbl0 tbl0 tbl0 co) ++ lines (fun x => ref_string (unnv x)) rs
        ++ lines (fun x => rg_string (unnv x)) gs ++ lines (fun x => pg_string (unnv x)) ps
        ++ lines (fun c => [AT; 67; 79; TAB] ++ c) co)
  | _, _, _ => Panic pNil
  end.
Proof.
  intros w hd. unfold marshal_text, view.
  destruct (objs (w_r w) _) as [rs|]; [|reflexivity]. destruct (objs (w_g w) _) as [gs|]; [|reflexivity].
  destruct (objs (w_p w) _) as [ps|]; [|reflexivity]. cbn [option_map]. unfold lines. rewrite !map_map. reflexivity.
Qed.

Lemma encode_binary_view : forall w hd, encode_binary w hd =
  match marshal_text w hd, (let '(_, _, _, _, _, R, _, _) := view w hd in R) with
  | Ok text, Some rs =>
    Ok (bam_magic ++ le32 (zlen text) ++ text ++ le32 (zlen rs)
        ++ concat (map (fun x : str * refpay => le32 (zlen (fst x) + 1) ++ fst x ++ [0] ++ le32 (rp_len (snd x))) rs))
  | Ok _, None => Panic pNil
  | Err e, _ => Err e
  | Panic n, _ => Panic n
  | Stuck, _ => Stuck
  end.
Proof.
  intros w hd. unfold encode_binary, view. destruct (marshal_text w hd); try reflexivity.
  destruct (objs (w_r w) _) as [rs|]; [|reflexivity]. cbn [option_map]. unfold zlen. rewrite map_length, map_map. reflexivity.
Qed.

Lemma view_marshal : forall w hd w' hd', view w' hd' = view w hd ->
  marshal_text w' hd' = marshal_text w hd /\ encode_binary w' hd' = encode_binary w hd.
Proof.
  intros w hd w' hd' V. assert (M : marshal_text w' hd' = marshal_text w hd) by (rewrite !marshal_text_view, V; reflexivity).
  split; [exact M|]. rewrite !encode_binary_view, M, V. reflexivity.
Qed.

Section RT3.
  Variable pt : str -> option str.
  Variable pu : str -> option str.

  (** a header whose values can be printed and read back: SAM forbids TAB, LF
      and CR in values; lengths and insert sizes are in range; checksums have
      16 bytes; dates and URIs are canonical ([pt d = Some d], [pu u = Some u]);
      non-standard tags are distinct and not standard ones; an @HD field is
      only set when there is a version *)
  Definition WFH (w : world) (hd : hdr) : Prop :=
    WFhd hd /\ exists rs gs ps,
      objs (w_r w) (t_items (h_R hd)) = Some rs /\ objs (w_g w) (t_items (h_G hd)) = Some gs /\
      objs (w_p w) (t_items (h_P hd)) = Some ps /\
      Forall (WFref pu) rs /\ Forall (WFrg pt) gs /\ Forall WFpg ps.

  Theorem text_roundtrip : forall w h hd text, WInv w -> nth_error (w_h w) h = Some hd -> WFH w hd ->
    marshal_text w hd = Ok text ->
    exists w' hd', new_header pt pu w (Some text) [] = Ok (w', 0) /\ WInv w' /\
      nth_error (w_h w') (length (w_h w)) = Some hd' /\ view w' hd' = view w hd /\
      marshal_text w' hd' = Ok text /\ encode_binary w' hd' = encode_binary w hd.
  Proof.
    intros w h hd text I Hh (WFh & rs & gs & ps & Hr & Hg & Hp & Fr & Fg & Fp) MT.
    set (n := length (w_h w)).
    set (co_lines := map (fun c => [AT; 67; 79; TAB] ++ c) (h_co hd)).
    set (body_lines := map ref_string rs ++ map rg_string gs ++ map pg_string ps ++ co_lines).
    set (all_lines := (if is_empty (h_vn hd) then [] else [[AT; 72; 68] ++ cf (hd_fields_of hd)]) ++ body_lines).
    assert (TX : text = concat (map (fun l => l ++ [LF]) all_lines)).
    { unfold marshal_text in MT. rewrite Hr, Hg, Hp in MT. inversion MT; subst text. unfold all_lines, body_lines, co_lines, lines.
      rewrite !map_app, !concat_app, !map_map. f_equal. rewrite hd_string_render. destruct (is_empty (h_vn hd)); [reflexivity|].
      simpl. rewrite app_nil_r. reflexivity. }
    assert (WFh' := WFh). destruct WFh' as (Hrep & Cvn & Rso & Rgo & Hoth & Hcos).
    assert (LF_free : forall l, In l all_lines -> ~ In LF l).
    {       intros l Hl. unfold all_lines, body_lines in Hl. repeat (apply in_app_or in Hl; destruct Hl as [Hl|Hl]).
      - destruct (is_empty (h_vn hd)); [destruct Hl|]. destruct Hl as [<-|[]].
        apply (render_line_clean [AT; 72; 68] (hd_fields_of hd)); [tcl|]. intros f Hf. eapply hd_fields_clean; eauto.
      - apply in_map_iff in Hl. destruct Hl as (o & <- & Ho). rewrite ref_string_render.
        apply render_line_clean; [tcl|]. intros f Hf. eapply (ref_fields_clean pu); eauto. rewrite Forall_forall in Fr. auto.
      - apply in_map_iff in Hl. destruct Hl as (o & <- & Ho). rewrite rg_string_render.
        apply render_line_clean; [tcl|]. intros f Hf. eapply (rg_fields_clean pt); eauto. rewrite Forall_forall in Fg. auto.
      - apply in_map_iff in Hl. destruct Hl as (o & <- & Ho). rewrite pg_string_render.
        apply render_line_clean; [tcl|]. intros f Hf. eapply pg_fields_clean; eauto. rewrite Forall_forall in Fp. auto.
      - apply in_map_iff in Hl. destruct Hl as (c & <- & Hc). destruct (Hcos c Hc) as (L1 & _).
        intro Hi. apply in_app_or in Hi. destruct Hi as [Hi|Hi]; auto. simpl in Hi. repeat (destruct Hi as [Hi|Hi]; [discriminate|]). exact Hi. }
    (* NewHeader allocates the empty header, then UnmarshalText *)
    unfold new_header. cbn [nh_validate nh_claim Z.eqb negb]. unfold unmarshal_text. fold n.
    set (hd0 := mkHdr [] 0 0 [] (mkTbl [] []) tbl0 tbl0 []).
    set (w1 := mkW (w_h w ++ [hd0]) (w_r w) (w_g w) (w_p w)).
    assert (I1 : WInv w1).
    { destruct I as (A & B & C). unfold WInv, w1; simpl. rewrite !map_app; simpl. split; [|split]; apply KInv_empty_tbl; assumption. }
    assert (Hn1 : nth_error (w_h w1) n = Some hd0) by (unfold w1, n; simpl; apply nth_error_app_last).
    assert (Ln1 : (n < length (w_h w1))%nat) by (eapply nth_error_valid; eauto).
    rewrite TX, (split_terminated LF all_lines LF_free).
    (* @HD: the header gets the printed fields, which are the initial ones when there is no version *)
    set (hd2 := set_hd hd0 (h_vn hd) (h_so hd) (h_go hd) (h_other hd)).
    set (w2 := put_hdr w1 n hd2).
    assert (E2 : text_lines pt pu w1 n (all_lines ++ [[]]) = text_lines pt pu w2 n (body_lines ++ [[]])).
    { unfold all_lines. destruct (is_empty (h_vn hd)) eqn:EV.
      - assert (h_vn hd = []) as V0 by (destruct (h_vn hd); [reflexivity|discriminate]). destruct (Hrep V0) as (S0 & G0 & O0).
        unfold w2, hd2. rewrite V0, S0, G0, O0. change (set_hd hd0 [] 0 0 []) with hd0. rewrite (put_hdr_same w1 n hd0 Hn1). reflexivity.
      - cbn [app text_lines]. rewrite (hd_line_step pt pu w1 n hd0 hd Hn1 eq_refl eq_refl eq_refl eq_refl WFh EV). reflexivity. }
    assert (I2 : WInv w2) by (eapply WInv_put_same; eauto).
    assert (Hn2 : nth_error (w_h w2) n = Some hd2) by (apply nth_put_hdr; exact Ln1).
    assert (Ln2 : (n < length (w_h w2))%nat) by (eapply nth_error_valid; eauto).
    destruct (phase pt pu kR ref_string (WFref pu) invR lawsR (ref_line_step pt pu) rs w2 n hd2 []
                (map rg_string gs ++ map pg_string ps ++ co_lines ++ [[]]) I2 Hn2 eq_refl Fr) as (st3 & t3 & post3 & E3 & I3 & Hp3 & Hv3).
    { eapply names_nodup; [apply (lens_TInv kR invR w h hd I Hh)|exact Hr]. }
    cbn [l_setst l_sett kR] in *. set (hd3 := set_R hd2 t3) in *. set (w3 := put_hdr (set_r w2 st3) n hd3) in *.
    destruct (phase pt pu kG rg_string (WFrg pt) invG lawsG (rg_line_step pt pu) gs w3 n hd3 []
                (map pg_string ps ++ co_lines ++ [[]]) I3 (nth_put_hdr (set_r w2 st3) n hd3 Ln2) eq_refl Fg) as (st4 & t4 & post4 & E4 & I4 & Hp4 & Hv4).
    { eapply names_nodup; [apply (lens_TInv kG invG w h hd I Hh)|exact Hg]. }
    cbn [l_setst l_sett kG] in *. set (hd4 := set_G hd3 t4) in *. set (w4 := put_hdr (set_g w3 st4) n hd4) in *.
    assert (Ln3 : (n < length (w_h w3))%nat) by (unfold w3; simpl; rewrite upd_length; exact Ln2).
    destruct (phase pt pu kP pg_string WFpg invP lawsP (pg_line_step pt pu) ps w4 n hd4 []
                (co_lines ++ [[]]) I4 (nth_put_hdr (set_g w3 st4) n hd4 Ln3) eq_refl Fp) as (st5 & t5 & post5 & E5 & I5 & Hp5 & Hv5).
    { eapply names_nodup; [apply (lens_TInv kP invP w h hd I Hh)|exact Hp]. }
    cbn [l_setst l_sett kP] in *. set (hd5 := set_P hd4 t5) in *. set (w5 := put_hdr (set_p w4 st5) n hd5) in *.
    assert (Ln4 : (n < length (w_h w4))%nat) by (unfold w4; simpl; rewrite upd_length; exact Ln3).
    assert (Hn5 : nth_error (w_h w5) n = Some hd5) by exact (nth_put_hdr (set_p w4 st5) n hd5 Ln4).
    exists (put_hdr w5 n (set_co hd5 (h_co hd))), (set_co hd5 (h_co hd)).
    assert (FIN : text_lines pt pu w1 n (all_lines ++ [[]]) = Ok (put_hdr w5 n (set_co hd5 (h_co hd)), 0)).
    { rewrite E2. unfold body_lines. rewrite <- !app_assoc. etransitivity; [exact E3|]. etransitivity; [exact E4|]. etransitivity; [exact E5|].
      unfold co_lines. rewrite (cos_phase pt pu (h_co hd) w5 n hd5 [[]] Hn5) by (apply Forall_forall; exact Hcos). reflexivity. }
    assert (VW : view (put_hdr w5 n (set_co hd5 (h_co hd))) (set_co hd5 (h_co hd)) = view w hd).
    { unfold view. cbn. rewrite Hp3, Hp4, Hp5, Hr, Hg, Hp. simpl. rewrite Hv3, Hv4, Hv5. reflexivity. }
    split; [exact FIN|]. split; [eapply WInv_put_same; [exact I5|exact Hn5|reflexivity..]|].
    split; [apply nth_put_hdr; eapply nth_error_valid; eauto|]. split; [exact VW|].
    destruct (view_marshal _ _ _ _ VW) as (M1 & M2). split; [rewrite M1, <- TX; exact MT|exact M2].
  Qed.
End RT3.
