(** C01, reader side: a list of (member bytes, payload) pairs laid out one
    after the other is a well-formed file in the sense of Model/Flat.v, and
    the modelled Reader (Model/Reader.v), driven by any mix of Read n /
    ReadByte, returns its data in order and reports io.EOF exactly at its end.
    Proofs/WriterReaderThms.v applies this to the stream of the writer model. *)
From Coq Require Import ZArith Lia List Bool.
From Hts Require Import Base.Prim Base.WrList Model.Flat Model.Reader Proofs.ReaderFlat Proofs.ReaderStore.
Import ListNotations.
Open Scope Z_scope.

(** The file a list of (member bytes, payload) pairs laid out from offset b is. *)
Fixpoint file_from (b : Z) (ms : list (list Z * list Z)) : file :=
  match ms with
  | [] => []
  | (m, p) :: r => mkMember b (zlen m) p :: file_from (b + zlen m) r
  end.

Lemma file_from_wf b ms :
  Forall (fun mp => 0 < zlen (fst mp) /\ zlen (snd mp) <= 65535) ms ->
  wf_from b (file_from b ms) = true /\ addressable (file_from b ms) = true.
Proof.
  intros H. revert b. induction H as [|[m p] ms [H1 H2] _ IH]; intros b; [split; reflexivity|].
  destruct (IH (b + zlen m)) as [W A]. cbn [fst snd] in *.
  split.
  - cbn [file_from wf_from m_base m_size]. unfold m_len. cbn [m_data]. rewrite W, Z.eqb_refl.
    replace (0 <? zlen m) with true by (symmetry; apply Z.ltb_lt; assumption).
    replace (zlen p <=? 65536) with true by (symmetry; apply Z.leb_le; lia). reflexivity.
  - unfold addressable in *. cbn [file_from forallb]. rewrite A. unfold m_len. cbn [m_data].
    replace (zlen p <=? 65535) with true by (symmetry; apply Z.leb_le; lia). reflexivity.
Qed.

Lemma file_from_data b ms : flat_data (file_from b ms) = concat (map snd ms).
Proof.
  revert b. induction ms as [|[m p] ms IH]; intros b; [reflexivity|].
  unfold flat_data in *. cbn [file_from map concat m_data snd]. rewrite IH. reflexivity.
Qed.

(** The file is what a BGZF reader sees in the byte stream: at every member's
    base the stream continues with a member of m_size bytes (BSIZE + 1) that
    decodes to m_data, and after the last member the stream ends. *)
Fixpoint members_at (one : list Z -> option (list Z * list Z)) (stream : list Z) (F : file) : Prop :=
  match F with
  | [] => stream = []
  | mem :: F' =>
      exists m rest, stream = m ++ rest /\ zlen m = m_size mem
                     /\ one stream = Some (m_data mem, rest) /\ members_at one rest F'
  end.

Lemma members_at_file_from one b ms :
  Forall (fun mp => forall r, one (fst mp ++ r) = Some (snd mp, r)) ms ->
  members_at one (concat (map fst ms)) (file_from b ms).
Proof.
  intros H. revert b. induction H as [|[m p] ms Hm _ IH]; intros b; cbn [file_from map concat members_at fst]; [reflexivity|].
  exists m, (concat (map fst ms)). cbn [m_size m_data]. repeat split; auto.
Qed.

Definition read_op (o : rop) : Prop :=
  match o with ORead n => 0 <= n | OByte => True | _ => False end.

Definition want (o : rop) : Z := match o with ORead n => n | _ => 1 end.

(** Starting at position pos of data: every call returns exactly the next
    min(wanted, remaining) bytes, and reports io.EOF iff it returned fewer
    bytes than wanted or the data was already exhausted. *)
Fixpoint reads_ok (data : list Z) (pos : Z) (ops : list rop) (rets : list fret) : Prop :=
  match ops, rets with
  | [], [] => True
  | o :: ops', (bs, e) :: rets' =>
      bs = ztake (Z.min (want o) (zlen data - pos)) (zdrop pos data)
      /\ ((e = eEOF /\ (zlen bs < want o \/ pos = zlen data)) \/ (e = eNil /\ zlen bs = want o /\ pos < zlen data))
      /\ reads_ok data (pos + zlen bs) ops' rets'
  | _, _ => False
  end.

Lemma zlen_ztake_zdrop (k pos : Z) (data : list Z) :
  0 <= pos -> 0 <= k -> pos + k <= zlen data -> zlen (ztake k (zdrop pos data)) = k.
Proof.
  intros. unfold ztake, zdrop. apply zlen_firstn. rewrite zlen_skipn by lia. lia.
Qed.

(** With nothing blocked, ReadByte is Read of one byte. *)
Lemma flat_step_read F s o :
  read_op o -> f_blocked s = false -> 0 <= f_pos s <= total F -> 0 <= want o /\ flat_step F s o = flat_read F s (want o).
Proof.
  destruct o as [| n | | | |]; cbn [read_op want flat_step]; try contradiction; intros Ho Hb Hpos; [auto|]. split; [lia|].
  unfold flat_byte, flat_read. destruct (f_eof s); [reflexivity|]. destruct (total F - f_pos s =? 0) eqn:Hz; [reflexivity|].
  apply Z.eqb_neq in Hz. rewrite Hb. replace (Z.min 1 (total F - f_pos s)) with 1 by lia. reflexivity.
Qed.

Lemma flat_reads_ok F : forall ops s,
  Forall read_op ops -> f_blocked s = false -> 0 <= f_pos s <= total F ->
  (f_eof s = true -> f_pos s = total F) ->
  reads_ok (flat_data F) (f_pos s) ops (map fst (flat_run F s ops)).
Proof.
  induction ops as [|o ops IH]; intros s Hops Hb Hpos Heof; [exact I|].
  inversion Hops as [|? ? Ho Hops']; subst.
  destruct (flat_step_read F s o Ho Hb Hpos) as [Hn Hst]. cbn [flat_run]. rewrite Hst. clear Hst.
  unfold flat_read, total in *. set (data := flat_data F) in *.
  destruct (f_eof s) eqn:He; [|destruct (zlen data - f_pos s =? 0) eqn:Hz].
  - (* end of data already reported *)
    specialize (Heof eq_refl). cbn [map fst reads_ok]. replace (Z.min (want o) (zlen data - f_pos s)) with 0 by lia.
    split; [reflexivity|]. split; [left; split; [reflexivity|right; assumption]|].
    change (zlen (@nil Z)) with 0. rewrite Z.add_0_r. apply IH; auto.
  - (* end of data reached now *)
    apply Z.eqb_eq in Hz. cbn [map fst reads_ok]. replace (Z.min (want o) (zlen data - f_pos s)) with 0 by lia.
    split; [reflexivity|]. split; [left; split; [reflexivity|right; lia]|].
    change (zlen (@nil Z)) with 0. rewrite Z.add_0_r.
    apply (IH (mkF (f_pos s) true (f_blocked s) (f_chunk s))); cbn; auto; intros; lia.
  - apply Z.eqb_neq in Hz. rewrite Hb. cbn [negb andb map fst reads_ok].
    set (k := Z.min (want o) (zlen data - f_pos s)).
    assert (Hk : zlen (ztake k (zdrop (f_pos s) data)) = k) by (apply zlen_ztake_zdrop; lia).
    split; [reflexivity|]. rewrite Hk. split.
    { destruct (k <? want o) eqn:Hs; [apply Z.ltb_lt in Hs; left; split; [reflexivity|left; lia]
                               |apply Z.ltb_ge in Hs; right; repeat split; lia]. }
    apply (IH (mkF (f_pos s + k) _ _ _)); cbn [f_blocked f_pos f_eof]; auto; [lia|].
    rewrite andb_true_r. intros Hs. apply Z.ltb_lt in Hs. lia.
Qed.

Lemma read_op_valid F ops : Forall read_op ops -> Forall (valid_op F) ops /\ forallb no_cache_op ops = true.
Proof.
  induction 1 as [|o ops Ho _ [IH1 IH2]]; [split; [constructor|reflexivity]|].
  split; [constructor; [|assumption]|cbn [forallb]; rewrite IH2, andb_true_r];
    destruct o; cbn in *; try contradiction; auto.
Qed.

(** Any well-formed, non-empty file, any read-only history: the modelled
    bgzf.Reader (store model of Model/Reader.v) delivers the flat data. *)
Lemma reader_reads_flat F ch ops :
  wf_file F = true -> F <> [] -> Forall read_op ops ->
  snd (r_init F) = eNil /\
  exists l, r_run F ch (fst (r_init F)) ops = Ok l /\ reads_ok (flat_data F) 0 ops (rets l).
Proof.
  intros Hwf Hne Hops. destruct (read_op_valid F ops Hops) as [Hv Hc].
  destruct (r_refines_flat F ch ops Hwf Hne Hv Hc) as (Hi & l & Hrun & Hrets & _).
  split; [assumption|]. exists l. split; [assumption|]. rewrite Hrets.
  apply (flat_reads_ok F ops f_init Hops); cbn; auto; [|discriminate].
  unfold total. pose proof (zlen_nonneg (flat_data F)). lia.
Qed.
