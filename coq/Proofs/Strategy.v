(** C17 — the functional model of the merge strategies (Model/Strategy.v)
    against the vocabulary of the property statement (Model/StrategySpec.v).
    Everything about the merge loop is proved once, for any merge condition;
    Identity and Squash are the loops whose condition never resp. always
    holds (Squash on BGZF offsets only, where ties between Ends do not
    matter).  Induction on the chunk list throughout; no bound on length or
    offsets beyond [valid_chunk]. *)
From Coq Require Import Lia Sorting.Sorted RelationClasses.
From Hts Require Import Base.Prim Base.Bits Base.Chunks Model.Strategy Model.StrategySpec.
Open Scope Z_scope.

Lemma i64_mod x : i64 x = (x + 2 ^ 63) mod 2 ^ 64 - 2 ^ 63.
Proof.
  unfold i64.
  change 18446744073709551615 with (2 ^ 64 - 1).
  change (-9223372036854775808) with (- 2 ^ 63).
  change 9223372036854775808 with (2 ^ 63).
  rewrite land_ones_mod by lia.
  destruct (Z.leb_spec (- 2 ^ 63) x); [destruct (Z.ltb_spec x (2 ^ 63)) |]; simpl; try reflexivity.
  rewrite Z.mod_small; lia.
Qed.

Lemma i64_s64 x : i64 x = s64 x.
Proof. rewrite i64_mod. unfold s64, wraps. reflexivity. Qed.

Lemma i64_id x : - 2 ^ 63 <= x < 2 ^ 63 -> i64 x = x.
Proof. intros. rewrite i64_mod. rewrite Z.mod_small; lia. Qed.

(** On BGZF offsets the comparison by vOffset is the comparison by position. *)
Lemma vo_pos o : valid_offset o -> vo o = pos o.
Proof.
  destruct o as [f b]. unfold valid_offset, vo, pos, o_File, o_Block. cbn [fst snd]. intros [Hf Hb].
  rewrite shiftl_mul by lia.
  rewrite !i64_id by lia.
  rewrite (lor_high_low b f 16) by lia. lia.
Qed.

Lemma pos_inj a b : valid_offset a -> valid_offset b -> pos a = pos b -> a = b.
Proof.
  destruct a as [fa ba], b as [fb bb]. unfold valid_offset, pos, o_File, o_Block. cbn [fst snd].
  intros [Ha1 Ha2] [Hb1 Hb2] E. assert (fa = fb) by lia. subst. assert (ba = bb) by lia. subst. reflexivity.
Qed.

Lemma join_joinp l r : valid_chunk l -> valid_chunk r -> join l r = joinp l r.
Proof. intros [_ Hl] [_ Hr]. unfold join, joinp. rewrite !vo_pos by assumption. reflexivity. Qed.

Lemma join_end_pos l r :
  valid_chunk l -> valid_chunk r ->
  pos (c_End (join l r)) = Z.max (pos (c_End l)) (pos (c_End r)).
Proof.
  intros Hl Hr. rewrite join_joinp by assumption. unfold joinp, c_End at 1. cbn [snd].
  destruct (Z.ltb_spec (pos (c_End r)) (pos (c_End l))); lia.
Qed.

Lemma join_valid l r : valid_chunk l -> valid_chunk r -> valid_chunk (join l r).
Proof.
  intros Hl Hr. split; [apply Hl|]. unfold join, c_End at 1. cbn [snd].
  destruct (_ <? _); [apply Hl | apply Hr].
Qed.

Lemma join_covers l r v :
  valid_chunk l -> valid_chunk r -> begin_le l r ->
  covers l v \/ covers r v -> covers (join l r) v.
Proof. intros Hl Hr Hle. unfold covers, begin_le in *. rewrite join_end_pos by assumption. cbn [join c_Begin fst]. lia. Qed.

Lemma join_covers_inv l r v :
  valid_chunk l -> valid_chunk r -> touches l r ->
  covers (join l r) v -> covers l v \/ covers r v.
Proof. intros Hl Hr Ht. unfold covers, touches in *. rewrite join_end_pos by assumption. cbn [join c_Begin fst]. lia. Qed.

Lemma covered_cons c l v : covered (c :: l) v <-> covers c v \/ covered l v.
Proof.
  unfold covered. split.
  - intros [x [[->|Hin] Hc]]; [left; assumption | right; eauto].
  - intros [Hc | [x [Hin Hc]]]; [exists c | exists x]; simpl; auto.
Qed.

Lemma covered_nil v : ~ covered [] v.
Proof. intros [x [[] _]]. Qed.

Global Instance begin_le_trans : Transitive begin_le.
Proof. unfold begin_le. intros a b c. lia. Qed.

Lemma sorted_begins_ge c l :
  sorted_begin (c :: l) -> Forall (fun x => pos (c_Begin c) <= pos (c_Begin x)) (c :: l).
Proof.
  intros H. apply Sorted_StronglySorted in H; [| exact begin_le_trans].
  inversion H; subst. constructor; [lia | assumption].
Qed.

Lemma sorted_tail c l : sorted_begin (c :: l) -> sorted_begin l.
Proof. intros H. inversion H; assumption. Qed.

Lemma sorted_hd a b l : sorted_begin (a :: b :: l) -> begin_le a b.
Proof. intros H. inversion H as [| ? ? _ Hh]. inversion Hh. assumption. Qed.

(** The join begins where [left] began. *)
Lemma sorted_join left r rest : sorted_begin (left :: r :: rest) -> sorted_begin (join left r :: rest).
Proof.
  intros H. pose proof (sorted_hd _ _ _ H) as Hle. apply sorted_tail in H.
  inversion H as [| ? ? Hs Hh]; subst. constructor; [assumption |].
  inversion Hh; subst; constructor. unfold begin_le in *. cbn [join c_Begin fst]. lia.
Qed.

Lemma Sorted_nth {A} (R : A -> A -> Prop) l :
  Sorted R l -> forall i a b, nth_error l i = Some a -> nth_error l (S i) = Some b -> R a b.
Proof.
  induction 1 as [| x l Hs IH Hh]; intros i a b Ha Hb.
  - destruct i; discriminate.
  - destruct i; simpl in *.
    + inversion Ha; subst. destruct l; [discriminate |]. inversion Hb; subst. inversion Hh; assumption.
    + eapply IH; eassumption.
Qed.

Lemma Sorted_weaken {A} (R R' : A -> A -> Prop) (V : A -> Prop) l :
  (forall a b, V a -> V b -> R a b -> R' a b) -> Forall V l -> Sorted R l -> Sorted R' l.
Proof.
  intros HR HV Hs. induction Hs as [| x l Hs IH Hh]; [constructor |].
  inversion HV; subst. constructor; [auto |].
  inversion Hh; subst; constructor. inversion H2; subst. auto.
Qed.

Section Merge.
  Variable mergeable : chunk -> chunk -> bool.

  Lemma merge_from_head left rest :
    exists x t, merge_from mergeable left rest = x :: t /\ c_Begin x = c_Begin left.
  Proof.
    revert left. induction rest as [| r rest IH]; intros left; simpl.
    - eauto.
    - destruct (mergeable left r); [| eauto].
      destruct (IH (join left r)) as [x [t [E B]]]. exists x, t. auto.
  Qed.

  Lemma merge_from_valid rest : forall left,
    valid_chunk left -> Forall valid_chunk rest -> Forall valid_chunk (merge_from mergeable left rest).
  Proof.
    induction rest as [| r rest IH]; intros left Hl Hr; simpl.
    - constructor; auto.
    - inversion Hr; subst. destruct (mergeable left r).
      + apply IH; [apply join_valid |]; assumption.
      + constructor; auto.
  Qed.

  Lemma merge_from_sorted rest : forall left,
    sorted_begin (left :: rest) -> sorted_begin (merge_from mergeable left rest).
  Proof.
    induction rest as [| r rest IH]; intros left H; simpl.
    - constructor; constructor.
    - destruct (mergeable left r).
      + apply IH, sorted_join, H.
      + constructor; [apply IH; eapply sorted_tail; eassumption |].
        destruct (merge_from_head r rest) as [x [t [E B]]]. rewrite E. constructor.
        unfold begin_le. rewrite B. exact (sorted_hd _ _ _ H).
  Qed.

  Lemma merge_from_begins_ge left rest :
    sorted_begin (left :: rest) ->
    Forall (fun x => pos (c_Begin left) <= pos (c_Begin x)) (merge_from mergeable left rest).
  Proof.
    intros H. pose proof (merge_from_sorted rest left H) as Hs.
    destruct (merge_from_head left rest) as [x [t [E B]]]. rewrite E in *.
    rewrite <- B. apply sorted_begins_ge. assumption.
  Qed.

  Lemma merge_from_covers rest : forall left,
    valid_chunk left -> Forall valid_chunk rest -> sorted_begin (left :: rest) ->
    forall v, covered (left :: rest) v -> covered (merge_from mergeable left rest) v.
  Proof.
    induction rest as [| r rest IH]; intros left Hl Hr Hs v Hc; simpl; [assumption |].
    inversion Hr as [| ? ? Hvr Hvrest]; subst. rewrite !covered_cons in Hc.
    destruct (mergeable left r).
    - apply IH; [apply join_valid; assumption | assumption | apply sorted_join; assumption |].
      rewrite covered_cons.
      pose proof (join_covers left r v Hl Hvr (sorted_hd _ _ _ Hs)). tauto.
    - rewrite covered_cons. destruct Hc as [Hc | Hc]; [left; assumption | right].
      apply IH; try assumption; [eapply sorted_tail; eassumption | rewrite covered_cons; assumption].
  Qed.

  Section Runs.
    Variable R : chunk -> chunk -> Prop.
    Hypothesis mergeable_R : forall a b, valid_chunk a -> valid_chunk b -> (mergeable a b = true <-> R a b).

    Lemma merge_from_runs rest : forall left,
      valid_chunk left -> Forall valid_chunk rest ->
      exists g rs,
        left :: rest = flatten ((left, g) :: rs)
        /\ merge_from mergeable left rest = map hull_of ((left, g) :: rs)
        /\ Forall (fun r => chained R (fst r) (snd r)) ((left, g) :: rs)
        /\ Sorted (fun r1 r2 => ~ R (hull_of r1) (fst r2)) ((left, g) :: rs).
    Proof.
      induction rest as [| r rest IH]; intros left Hl Hr.
      - exists [], []. simpl. repeat split; repeat constructor.
      - inversion Hr as [| ? ? Hvr Hvrest]; subst. simpl merge_from.
        destruct (mergeable left r) eqn:E.
        + destruct (IH (join left r) (join_valid _ _ Hl Hvr) Hvrest) as [g [rs [Hf [Hm [Hc Hs]]]]].
          rewrite join_joinp in * by assumption.
          exists (r :: g), rs. repeat split.
          * simpl in *. inversion Hf. reflexivity.
          * exact Hm.
          * inversion Hc as [| ? ? Hc1 Hc2]; subst. constructor; [| assumption].
            split; [apply mergeable_R; assumption | exact Hc1].
          * inversion Hs as [| ? ? Hs1 Hs2]; subst. constructor; [assumption |].
            inversion Hs2; subst; constructor. assumption.
        + destruct (IH r Hvr Hvrest) as [g [rs [Hf [Hm [Hc Hs]]]]].
          exists [], ((r, g) :: rs). repeat split.
          * simpl in *. f_equal. exact Hf.
          * rewrite Hm. reflexivity.
          * constructor; [exact I | assumption].
          * constructor; [assumption |]. constructor. unfold hull_of. simpl.
            intros HR. apply mergeable_R in HR; [congruence | assumption | assumption].
    Qed.

    Lemma merge_runs l : valid_chunks l -> merged_runs R l (merge mergeable l).
    Proof.
      destruct l as [| c t]; intros Hv.
      - exists []. simpl. repeat split; constructor.
      - inversion Hv; subst. destruct (merge_from_runs t c) as [g [rs H]]; try assumption.
        exists ((c, g) :: rs). exact H.
    Qed.
  End Runs.

  (** Neighbours of the result are not mergeable, provided the condition
      looks at the right chunk's Begin only (its End may have grown). *)
  Hypothesis mergeable_begin :
    forall l r r', c_Begin r = c_Begin r' -> mergeable l r = mergeable l r'.

  Lemma merge_from_neighbours rest : forall left,
    Sorted (fun a b => mergeable a b = false) (merge_from mergeable left rest).
  Proof.
    induction rest as [| r rest IH]; intros left; simpl.
    - constructor; constructor.
    - destruct (mergeable left r) eqn:E.
      + apply IH.
      + constructor; [apply IH |].
        destruct (merge_from_head r rest) as [x [t [Ex B]]]. rewrite Ex. constructor.
        rewrite (mergeable_begin left x r B). assumption.
  Qed.

  Lemma merge_from_fixed rest : forall left,
    Sorted (fun a b => mergeable a b = false) (left :: rest) ->
    merge_from mergeable left rest = left :: rest.
  Proof.
    induction rest as [| r rest IH]; intros left H; simpl.
    - reflexivity.
    - inversion H as [| ? ? Hs Hh]; subst. inversion Hh as [| ? ? E]; subst. rewrite E.
      f_equal. apply IH. assumption.
  Qed.

  Lemma merge_idempotent l : merge mergeable (merge mergeable l) = merge mergeable l.
  Proof.
    destruct l as [| c t]; [reflexivity |]. simpl.
    pose proof (merge_from_neighbours t c) as H.
    destruct (merge_from mergeable c t) as [| x t'] eqn:E; [reflexivity |].
    simpl. apply merge_from_fixed. assumption.
  Qed.
End Merge.

Lemma merge_sorted mergeable l : sorted_begin l -> sorted_begin (merge mergeable l).
Proof. destruct l; simpl; [intros; constructor | apply merge_from_sorted]. Qed.

Lemma merge_valid mergeable l : valid_chunks l -> valid_chunks (merge mergeable l).
Proof.
  destruct l; simpl; [intros; constructor |]. intros H. inversion H; subst.
  apply merge_from_valid; assumption.
Qed.

Lemma merge_covers mergeable l :
  valid_chunks l -> sorted_begin l -> forall v, covered l v -> covered (merge mergeable l) v.
Proof.
  destruct l; simpl; [auto |]. intros H Hs. inversion H; subst.
  apply merge_from_covers; assumption.
Qed.

Lemma adj_mergeable_begin l r r' : c_Begin r = c_Begin r' -> adj_mergeable l r = adj_mergeable l r'.
Proof. unfold adj_mergeable. intros ->. reflexivity. Qed.

Lemma adj_mergeable_pos l r :
  valid_chunk l -> valid_chunk r ->
  adj_mergeable l r = (pos (c_Begin r) <=? pos (c_End l)).
Proof. intros [_ Hl] [Hr _]. unfold adj_mergeable. rewrite !vo_pos by assumption. reflexivity. Qed.

Lemma adj_mergeable_touches a b :
  valid_chunk a -> valid_chunk b -> (adj_mergeable a b = true <-> touches a b).
Proof. intros Ha Hb. rewrite adj_mergeable_pos by assumption. unfold touches. apply Z.leb_le. Qed.

Lemma adj_merge_from_exact rest : forall left,
  valid_chunk left -> Forall valid_chunk rest ->
  forall v, covered (merge_from adj_mergeable left rest) v -> covered (left :: rest) v.
Proof.
  induction rest as [| r rest IH]; intros left Hl Hr v Hc; simpl in *; [assumption |].
  inversion Hr as [| ? ? Hvr Hvrest]; subst. rewrite !covered_cons.
  destruct (adj_mergeable left r) eqn:E.
  - apply IH in Hc; [| apply join_valid; assumption | assumption].
    apply adj_mergeable_touches in E; try assumption.
    rewrite covered_cons in Hc. pose proof (join_covers_inv left r v Hl Hvr E). tauto.
  - rewrite covered_cons in Hc. destruct Hc as [Hc | Hc]; [left; assumption | right].
    rewrite <- covered_cons. apply IH; assumption.
Qed.

Lemma adjacent_exact_gen l :
  valid_chunks l -> sorted_begin l -> forall v, covered (adjacent_m l) v <-> covered l v.
Proof.
  intros Hv Hs v. split.
  - destruct l; simpl; [auto |]. inversion Hv; subst. apply adj_merge_from_exact; assumption.
  - apply merge_covers; assumption.
Qed.

Lemma adj_merge_from_separated rest : forall left,
  valid_chunk left -> Forall valid_chunk rest -> sorted_begin (left :: rest) ->
  pairwise_separated (merge_from adj_mergeable left rest).
Proof.
  induction rest as [| r rest IH]; intros left Hl Hr Hs; simpl.
  - constructor; constructor.
  - inversion Hr as [| ? ? Hvr Hvrest]; subst.
    destruct (adj_mergeable left r) eqn:E.
    + apply IH; [apply join_valid; assumption | assumption | apply sorted_join; assumption].
    + constructor; [| apply IH; try assumption; eapply sorted_tail; eassumption].
      rewrite adj_mergeable_pos in E by assumption. apply Z.leb_gt in E.
      pose proof (merge_from_begins_ge adj_mergeable r rest (sorted_tail _ _ Hs)) as Hge.
      eapply Forall_impl; [| exact Hge]. unfold separated. simpl. intros. lia.
Qed.

Lemma adjacent_separated_gen l :
  valid_chunks l -> sorted_begin l -> pairwise_separated (adjacent_m l).
Proof.
  destruct l; simpl; [intros; constructor |]. intros H Hs. inversion H; subst.
  apply adj_merge_from_separated; assumption.
Qed.

Lemma cmp_mergeable_begin near l r r' :
  c_Begin r = c_Begin r' -> cmp_mergeable near l r = cmp_mergeable near l r'.
Proof. unfold cmp_mergeable. intros ->. reflexivity. Qed.

Lemma cmp_mergeable_within near a b :
  valid_chunk a -> valid_chunk b -> (cmp_mergeable near a b = true <-> within near a b).
Proof.
  intros [_ [Ha _]] [[Hb _] _]. unfold cmp_mergeable, within. rewrite i64_id by lia. apply Z.leb_le.
Qed.

(** A Compressor joins a chunk to the run before it only when it begins
    within [near] compressed bytes of the run's end — stated on the first
    step, which is what the loop decides at every position. *)
Lemma cmp_mergeable_near near a b :
  valid_chunk a -> valid_chunk b -> cmp_mergeable near a b = true ->
  o_File (c_Begin b) - o_File (c_End a) <= near.
Proof. intros Ha Hb. apply cmp_mergeable_within; assumption. Qed.

Lemma compressor_gap_gen near l :
  valid_chunks l -> neighbours_far near (compressor_m near l).
Proof.
  intros Hv. unfold neighbours_far. apply Sorted_nth.
  apply Sorted_weaken with (R := fun a b => cmp_mergeable near a b = false) (V := valid_chunk).
  - intros a b Ha Hb E.
    assert (~ within near a b) by (rewrite <- cmp_mergeable_within, E by assumption; discriminate).
    unfold far, within in *. lia.
  - apply merge_valid. assumption.
  - unfold compressor_m. destruct l as [| c t]; [constructor |]. simpl.
    apply merge_from_neighbours. apply cmp_mergeable_begin.
Qed.

Lemma merge_never l : merge (fun _ _ => false) l = l.
Proof.
  destruct l as [| c t]; [reflexivity |]. simpl. revert c.
  induction t as [| x t IH]; intros c; simpl; [reflexivity | f_equal; apply IH].
Qed.

Lemma identity_unaltered_gen : forall l, identity_m l = l.
Proof. reflexivity. Qed.

(** [max_end] keeps the first of two equal Ends and [join] the second; on
    BGZF offsets equal vOffsets are equal offsets. *)
Lemma squash_merge l : valid_chunks l -> squash_m l = merge (fun _ _ => true) l.
Proof.
  destruct l as [| c t]; [reflexivity |]. intros Hv. inversion Hv as [| ? ? Hc Ht]; subst. simpl.
  destruct c as [b e]. unfold mk_chunk, c_Begin, c_End. cbn [fst snd].
  assert (He : valid_offset e) by apply Hc. clear Hc Hv. revert e He.
  induction Ht as [| x t Hx _ IH]; intros e He; simpl; [reflexivity |].
  assert (E : join (b, e) x = (b, max_end e x)).
  { unfold join, max_end, c_Begin, c_End. cbn [fst snd]. f_equal.
    rewrite !vo_pos by (assumption || apply Hx).
    destruct (Z.ltb_spec (pos (snd x)) (pos e)); destruct (Z.ltb_spec (pos e) (pos (snd x))); try reflexivity; try lia.
    apply pos_inj; [apply Hx | assumption | lia]. }
  rewrite E. apply IH. unfold max_end. destruct (_ <? _); [apply Hx | assumption].
Qed.

Lemma merge_always_hull t : forall c,
  valid_chunk c -> Forall valid_chunk t ->
  exists e, merge_from (fun _ _ => true) c t = [e] /\ c_Begin e = c_Begin c
    /\ (forall x, In x (c :: t) -> pos (c_End x) <= pos (c_End e))
    /\ exists x, In x (c :: t) /\ c_End x = c_End e.
Proof.
  induction t as [| x t IH]; intros c Hc Ht; simpl merge_from.
  - exists c. repeat split; [intros ? [<- | []]; lia | exists c; simpl; auto].
  - inversion Ht as [| ? ? Hx Ht']; subst.
    destruct (IH (join c x) (join_valid _ _ Hc Hx) Ht') as (e & E & B & Hmax & y & Hy & Ey).
    exists e. split; [assumption |]. split; [assumption |]. split.
    + pose proof (Hmax _ (or_introl eq_refl)) as Hj. rewrite join_end_pos in Hj by assumption.
      intros z [<- | [<- | Hz]]; [lia | lia | apply Hmax; right; assumption].
    + destruct Hy as [<- | Hy]; [| exists y; simpl; auto].
      unfold join, c_End at 1 in Ey. cbn [snd] in Ey.
      destruct (_ <? _); [exists c | exists x]; simpl; auto.
Qed.

Lemma squash_enclosing_gen c t :
  valid_chunks (c :: t) -> sorted_begin (c :: t) ->
  exists e, squash_m (c :: t) = [e] /\ encloses e (c :: t).
Proof.
  intros Hv Hs. rewrite squash_merge by assumption. inversion Hv as [| ? ? Hc Ht]; subst.
  destruct (merge_always_hull t c Hc Ht) as (e & E & B & Hmax & Hend).
  exists e. split; [exact E |]. split; [| split; [exists c; simpl; auto | exact Hend]].
  pose proof (sorted_begins_ge c t Hs) as Hge. rewrite Forall_forall in Hge.
  intros x Hx. rewrite B. auto.
Qed.
