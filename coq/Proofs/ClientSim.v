(** C13 — a reader machine that embeds into another one (same LastChunk(),
    BlockLen() and answers, step by step) gives the clients of the reader API
    the same runs; instance: the reader on block values inside the reader with
    store objects (no cache). *)
From Coq Require Import ZArith List Bool.
From Hts Require Import Base.Prim Model.Flat Model.Reader Model.ChunkReader Proofs.ReaderStore.
Import ListNotations.
Open Scope Z_scope.

Section Sim.
Variables M1 M2 : machine.
Variable g : MS M1 -> MS M2.
Hypothesis g_lc : forall s, m_lc M2 (g s) = m_lc M1 s.
Hypothesis g_blen : forall s, m_blen M2 (g s) = m_blen M1 s.
Hypothesis g_step : forall s o s' r, m_step M1 s o = Ok (s', r) -> no_cache_op o = true ->
  m_step M2 (g s) o = Ok (g s', r).

Lemma sim_cr_skip : forall cs s s' cs' e,
  cr_skip M1 s cs = Ok (s', cs', e) -> cr_skip M2 (g s) cs = Ok (g s', cs', e).
Proof.
  induction cs as [|c rest IH]; intros s s' cs' e H; simpl in *; [inversion H; reflexivity|].
  rewrite g_lc. destruct (voffset (snd c) <=? voffset (snd (m_lc M1 s))); [|inversion H; reflexivity].
  destruct rest as [|c' rest']; [inversion H; reflexivity|].
  destruct (m_step M1 s (OSeek (fst (fst c')) (snd (fst c')))) as [[s1 [bs ea]]| | |] eqn:E; try discriminate.
  rewrite (g_step _ _ _ _ E eq_refl). destruct (ea =? eNil); [apply IH, H|inversion H; reflexivity].
Qed.

Lemma sim_cr_read : forall cs s n s' cs' bs e,
  cr_read M1 s cs n = Ok (s', cs', bs, e) -> cr_read M2 (g s) cs n = Ok (g s', cs', bs, e).
Proof.
  intros cs s n s' cs' bs e H. unfold cr_read in *.
  destruct cs as [|c0 rest0]; [inversion H; reflexivity|].
  destruct (cr_skip M1 s (c0 :: rest0)) as [[[sa csa] ea]| | |] eqn:Esk; try discriminate.
  rewrite (sim_cr_skip _ _ _ _ _ Esk).
  destruct (negb (ea =? eNil)); [inversion H; reflexivity|].
  destruct csa as [|c rest]; [inversion H; reflexivity|].
  rewrite g_lc, g_blen. cbv zeta in *.
  match goal with |- context [if ?c then Panic 6 else _] => destruct c end; [discriminate|].
  match type of H with context [m_step M1 sa ?o] => destruct (m_step M1 sa o) as [[sb [bs1 e1]]| | |] eqn:Erd end; try discriminate.
  rewrite (g_step _ _ _ _ Erd eq_refl), g_lc.
  destruct (negb (e1 =? eNil)); [inversion H; reflexivity|].
  match goal with |- context [if ?c then _ else Ok (g sb, _, _, _)] => destruct c end; [|inversion H; reflexivity].
  destruct rest as [|c' rest']; [inversion H; reflexivity|].
  destruct (m_step M1 sb (OSeek (fst (fst c')) (snd (fst c')))) as [[sc [bs3 e3]]| | |] eqn:Esk3; try discriminate.
  rewrite (g_step _ _ _ _ Esk3 eq_refl). inversion H; reflexivity.
Qed.

Lemma sim_cr_reads : forall bufs cs s l, cr_reads M1 s cs bufs = Ok l -> cr_reads M2 (g s) cs bufs = Ok l.
Proof.
  induction bufs as [|n bufs IH]; intros cs s l H; [exact H|]. simpl in *.
  destruct (cr_read M1 s cs n) as [[[[sa csa] bs] e]| | |] eqn:E; try discriminate.
  rewrite (sim_cr_read _ _ _ _ _ _ _ E). destruct (negb (e =? eNil)); [exact H|].
  destruct (cr_reads M1 sa csa bufs) as [l'| | |] eqn:El; try discriminate. rewrite (IH _ _ _ El). exact H.
Qed.

Lemma sim_cr_new : forall cs s s' e, cr_new M1 s cs = Ok (s', e) -> cr_new M2 (g s) cs = Ok (g s', e).
Proof.
  intros cs s s' e H. unfold cr_new in *.
  destruct (m_step M1 s (OBlocked true)) as [[sa ra]| | |] eqn:E; try discriminate.
  rewrite (g_step _ _ _ _ E eq_refl). destruct cs as [|c rest]; [inversion H; reflexivity|].
  destruct (m_step M1 sa (OSeek (fst (fst c)) (snd (fst c)))) as [[sb [bs eb]]| | |] eqn:Es; try discriminate.
  rewrite (g_step _ _ _ _ Es eq_refl). inversion H; reflexivity.
Qed.

End Sim.

Lemma emb_m_step (F : file) (ch : list nat) : forall s o s' r, m_step (vM F) s o = Ok (s', r) ->
  no_cache_op o = true -> m_step (rM F ch) (emb s) o = Ok (emb s', r).
Proof.
  intros s o s' r H Hn. simpl in *. apply (emb_step F ch s o (s', r) Hn H).
Qed.

Lemma cr_run_r (F : file) (ch : list nat) (cs : list chunk) (bufs : list Z) s1 e l :
  cr_new (vM F) (fst (v_init F)) cs = Ok (s1, e) -> cr_reads (vM F) s1 cs bufs = Ok l ->
  cr_new (rM F ch) (fst (r_init F)) cs = Ok (emb s1, e) /\ cr_reads (rM F ch) (emb s1) cs bufs = Ok l.
Proof.
  intros Hnew Hl. rewrite r_init_emb. simpl fst.
  pose proof (emb_m_step F ch) as Hst.
  split; [apply (sim_cr_new (vM F) (rM F ch) emb Hst), Hnew|].
  apply (sim_cr_reads (vM F) (rM F ch) emb); auto.
Qed.
