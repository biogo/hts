(** C07 — basic lemmas: strings, maps, slices, the objects a list of handles names. *)
From Coq Require Import ZArith List Bool Lia.
From Hts Require Import Model.Header.
Import ListNotations.
Open Scope Z_scope.

Lemma str_eqb_eq : forall a b, str_eqb a b = true <-> a = b.
Proof.
  induction a as [|x a IH]; destruct b as [|y b]; simpl; split; intro H; try congruence; try reflexivity.
  - apply andb_true_iff in H. destruct H as [H1 H2]. apply Z.eqb_eq in H1. apply IH in H2. congruence.
  - inversion H; subst. rewrite Z.eqb_refl. simpl. apply IH. reflexivity.
Qed.
Lemma str_eqb_refl : forall a, str_eqb a a = true.
Proof. intro a. apply str_eqb_eq. reflexivity. Qed.
Lemma str_eqb_neq : forall a b, str_eqb a b = false <-> a <> b.
Proof.
  intros a b. destruct (str_eqb a b) eqn:E; split; intro H; try congruence.
  - apply str_eqb_eq in E. contradiction.
  - intro H'. apply str_eqb_eq in H'. congruence.
Qed.
Lemma str_eq_dec : forall a b : str, {a = b} + {a <> b}.
Proof. intros a b. destruct (str_eqb a b) eqn:E; [left; apply str_eqb_eq | right; apply str_eqb_neq]; assumption. Qed.

Lemma mget_mdel_eq : forall k m, mget k (mdel k m) = None.
Proof.
  induction m as [|[k' v] m IH]; simpl; auto.
  destruct (str_eqb k k') eqn:E; simpl; auto. rewrite E. exact IH.
Qed.
Lemma mget_mdel_ne : forall k k' m, k <> k' -> mget k (mdel k' m) = mget k m.
Proof.
  induction m as [|[k2 v] m IH]; simpl; intro H; auto.
  destruct (str_eqb k' k2) eqn:E.
  - apply str_eqb_eq in E; subst k2. rewrite IH by assumption.
    destruct (str_eqb k k') eqn:E2; auto. apply str_eqb_eq in E2. contradiction.
  - simpl. rewrite IH by assumption. reflexivity.
Qed.
Lemma mget_mset_eq : forall k v m, mget k (mset k v m) = Some v.
Proof. intros. unfold mset. simpl. rewrite str_eqb_refl. reflexivity. Qed.
Lemma mget_mset_ne : forall k k' v m, k <> k' -> mget k (mset k' v m) = mget k m.
Proof.
  intros. unfold mset. simpl. destruct (str_eqb k k') eqn:E.
  - apply str_eqb_eq in E. contradiction.
  - apply mget_mdel_ne. assumption.
Qed.

Arguments mset : simpl never.
Arguments mget : simpl never.

Lemma upd_length : forall {A} (l : list A) i x, length (upd l i x) = length l.
Proof. induction l; destruct i; simpl; auto. Qed.
Lemma nth_error_upd_eq : forall {A} (l : list A) i x, (i < length l)%nat -> nth_error (upd l i x) i = Some x.
Proof. induction l; destruct i; simpl; intros; try lia; auto. apply IHl. lia. Qed.
Lemma nth_error_upd_ne : forall {A} (l : list A) i j x, i <> j -> nth_error (upd l i x) j = nth_error l j.
Proof. induction l; destruct i, j; simpl; intros; try congruence; auto. Qed.
Lemma nth_error_upd : forall {A} (l : list A) i j x o, nth_error (upd l i x) j = Some o ->
  (i = j /\ o = x) \/ (i <> j /\ nth_error l j = Some o).
Proof.
  intros. destruct (Nat.eq_dec i j).
  - subst. left. split; auto. assert (j < length l)%nat.
    { rewrite <- (upd_length l j x). apply nth_error_Some. congruence. }
    rewrite nth_error_upd_eq in H by assumption. congruence.
  - right. rewrite nth_error_upd_ne in H by assumption. auto.
Qed.
Lemma map_upd : forall {A B} (f : A -> B) (l : list A) i x, map f (upd l i x) = upd (map f l) i (f x).
Proof. induction l; destruct i; simpl; intros; auto. f_equal. apply IHl. Qed.
Lemma upd_same : forall {A} (l : list A) i x, nth_error l i = Some x -> upd l i x = l.
Proof. induction l; destruct i; simpl; intros; try congruence. f_equal. apply IHl. assumption. Qed.

Lemma nth_error_app_last : forall {A} (l : list A) x, nth_error (l ++ [x]) (length l) = Some x.
Proof. intros. rewrite nth_error_app2 by lia. rewrite Nat.sub_diag. reflexivity. Qed.
Lemma nth_error_app_inv : forall {A} (l : list A) x i o, nth_error (l ++ [x]) i = Some o ->
  (i < length l /\ nth_error l i = Some o)%nat \/ (i = length l /\ o = x).
Proof.
  intros. destruct (Nat.lt_ge_cases i (length l)).
  - left. rewrite nth_error_app1 in H by assumption. auto.
  - right. rewrite nth_error_app2 in H by assumption.
    destruct (i - length l)%nat eqn:E; simpl in H.
    + split; [lia | congruence].
    + destruct n; discriminate.
Qed.
Lemma upd_app_last : forall {A} (l : list A) x y, upd (l ++ [x]) (length l) y = l ++ [y].
Proof. induction l; simpl; intros; auto. f_equal. apply IHl. Qed.
Lemma upd_app_lt : forall {A} (l : list A) x i y, (i < length l)%nat -> upd (l ++ [x]) i y = upd l i y ++ [x].
Proof. induction l; destruct i; simpl; intros; try lia; auto. f_equal. apply IHl. lia. Qed.

Lemma idx_Some : forall {A} (l : list A) i x, idx l i = Some x -> 0 <= i /\ nth_error l (Z.to_nat i) = Some x.
Proof. unfold idx. intros. destruct (i <? 0) eqn:E; try discriminate. apply Z.ltb_ge in E. auto. Qed.
Lemma idx_of_nat : forall {A} (l : list A) i, idx l (Z.of_nat i) = nth_error l i.
Proof. unfold idx. intros. destruct (Z.of_nat i <? 0) eqn:E. apply Z.ltb_lt in E; lia. rewrite Nat2Z.id. reflexivity. Qed.

Lemma nth_error_lt : forall {A} (l : list A) i, (i < length l)%nat -> exists x, nth_error l i = Some x.
Proof. intros. destruct (nth_error l i) eqn:E; eauto. apply nth_error_None in E. lia. Qed.
Lemma nth_error_valid : forall {A} (l : list A) i x, nth_error l i = Some x -> (i < length l)%nat.
Proof. intros. apply nth_error_Some. congruence. Qed.
Lemma nth_error_map_Some : forall {A B} (f : A -> B) l i y,
  nth_error (map f l) i = Some y <-> exists x, nth_error l i = Some x /\ f x = y.
Proof.
  intros. rewrite nth_error_map. destruct (nth_error l i); simpl; split.
  - intro E; inversion E; eauto. - intros (x & E & <-); congruence.
  - discriminate. - intros (x & E & _); discriminate.
Qed.
Lemma nth_error_split_at : forall {A} (l : list A) i x, nth_error l i = Some x -> l = firstn i l ++ x :: skipn (S i) l.
Proof. induction l; destruct i; simpl; intros x H; try discriminate; [congruence|]. f_equal. apply IHl. exact H. Qed.
Lemma skipn_cut : forall {A} (l : list A) i, (i <= length l)%nat ->
  skipn i (firstn i l ++ skipn (S i) l) = skipn (S i) l.
Proof.
  intros. rewrite skipn_app. rewrite firstn_length. replace (i - Nat.min i (length l))%nat with 0%nat by lia.
  rewrite skipn_all2 by (rewrite firstn_length; lia). reflexivity.
Qed.
Lemma NoDup_app_inv : forall {A} (a b : list A), NoDup (a ++ b) -> NoDup a /\ NoDup b /\ (forall x, In x a -> ~ In x b).
Proof.
  induction a as [|y a IH]; simpl; intros b H; [split; [constructor|]; split; auto|].
  inversion H as [|? ? Ny H']; subst. destruct (IH b H') as (Na & Nb & D). split; [|split; [exact Nb|]].
  - constructor; [intro; apply Ny; apply in_or_app; auto|exact Na].
  - intros x [<-|Hx]; [intro; apply Ny; apply in_or_app; auto|auto].
Qed.
Lemma Forall2_seq : forall {A} (R : A -> nat -> Prop) (l : list A) k,
  (forall i x, nth_error l i = Some x -> R x (k + i)%nat) -> Forall2 R l (seq k (length l)).
Proof.
  induction l as [|a l IH]; intros k H; simpl; constructor.
  - rewrite <- (Nat.add_0_r k). apply (H 0%nat). reflexivity.
  - apply IH. intros i x Hi. replace (S k + i)%nat with (k + S i)%nat by lia. apply H. exact Hi.
Qed.
Lemma upd_upd : forall {A} (l : list A) i a b, upd (upd l i a) i b = upd l i b.
Proof. induction l; destruct i; simpl; intros; auto. f_equal. apply IHl. Qed.

Lemma Forall_upd : forall {A} (Q : A -> Prop) (l : list A) i x, Forall Q l -> Q x -> Forall Q (upd l i x).
Proof. induction l; destruct i; simpl; intros x F H; auto; inversion F; subst; constructor; auto. Qed.
Lemma Forall_nth : forall {A} (Q : A -> Prop) (l : list A) i x, Forall Q l -> nth_error l i = Some x -> Q x.
Proof. intros A Q l i x F H. rewrite Forall_forall in F. apply F. eapply nth_error_In; eauto. Qed.

(** [objs]: defined exactly when every handle is valid; it reads the store only at the handles *)
Section Objs.
  Context {P : Type}.
  Implicit Types (st : list (obj P)) (items : list nat).

  Lemma objs_Some : forall st items, (forall x, In x items -> (x < length st)%nat) <-> exists os, objs st items = Some os.
  Proof.
    intros st. induction items as [|r l IH]; simpl.
    - split; [eauto|intros _ x []].
    - split.
      + intro V. destruct (nth_error_lt st r (V r (or_introl eq_refl))) as (o & ->).
        destruct (proj1 IH) as (os & ->); eauto.
      + intros (os & H) x [<-|Hx].
        * destruct (nth_error st r) eqn:E; [eapply nth_error_valid; eauto|discriminate].
        * apply IH; auto. destruct (nth_error st r), (objs st l); try discriminate; eauto.
  Qed.
  Lemma objs_valid : forall st items os, objs st items = Some os -> forall x, In x items -> (x < length st)%nat.
  Proof. intros st items os H. apply objs_Some. eauto. Qed.

  Lemma objs_nth : forall st items os, objs st items = Some os ->
    forall i x, nth_error os i = Some x <-> exists r, nth_error items i = Some r /\ nth_error st r = Some x.
  Proof.
    intros st. induction items as [|r l IH]; intros os H i x; simpl in H.
    - inversion H; subst. destruct i; split; [discriminate|intros (? & ? & _); discriminate| discriminate |intros (? & ? & _); discriminate].
    - destruct (nth_error st r) as [o|] eqn:Hr; [|discriminate]. destruct (objs st l) as [os'|] eqn:Ho; [|discriminate].
      inversion H; subst. destruct i; simpl.
      + split; [intro E; inversion E; subst; eauto|intros (r' & E & Hx); inversion E; subst; congruence].
      + apply IH. reflexivity.
  Qed.
  Lemma objs_length : forall st items os, objs st items = Some os -> length os = length items.
  Proof.
    intros st. induction items as [|r l IH]; intros os H; simpl in H; [inversion H; reflexivity|].
    destruct (nth_error st r), (objs st l) eqn:E; try discriminate. inversion H; subst. simpl. f_equal. apply IH. reflexivity.
  Qed.

  Lemma objs_frame : forall st st' items, (forall x, In x items -> nth_error st' x = nth_error st x) -> objs st' items = objs st items.
  Proof.
    intros st st'. induction items as [|x l IH]; intro H; simpl; auto.
    rewrite (H x (or_introl eq_refl)). rewrite IH by (intros y Hy; apply H; right; exact Hy). reflexivity.
  Qed.
  Lemma objs_app_st : forall st items os x, objs st items = Some os -> objs (st ++ [x]) items = Some os.
  Proof.
    intros st items os x H. rewrite <- H. apply objs_frame. intros y Hy. apply nth_error_app1. eapply objs_valid; eauto.
  Qed.
  Lemma objs_app : forall st items l os os', objs st items = Some os -> objs st l = Some os' -> objs st (items ++ l) = Some (os ++ os').
  Proof.
    intros st. induction items as [|r items IH]; intros l os os' H H'; simpl in *.
    - inversion H; subst. exact H'.
    - destruct (nth_error st r); [|discriminate]. destruct (objs st items) eqn:E; [|discriminate]. inversion H; subst.
      rewrite (IH l _ os' eq_refl H'). reflexivity.
  Qed.
  Lemma objs_app_inv : forall st a b os, objs st (a ++ b) = Some os ->
    exists osa osb, objs st a = Some osa /\ objs st b = Some osb /\ os = osa ++ osb.
  Proof.
    intros st. induction a as [|r a IH]; intros b os H; simpl in *; [eauto|].
    destruct (nth_error st r); [|discriminate]. destruct (objs st (a ++ b)) as [os'|] eqn:E; [|discriminate]. inversion H; subst.
    destruct (IH b os' E) as (osa & osb & -> & Hb & ->). eauto.
  Qed.
  Lemma objs_forall : forall (Q : obj P -> Prop) st items os, Forall Q st -> objs st items = Some os -> Forall Q os.
  Proof.
    intros Q st items os F H. apply Forall_forall. intros x Hx. apply In_nth_error in Hx. destruct Hx as (i & Hi).
    apply (objs_nth _ _ _ H) in Hi. destruct Hi as (r & _ & Hr). eapply Forall_nth; eauto.
  Qed.

  Lemma objs_upd_other : forall st r x items, ~ In r items -> objs (upd st r x) items = objs st items.
  Proof. intros. apply objs_frame. intros y Hy. apply nth_error_upd_ne. intro; subst; contradiction. Qed.

  Lemma objs_upd_at : forall items st os i r x, objs st items = Some os -> NoDup items -> nth_error items i = Some r ->
    objs (upd st r x) items = Some (upd os i x).
  Proof.
    induction items as [|y l IH]; intros st os i r x H ND Hi; [destruct i; discriminate|].
    assert (Lr : (r < length st)%nat) by (apply (objs_valid _ _ _ H); eapply nth_error_In; eauto).
    simpl in H. destruct (nth_error st y) as [oy|] eqn:Hy; [|discriminate]. destruct (objs st l) as [os'|] eqn:Ho; [|discriminate].
    inversion H; subst os. inversion ND as [|? ? Ny ND']; subst. destruct i; simpl in *.
    - inversion Hi; subst y. rewrite nth_error_upd_eq, objs_upd_other, Ho by assumption. reflexivity.
    - rewrite nth_error_upd_ne, Hy, (IH st os' i r x Ho ND' Hi); [reflexivity|]. intro; subst. apply Ny. eapply nth_error_In; eauto.
  Qed.

  (** position [i] of the list is given to the unlisted [r], its former holder is changed *)
  Lemma objs_install : forall (items : list nat) st os i erh r new er',
    objs st items = Some os -> nth_error items i = Some erh -> ~ In r items -> (r < length st)%nat -> NoDup items ->
    objs (upd (upd st r new) erh er') (upd items i r) = Some (upd os i new).
  Proof.
    induction items as [|x l IH]; intros st os i erh r new er' H Hi Hr Lr ND; [destruct i; discriminate|].
    simpl in H. destruct (nth_error st x) as [ox|] eqn:Hx; [|discriminate]. destruct (objs st l) as [os'|] eqn:Ho; [|discriminate].
    inversion H; subst os; clear H. inversion ND as [|? ? Nx ND']; subst.
    destruct i; simpl in Hi.
    - inversion Hi; subst x. simpl.
      rewrite nth_error_upd_ne by (intro; subst; apply Hr; left; reflexivity). rewrite nth_error_upd_eq by assumption.
      rewrite objs_upd_other by exact Nx. rewrite objs_upd_other by (intro; apply Hr; right; assumption). rewrite Ho. reflexivity.
    - simpl.
      assert (x <> erh) by (intro; subst; apply Nx; eapply nth_error_In; eauto).
      assert (x <> r) by (intro; subst; apply Hr; left; reflexivity).
      rewrite !nth_error_upd_ne by auto. rewrite Hx.
      rewrite (IH st os' i erh r new er' Ho Hi); auto. intro Hin; apply Hr; right; exact Hin.
  Qed.

  Lemma objs_snoc : forall st items pre x,
    objs st items = Some pre -> objs (st ++ [x]) (items ++ [length st]) = Some (pre ++ [x]).
  Proof.
    intros st items pre x H. apply objs_app; [apply objs_app_st; exact H|]. simpl. rewrite nth_error_app_last. reflexivity.
  Qed.

  Lemma objs_seq : forall (cs st : list (obj P)), objs (st ++ cs) (seq (length st) (length cs)) = Some cs.
  Proof.
    induction cs as [|c cs IH]; intro st; simpl; [reflexivity|].
    rewrite nth_error_app2, Nat.sub_diag by lia. simpl.
    replace (st ++ c :: cs) with ((st ++ [c]) ++ cs) by (rewrite <- app_assoc; reflexivity).
    replace (S (length st)) with (length (st ++ [c])) by (rewrite app_length; simpl; lia). rewrite IH. reflexivity.
  Qed.
End Objs.
