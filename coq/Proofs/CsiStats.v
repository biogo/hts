(** C15 statistics for CSI and tabix: the counters csi.Index.Add keeps equal the
    true counts (as for the BAI/tabix core), and tabix reports the statistics of
    the record list with dense ids. *)
From Coq Require Import ZArith List Bool.
From Hts Require Import Base.Prim Model.Index Model.Csi Model.Tabix Model.IndexSpec Model.TabixSpec
  Proofs.IndexSort Proofs.IndexStats Proofs.TabixIdx Proofs.CsiIdx.
Open Scope Z_scope.

Definition cs_numrefs (ix : cindex) : Z := zlen (c_refs ix).
Definition cs_refstats (ix : cindex) (id : Z) : option istats :=
  cstats (nth (Z.to_nat id) (c_refs ix) cs_empty_ref).

Lemma cs_add_stats ix r ix' : cs_add ix r = Ok ix' -> stats_step cs_numrefs cs_refstats c_unm ix r ix'.
Proof.
  intros H. apply cs_add_Ok in H. unfold stats_step, cs_numrefs, cs_refstats. destruct (q_placed r).
  - destruct H as (H0 & sorted & _ & ->). cbn [c_unm c_refs]. unfold cum_of. rewrite Z.add_0_r.
    split; [reflexivity|]. split; [apply zlen_put|].
    intros j Hj. rewrite nth_put by assumption. destruct (j =? q_rid r); reflexivity.
  - subst ix'. cbn [c_unm c_refs]. auto.
Qed.

(** CSI: NumRefs, the unplaced count and every ReferenceStats are the true
    values, for every record list csi.Index.Add accepts and every geometry. *)
Theorem csi_stats_true ms dp aux ver rs ix :
  cs_fold_add (mkCsi aux ver [] None ms dp false 0) rs = Ok ix ->
  cs_numrefs ix = ix_true_numrefs rs /\
  (rs <> [] -> c_unm ix = Some (ix_true_unplaced rs)) /\
  (rs = [] -> c_unm ix = None) /\
  forall rid, 0 <= rid -> cs_refstats ix rid = ix_true_stats rid rs.
Proof.
  intros H. apply stats_read.
  apply (fold_stats_inv cs_add cs_fold_add _ _ _ cs_folds cs_add_stats rs [] _ _) in H; [exact H|].
  repeat split. intros rid _. unfold cs_refstats. simpl. destruct (Z.to_nat rid); reflexivity.
Qed.

(** tabix: the statistics are the true statistics of the record list with
    dense reference ids. *)
Theorem tabix_stats_true hdr nrs t :
  tb_fold_add (tb_new hdr) nrs = Ok t ->
  forall ix, ix_fold_add ix_empty (tb_assign [] nrs) = Ok ix ->
  t_idx t = ix /\
  ix_numrefs ix = ix_true_numrefs (tb_assign [] nrs) /\
  (nrs <> [] -> iunm ix = Some (ix_true_unplaced (tb_assign [] nrs))) /\
  forall rid, 0 <= rid -> ix_refstats ix rid = ix_true_stats rid (tb_assign [] nrs).
Proof.
  intros Ft ix F.
  destruct (tb_sim nrs (tb_new hdr) ix eq_refl F) as (t' & Ft' & Hix & _ & _).
  rewrite Ft in Ft'. inversion Ft'; subst t'.
  split; [exact Hix|].
  destruct (stats_read _ _ _ _ _ (bai_stats_inv _ _ F)) as (A & B & _ & C).
  split; [exact A|]. split; [|exact C].
  intros Hne. apply B. destruct nrs as [|[nm r] rest]; [congruence|]. simpl. destruct (tb_step [] nm). discriminate.
Qed.
