(** C01 composition: writer model + model of bgzf.Reader (C02,
    Model/Reader.v): what the writer produces is a well-formed file for
    the Reader, and reading it returns the written data, then io.EOF. *)
From Coq Require Import ZArith Lia List Bool.
From Hts Require Import Base.Prim Generated Model.Bgzf Model.Writer Model.Flat Model.Reader
  Proofs.Bgzf Proofs.Writer Proofs.WriterThms Proofs.ReaderFlat Proofs.WriterReader.
Import ListNotations.
Open Scope Z_scope.

Definition wr_pairs deflate crc32 lvl h (s : sst) : list (list Z * list Z) :=
  map (fun p => (member_of deflate crc32 lvl h p, p)) (s_sub s)
  ++ (if s_eof s then [(bgzf_magicBlock, [])] else []).

(** The BGZF file (members with base, size, decompressed data) that the
    writer's output is. *)
Definition wr_file deflate crc32 lvl h (s : sst) : file := file_from 0 (wr_pairs deflate crc32 lvl h s).

Section Compose.
  Variables (deflate : Z -> list Z -> list Z) (inflate : list Z -> option (list Z * list Z)) (crc32 : list Z -> Z).
  Hypothesis laws : codec_laws deflate inflate crc32.
  Variables (lvl : Z) (h : gzhdr).
  Hypothesis ok : hdr_ok h.

  Lemma wr_out_pairs W s : SInv W s ->
    wr_out deflate crc32 lvl h s = concat (map fst (wr_pairs deflate crc32 lvl h s)).
  Proof.
    intros I. unfold wr_out, seq_out. rewrite (wr_chunks deflate inflate crc32 laws lvl h ok _ _ I).
    unfold wr_pairs. rewrite map_app, map_map. cbn [fst]. destruct (s_eof s); reflexivity.
  Qed.

  Lemma wr_pairs_ok W s : SInv W s ->
    Forall (fun mp => 0 < zlen (fst mp) /\ zlen (snd mp) <= 65535) (wr_pairs deflate crc32 lvl h s)
    /\ Forall (fun mp => forall r, bgzf_member inflate crc32 (fst mp ++ r) = Some (snd mp, r)) (wr_pairs deflate crc32 lvl h s)
    /\ concat (map snd (wr_pairs deflate crc32 lvl h s)) = concat (s_sub s).
  Proof.
    intros I. destruct laws as (L1 & L2 & L3 & L4). destruct ok as (H1 & H2).
    pose proof (si_sub _ _ I) as Hsm. unfold wr_pairs.
    split; [|split]; [apply Forall_app; split; [apply Forall_map|] ..|].
    - eapply Forall_impl; [|exact Hsm]. intros p Hp. cbn [fst snd]. rewrite zlen_member_of.
      pose proof (bsize_small deflate crc32 L2 lvl h p H2 Hp). unfold small, bgzf_BlockSize in Hp. lia.
    - destruct (s_eof s); repeat constructor. cbn. lia.
    - eapply Forall_impl; [|exact Hsm]. intros p Hp r. apply member_of_bgzf; auto.
    - destruct (s_eof s); repeat constructor. intros r. apply bgzf_magic; assumption.
    - rewrite map_app, concat_app, map_map. cbn [snd]. rewrite map_id.
      destruct (s_eof s); cbn; rewrite app_nil_r; reflexivity.
  Qed.

  (** In any state in which the marker has been written, the output is a
      well-formed file for the Reader, and reading it returns all of W. *)
  Theorem reader_roundtrip W s :
    SInv W s -> s_eof s = true ->
    let F := wr_file deflate crc32 lvl h s in
    wf_file F = true /\ F <> [] /\ addressable F = true
    /\ members_at (bgzf_member inflate crc32) (wr_out deflate crc32 lvl h s) F
    /\ flat_data F = W
    /\ forall ch ops, Forall read_op ops ->
         snd (r_init F) = eNil /\
         exists l, r_run F ch (fst (r_init F)) ops = Ok l /\ reads_ok W 0 ops (rets l).
  Proof.
    intros I He F. destruct (eof_complete _ _ I He) as [_ Hsub].
    destruct (wr_pairs_ok _ s I) as (P1 & P2 & P3).
    destruct (file_from_wf 0 _ P1) as [Wf Ad].
    assert (Hdata : flat_data F = W).
    { unfold F, wr_file. rewrite file_from_data, P3. assumption. }
    assert (Hne : F <> []).
    { unfold F, wr_file, wr_pairs. rewrite He. destruct (map _ (s_sub s)) as [|[] ?]; discriminate. }
    split; [exact Wf|]. split; [assumption|]. split; [exact Ad|].
    split; [rewrite (wr_out_pairs _ s I); apply members_at_file_from; assumption|].
    split; [assumption|].
    intros ch ops Hops. rewrite <- Hdata. apply reader_reads_flat; assumption.
  Qed.
End Compose.
