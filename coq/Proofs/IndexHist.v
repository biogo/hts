(** C04 / C15 for interleaved histories: Add, sort (WriteIndex) and queries in
    any order.  The invariant of Proofs/Index.v survives sorting, so every state
    of such a history accepts the next record of a well-formed list, answers
    completely, and round-trips through write/read. *)
From Coq Require Import ZArith List Bool.
From Hts Require Import Base.Prim Model.Index Model.IndexSpec
  Proofs.IndexSort Proofs.Index Proofs.IndexIOFull.
Open Scope Z_scope.

Lemma ref_sorted_sort r : ref_sorted (ix_sort_ref r).
Proof.
  unfold ref_sorted, ix_sort_ref. simpl. split; [apply ix_isort_sorted|]. split.
  - apply Forall_isort, Forall_map, Forall_forall. intros b _. apply ix_isort_sorted.
  - rewrite ix_sort_intv_eq. apply ix_isort_sorted.
Qed.

Lemma ref_bounded_sort lend r : ref_bounded lend r -> ref_bounded lend (ix_sort_ref r).
Proof.
  intros (A & B & C). unfold ix_sort_ref. split; [|split]; simpl.
  - apply Forall_isort, Forall_map. eapply Forall_impl; [|exact A]. intros b Hb c Hc. apply ix_isort_in in Hc. exact (Hb c Hc).
  - rewrite ix_sort_intv_eq. apply Forall_isort. exact B.
  - apply ix_isort_NoDup. rewrite map_bnum_sort_bin. exact C.
Qed.

Lemma Inv_sort ix done a b c : Inv ix done a b c -> Inv (ix_sort ix) done a b c.
Proof.
  intros I. unfold ix_sort. destruct (isorted ix) eqn:E; [exact I|].
  destruct I as [Ilen Ilend Ilast Isrt Irefs Iseen]. constructor; simpl; try assumption.
  - unfold zlen in *. rewrite map_length. exact Ilen.
  - intros _. apply Forall_map, Forall_forall. intros r _. apply ref_sorted_sort.
  - apply Forall_map. eapply Forall_impl; [|exact Irefs]. apply ref_bounded_sort.
  - apply seen_map; [reflexivity| |exact Iseen]. intros i R. apply rec_in_ref_sort.
    exact (proj2 (proj2 (Forall_nth_d (ref_bounded c) _ _ _ Irefs (ref_bounded_empty c)))).
Qed.

Inductive hist : list irec -> index -> Prop :=
| hist_empty : hist [] ix_empty
| hist_add rs ix r ix' : hist rs ix -> ix_add ix r = Ok ix' -> hist (rs ++ [r]) ix'
| hist_sort rs ix : hist rs ix -> hist rs (ix_sort ix)                                   (* WriteIndex *)
| hist_query rs ix rid beg end_ : hist rs ix -> hist rs (snd (ix_chunks ix rid beg end_)).

Lemma hist_Inv rs ix :
  hist rs ix -> ix_wf rs -> let '(a, b, c) := fold_left ghost_step rs (-1, 0, 0) in Inv ix rs a b c.
Proof.
  intros H. induction H as [|rs ix r ix' _ IH Hadd|rs ix _ IH|rs ix rid beg end_ _ IH]; intros W.
  - exact Inv_init.
  - apply (wf_at_app ix_bai_limit rs (-1, 0, 0)) in W. destruct W as (W1 & W2).
    destruct (Inv_add ix rs _ r (IH W1) W2) as (ix2 & E & I2).
    rewrite Hadd in E. injection E as <-. rewrite fold_left_app. exact I2.
  - specialize (IH W). destruct (fold_left _ _ _) as [[a b] c]. apply Inv_sort. exact IH.
  - specialize (IH W). destruct (fold_left _ _ _) as [[a b] c].
    destruct (ix_chunks_state ix rid beg end_) as [-> | ->]; [exact IH|apply Inv_sort; exact IH].
Qed.

Theorem hist_accepts rs ix r :
  hist rs ix -> ix_wf (rs ++ [r]) -> exists ix', ix_add ix r = Ok ix'.
Proof.
  intros H W. apply (wf_at_app ix_bai_limit rs (-1, 0, 0)) in W. destruct W as (W1 & W2).
  destruct (Inv_add ix rs _ r (hist_Inv rs ix H W1) W2) as (ix' & E & _). exists ix'. exact E.
Qed.

Lemma hist_QInv rs ix : hist rs ix -> ix_wf rs -> QInv ix rs.
Proof.
  intros H W. pose proof (hist_Inv rs ix H W) as I. destruct (fold_left _ _ _) as [[a b] c]. exact (Inv_QInv _ _ _ _ _ I).
Qed.

Lemma hist_fits rs ix : hist rs ix -> ix_wf rs -> idx_ranges ix -> idx_fits (ix_sort ix).
Proof.
  intros H W R. destruct (isorted ix) eqn:E; [|apply ranges_fits_sorted; assumption].
  unfold ix_sort. rewrite E. pose proof (hist_Inv rs ix H W) as I. destruct (fold_left _ _ _) as [[a b] c].
  pose proof (inv_sorted _ _ _ _ _ I E) as Isrt.
  destruct R as (Hr & Hl & Hu). split; [|split; assumption].
  apply Forall_forall. intros r Hin. rewrite Forall_forall in Hr, Isrt.
  destruct (Hr r Hin) as (A & B & C & D & F). destruct (Isrt r Hin) as (S1 & S2 & S3).
  unfold ref_fits. repeat (split; try assumption).
  apply Forall_forall. intros b0 Hb0. rewrite Forall_forall in A, S2.
  destruct (A b0 Hb0) as (A1 & A2 & A3 & A4). unfold bin_fits. repeat (split; try assumption). apply S2. exact Hb0.
Qed.
