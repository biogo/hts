(** C09 — the sync reader at flat byte positions. *)
From Coq Require Import ZArith List Bool Lia.
From Hts Require Import Base.Prim Base.WrList Model.FaultReader Proofs.FaultReader.
Import ListNotations.
Open Scope Z_scope.

(** The decompressed data of the whole file, and the flat offset at which the
    member starting at compressed offset [a] begins. *)
Definition fdata (f : list member) : list Z := concat (map snd f).
Fixpoint foff (f : list member) (a : Z) : Z :=
  match f with
  | [] => 0
  | (sz, d) :: r => if a <? sz then 0 else zlen d + foff r (a - sz)
  end.

Definition wf_file (f : list member) : Prop := Forall (fun m => 0 < fst m) f.

Lemma skipn_skipn' : forall (l : list Z) a b, skipn a (skipn b l) = skipn (b + a) l.
Proof. intros l a b. revert l. induction b as [|b IH]; intros l; simpl. reflexivity. destruct l; simpl. destruct a; reflexivity. apply IH. Qed.

Lemma skipn_zlen_plus : forall (d0 l : list Z) x, 0 <= x -> skipn (Z.to_nat (zlen d0 + x)) (d0 ++ l) = skipn (Z.to_nat x) l.
Proof.
  intros d0 l x Hx. pose proof (zlen_nonneg d0). rewrite Z2Nat.inj_add by lia.
  rewrite <- skipn_skipn', skipn_zlen_app. reflexivity.
Qed.

Lemma foff_nonneg : forall f a, 0 <= foff f a.
Proof. induction f as [|[sz d] r IH]; intros a; simpl. lia. destruct (a <? sz). lia. pose proof (IH (a - sz)). pose proof (zlen_nonneg d). lia. Qed.

Lemma flen_nonneg : forall f, wf_file f -> 0 <= flen f.
Proof. induction f as [|[sz d] r IH]; intros W; simpl. lia. inversion W; subst. simpl in *. specialize (IH H2). lia. Qed.

Lemma foff_0 : forall f, wf_file f -> foff f 0 = 0.
Proof.
  intros [|[sz d] r] W; cbn [foff]; [reflexivity|]. apply Forall_inv in W. cbn in W.
  destruct (0 <? sz) eqn:E; [reflexivity | apply Z.ltb_ge in E; lia].
Qed.

Lemma foff_end : forall f a, wf_file f -> flen f <= a -> foff f a = zlen (fdata f).
Proof.
  induction f as [|[sz d] r IH]; intros a W H; cbn [foff flen] in *; [reflexivity|].
  pose proof (flen_nonneg r (Forall_inv_tail W)). destruct (a <? sz) eqn:E; [apply Z.ltb_lt in E; lia|].
  unfold fdata. cbn [map concat snd]. fold (fdata r).
  rewrite zlen_app', (IH (a - sz)); [reflexivity | exact (Forall_inv_tail W) | lia].
Qed.

(** The member at [a]: its data sits at flat offset [foff f a]. *)
Lemma member_flat : forall f a sz d, wf_file f -> 0 <= a -> member_at f a = Some (sz, d) ->
  0 < sz /\ foff f (a + sz) = foff f a + zlen d /\
  skipn (Z.to_nat (foff f a)) (fdata f) = d ++ skipn (Z.to_nat (foff f (a + sz))) (fdata f).
Proof.
  induction f as [|[sz0 d0] r IH]; intros a sz d W Ha M; cbn [member_at] in M; [discriminate|].
  pose proof (Forall_inv W) as W0. pose proof (Forall_inv_tail W) as Wr. cbn in W0.
  unfold fdata. cbn [map concat snd foff]. fold (fdata r).
  destruct (a =? 0) eqn:E0.
  - apply Z.eqb_eq in E0. subst a. injection M as <- <-. cbn [Z.add].
    rewrite (proj2 (Z.ltb_lt 0 sz0) W0), Z.ltb_irrefl, Z.sub_diag, (foff_0 r Wr), Z.add_0_r.
    split; [exact W0|]. split; [reflexivity|]. cbn [Z.to_nat skipn]. rewrite skipn_zlen_app. reflexivity.
  - destruct (a <? sz0) eqn:E1; [discriminate|]. apply Z.eqb_neq in E0. apply Z.ltb_ge in E1.
    destruct (IH (a - sz0) sz d Wr ltac:(lia) M) as [D [B A]].
    replace (a + sz <? sz0) with false by (symmetry; apply Z.ltb_ge; lia).
    replace (a + sz - sz0) with (a - sz0 + sz) by lia.
    split; [exact D|]. split; [lia|].
    pose proof (foff_nonneg r (a - sz0)). pose proof (foff_nonneg r (a - sz0 + sz)).
    rewrite !skipn_zlen_plus by lia. exact A.
Qed.

(** [b] is the segment of [D] that starts at flat position [P]. *)
Definition is_seg (D : list Z) (P : Z) (b : list Z) : Prop := firstn (length b) (skipn (Z.to_nat P) D) = b.

Lemma seg_app : forall D P b1 b2, 0 <= P -> is_seg D P b1 -> is_seg D (P + zlen b1) b2 -> is_seg D P (b1 ++ b2).
Proof.
  unfold is_seg. intros D P b1 b2 HP H1 H2.
  replace (Z.to_nat (P + zlen b1)) with (Z.to_nat P + length b1)%nat in H2 by (unfold zlen; lia).
  rewrite <- skipn_skipn' in H2.
  rewrite <- (firstn_skipn (length b1) (skipn (Z.to_nat P) D)), H1, app_length, firstn_app_2, H2. reflexivity.
Qed.

Lemma seg_block : forall f a sz d c k, wf_file f -> 0 <= a -> member_at f a = Some (sz, d) ->
  0 <= c -> 0 <= k -> c + k <= zlen d ->
  is_seg (fdata f) (foff f a + c) (firstn (Z.to_nat k) (skipn (Z.to_nat c) d)).
Proof.
  intros f a sz d c k W Ha M Hc Hk Hl. destruct (member_flat f a sz d W Ha M) as [_ [_ A]].
  pose proof (foff_nonneg f a). unfold is_seg.
  rewrite Z2Nat.inj_add by lia. rewrite <- skipn_skipn'. rewrite A.
  assert (Lc : (Z.to_nat c <= length d)%nat) by (unfold zlen in Hl; lia).
  rewrite skipn_app. replace (Z.to_nat c - length d)%nat with 0%nat by lia. simpl skipn at 2.
  assert (Lk : length (firstn (Z.to_nat k) (skipn (Z.to_nat c) d)) = Z.to_nat k).
  { rewrite firstn_length, skipn_length. unfold zlen in Hl. lia. }
  rewrite Lk. rewrite firstn_app. rewrite skipn_length.
  replace (Z.to_nat k - (length d - Z.to_nat c))%nat with 0%nat by (unfold zlen in Hl; lia).
  simpl. apply app_nil_r.
Qed.

(** The reader stands at flat position [P] of the file [f]. *)
Definition at_pos (f : list member) (s : rst) (P : Z) : Prop :=
  cvalid s = true /\ 0 <= cbase s /\ 0 <= coff s <= zlen (cdata s) /\ P = foff f (cbase s) + coff s.

(** What a (partial) read that started at [P] and handed out [bytes] leaves behind. *)
Definition delivered (f : list member) (P : Z) (bytes : list Z) (s' : rst) (e : Z) : Prop :=
  is_seg (fdata f) P bytes /\ sound f s' /\
  (e = 0 -> at_pos f s' (P + zlen bytes)) /\ (e = 3 -> P + zlen bytes = zlen (fdata f)).

Lemma delivered_nil : forall f P s e, sound f s -> (e = 0 -> at_pos f s P) -> (e = 3 -> P = zlen (fdata f)) -> delivered f P [] s e.
Proof. intros f P s e S A0 A3. unfold delivered. change (zlen (@nil Z)) with 0. rewrite Z.add_0_r. split; [reflexivity | auto]. Qed.

(** The current block is used up: the next one starts where it ended, or the data ends here. *)
Lemma next_block_flat : forall f s P s1 e1, wf_file f -> sound f s -> at_pos f s P -> (cur_len s =? 0) = true ->
  next_block rfixed s = (s1, e1) -> sound f s1 /\ (e1 = 0 -> at_pos f s1 P) /\ (e1 = 3 -> P = zlen (fdata f)).
Proof.
  intros f s P s1 e1 W S [V [Hb [Hc HP]]] Hco N. pose proof S as [F [_ Bm]]. rewrite F in Bm.
  unfold cur_len in Hco. rewrite V in Hco. apply Z.eqb_eq in Hco.
  destruct (member_flat _ _ _ _ W Hb (Bm V)) as [MD [MB _]].
  unfold next_block, next_base in N. replace (chsize s <? 0) with false in N by (symmetry; apply Z.ltb_ge; lia).
  destruct (nba_ok _ _ _ _ _ S N) as [S1 [K K3]]. split; [exact S1|]. split.
  - intros E. destruct (K E) as [V1 [C1 Cb1]]. unfold at_pos. rewrite C1, Cb1, MB. pose proof (zlen_nonneg (cdata s1)). repeat split; auto; lia.
  - intros E. rewrite <- (foff_end f _ W (K3 E)). lia.
Qed.

Lemma read_loop_flat : forall f fuel s want got s' e out P,
  wf_file f -> sound f s -> at_pos f s P -> read_loop rfixed fuel s want got = (s', e, out) ->
  exists bytes, out = got ++ bytes /\ delivered f P bytes s' e.
Proof.
  induction fuel as [|n IH]; intros s want got s' e out P W S AP H; cbn [read_loop] in H.
  - injection H as <- <- <-. exists []. split; [symmetry; apply app_nil_r|]. apply delivered_nil; [exact S | discriminate | discriminate].
  - destruct (want <=? 0) eqn:Ew.
    { injection H as <- <- <-. exists []. split; [symmetry; apply app_nil_r|]. apply delivered_nil; [exact S | auto | discriminate]. }
    apply Z.leb_gt in Ew. destruct (cur_len s =? 0) eqn:Ea.
    + destruct (next_block rfixed s) as [s1 e1] eqn:N.
      destruct (next_block_flat _ _ _ _ _ W S AP Ea N) as [S1 [A0 A3]].
      destruct (e1 =? 0) eqn:E1.
      * apply Z.eqb_eq in E1. exact (IH _ _ _ _ _ _ _ W S1 (A0 E1) H).
      * injection H as <- <- <-. exists []. split; [symmetry; apply app_nil_r|].
        apply delivered_nil; [exact S1 | intros ->; discriminate | exact A3].
    + destruct AP as [V [Hb [Hc HP]]]. pose proof S as [F [R Bm]]. specialize (Bm V). rewrite F in Bm.
      pose proof (foff_nonneg f (cbase s)) as Hf.
      unfold cur_len in H, Ea. rewrite V in H, Ea. apply Z.eqb_neq in Ea.
      set (k := Z.min (Z.max 0 (zlen (cdata s) - coff s)) want) in *.
      assert (Hk : 0 < k /\ coff s + k <= zlen (cdata s)) by (unfold k; lia).
      set (bk := firstn (Z.to_nat k) (skipn (Z.to_nat (coff s)) (cdata s))) in *.
      assert (SGk : is_seg (fdata f) P bk) by (rewrite HP; eapply seg_block; eauto; lia).
      assert (Lk : zlen bk = k) by (apply zlen_firstn; rewrite zlen_skipn; lia).
      match type of H with read_loop _ _ ?s1 _ _ = _ =>
        destruct (IH s1 (want - k) (got ++ bk) s' e out (P + k) W) as [bytes [O [SG [S' [A0 A3]]]]]; [| |exact H|] end.
      * split; [exact F | split; [exact R | intros _; cbn; rewrite F; exact Bm]].
      * unfold at_pos. cbn. repeat split; auto; lia.
      * exists (bk ++ bytes). split; [rewrite O; symmetry; apply app_assoc|]. unfold delivered. rewrite zlen_app', Lk, Z.add_assoc.
        split; [apply seg_app; [lia | exact SGk | rewrite Lk; exact SG] | auto].
Qed.

Lemma skip_empty_flat : forall f fuel s s' e P,
  wf_file f -> sound f s -> at_pos f s P -> skip_empty rfixed fuel s = (s', e) -> delivered f P [] s' e.
Proof.
  induction fuel as [|n IH]; intros s s' e P W S AP H; cbn [skip_empty] in H.
  - injection H as <- <-. apply delivered_nil; [exact S | discriminate | discriminate].
  - destruct (cur_len s =? 0) eqn:Ea.
    + destruct (next_block rfixed s) as [s1 e1] eqn:N.
      destruct (next_block_flat _ _ _ _ _ W S AP Ea N) as [S1 [A0 A3]].
      destruct (e1 =? 0) eqn:E1.
      * apply Z.eqb_eq in E1. exact (IH _ _ _ _ W S1 (A0 E1) H).
      * injection H as <- <-. apply delivered_nil; [exact S1 | intros ->; discriminate | exact A3].
    + injection H as <- <-. apply delivered_nil; [exact S | auto | discriminate].
Qed.

Lemma read_flat : forall f s n s' e got P,
  wf_file f -> sound f s -> at_pos f s P -> rerr s = 0 -> do_read rfixed s n = (s', e, got) ->
  delivered f P got s' e /\ rerr s' = e.
Proof.
  intros f s n s' e got P W S AP E H. unfold do_read in H. rewrite E in H. cbn [Z.eqb negb] in H. cbv iota in H.
  destruct (skip_empty _ _ s) as [s1 e1] eqn:K. apply (skip_empty_flat f _ _ _ _ P) in K; try assumption.
  destruct (e1 =? 0) eqn:E1; cbn [negb] in H; cbv iota in H.
  - apply Z.eqb_eq in E1. destruct K as [_ [S1 [A0 _]]]. change (zlen (@nil Z)) with 0 in A0. rewrite Z.add_0_r in A0.
    destruct (read_loop _ _ s1 n []) as [[s2 e2] out] eqn:L.
    destruct (read_loop_flat f _ _ _ _ _ _ _ _ W S1 (A0 E1) L) as [bytes [-> D]].
    injection H as <- <- <-. split; [exact D | reflexivity].
  - injection H as <- <- <-. split; [exact K | reflexivity].
Qed.

Lemma base_of_nonneg : forall f m, wf_file f -> 0 <= base_of f m.
Proof.
  induction f as [|[sz d] r IH]; intros m W; destruct m; simpl; try lia.
  inversion W; subst. simpl in *. specialize (IH m H2). lia.
Qed.

Lemma seek_flat : forall f s m w s', wf_file f -> sound f s -> do_seek rfixed s m w = (s', 0) ->
  (forall sz d, member_at f (base_of f m) = Some (sz, d) -> 0 <= w <= zlen d) ->
  rerr s' = 0 /\ at_pos f s' (foff f (base_of f m) + w).
Proof.
  intros f s m w s' W S H Hw. destruct (seek_lands _ _ _ _ _ S H) as [V [Cb [Co [Er M]]]].
  split; [exact Er|]. unfold at_pos. rewrite Cb, Co.
  exact (conj V (conj (base_of_nonneg f m W) (conj (Hw _ _ M) eq_refl))).
Qed.

(** What the property demands of a whole history, phrased over flat positions:
    [pos] is the position the caller is entitled to assume (None after an error,
    until the next successful Seek). *)
Fixpoint flat_ok (f : list member) (pos : option Z) (ops : list rop) (res : list (Z * list Z)) : Prop :=
  match ops, res with
  | [], [] => True
  | RRead n :: ops', (e, got) :: res' =>
    match pos with
    | Some P => is_seg (fdata f) P got /\ (e = 3 -> P + zlen got = zlen (fdata f)) /\
                flat_ok f (if e =? 0 then Some (P + zlen got) else None) ops' res'
    | None => got = [] /\ e <> 0 /\ flat_ok f None ops' res'
    end
  | RSeek m w :: ops', (e, got) :: res' =>
    got = [] /\ flat_ok f (if e =? 0 then Some (foff f (base_of f (Z.to_nat m)) + w) else None) ops' res'
  | RClose :: ops', _ :: res' => flat_ok f pos ops' res'
  | _, _ => False
  end.

Definition seeks_in_range (f : list member) (ops : list rop) : Prop :=
  Forall (fun o => match o with
                   | RSeek m w => forall sz d, member_at f (base_of f (Z.to_nat m)) = Some (sz, d) -> 0 <= w <= zlen d
                   | _ => True end) ops.

Definition tracks (f : list member) (s : rst) (pos : option Z) : Prop :=
  match pos with Some P => rerr s = 0 /\ at_pos f s P | None => rerr s <> 0 end.

Lemma seek_err : forall s m w s' e, do_seek rfixed s m w = (s', e) -> e <> 0 -> rerr s' = e.
Proof.
  intros s m w s' e H NE. unfold do_seek in H.
  destruct (_ || _); [|injection H as _ H; congruence].
  destruct (next_block_at _ _ _) as [s1 e1]. destruct (e1 =? 0); injection H as <- <-; [congruence | reflexivity].
Qed.

Lemma run_ops_flat : forall f ops s pos, wf_file f -> sound f s -> tracks f s pos -> seeks_in_range f ops ->
  flat_ok f pos ops (run_ops rfixed s ops).
Proof.
  induction ops as [|o ops IH]; intros s pos W S T SR; cbn [run_ops]. exact I.
  inversion SR as [|? ? So SR']; subst.
  destruct o as [n|m w|].
  - destruct (do_read rfixed s n) as [[s1 e] got] eqn:R. pose proof (read_ok _ _ _ _ _ _ S R) as S1.
    destruct pos as [P|]; cbn [tracks] in T.
    + destruct T as [E AP]. destruct (read_flat _ _ _ _ _ _ _ W S AP E R) as [[SG [_ [A0 A3]]] E1].
      split; [exact SG|]. split; [exact A3|]. apply IH; auto.
      destruct (e =? 0) eqn:Ee; cbn [tracks]; [apply Z.eqb_eq in Ee; split; [congruence | auto] | apply Z.eqb_neq in Ee; congruence].
    + unfold do_read in R. destruct (rerr s =? 0) eqn:E0; [apply Z.eqb_eq in E0; contradiction|]. cbn [negb] in R.
      injection R as <- <- <-. split; [reflexivity|]. split; [exact T|]. apply IH; auto.
  - destruct (do_seek rfixed s (Z.to_nat m) w) as [s1 e] eqn:R. pose proof (seek_ok _ _ _ _ _ _ S R) as S1.
    split; [reflexivity|]. apply IH; auto.
    destruct (e =? 0) eqn:Ee; cbn [tracks].
    + apply Z.eqb_eq in Ee. subst e. exact (seek_flat _ _ _ _ _ W S R So).
    + apply Z.eqb_neq in Ee. rewrite (seek_err _ _ _ _ _ R Ee). exact Ee.
  - apply IH; auto.
Qed.

Lemma fetch_rerr : forall v s, rerr (fst (fetch v s)) = rerr s.
Proof.
  intros v s. unfold fetch. destruct (member_at _ _) as [[sz d]|];
    repeat match goal with |- context [if ?b then _ else _] => destruct b end; reflexivity.
Qed.

Lemma ropen_tracks : forall f x trans seekk s0, wf_file f -> ropen rfixed f x trans seekk = (s0, 0) ->
  sound f s0 /\ tracks f s0 (Some 0).
Proof.
  intros f x trans seekk s0 W H. destruct (ropen_ok _ _ _ _ _ _ H) as [S K]. destruct (K eq_refl) as [V [C Cb]].
  split; [exact S|]. split.
  - pose proof (fetch_rerr rfixed (rinit f x trans seekk)) as X. unfold ropen in H. rewrite H in X. exact X.
  - unfold at_pos. rewrite Cb, C, (foff_0 f W). pose proof (zlen_nonneg (cdata s0)). repeat split; auto; lia.
Qed.
