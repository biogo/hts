(** C02, rd > 1, no cache — the schedule-driven model of the read-ahead reader
    refines the reader on block values (hence the flat reader) for every
    schedule: invariant [arel]. *)
From Coq Require Import ZArith List Bool Lia Permutation.
From Hts Require Import Base.Prim Base.Bits Model.Flat Model.Reader Model.ReaderAsync
  Proofs.FlatLemmas Proofs.ReaderFlat Proofs.ReaderStore Proofs.CacheSim Proofs.AsyncInv.
Import ListNotations.
Open Scope Z_scope.

Section AR.
Variable F : file.
Hypothesis W : wf_file F = true.
Variable rd : nat.
Hypothesis Hrd : (2 <= rd)%nat.

(** The offsets the read-ahead dispatches from [o] on, if it is not redirected: NextBase after
    NextBase while the fetch succeeds, then the offset at which it fails. *)
Inductive is_chain : Z -> list Z -> Prop :=
| ch_end o : snd (b_fill F b_new o) <> eNil -> is_chain o [o]
| ch_step o l : snd (b_fill F b_new o) = eNil -> is_chain (b_next (fst (b_fill F b_new o))) l -> is_chain o (o :: l).

Lemma chain_head o l : is_chain o l -> exists l', l = o :: l'.
Proof. intros H; inversion H; eauto. Qed.

Lemma chain_step o l : is_chain o l -> snd (b_fill F b_new o) = eNil ->
  exists l', l = o :: l' /\ is_chain (b_next (fst (b_fill F b_new o))) l'.
Proof. intros H He. inversion H; subst; [contradiction|eauto]. Qed.

Lemma chain_exists : forall o, 0 <= o -> exists l, is_chain o l.
Proof.
  intros o Ho. destruct (fill_cases F b_new o W Ho) as [(pre & m & post & S & <- & _)|(e & He & E)].
  2:{ exists [o]. apply ch_end. rewrite E. exact He. }
  clear Ho. revert pre m S. induction post as [|m' post IH]; intros pre m S;
    pose proof (on_member_next S (on_member_blk_of m 0 (b_used b_new) ltac:(pose proof (m_len_nonneg m); lia))) as Hn;
    pose proof (fill_at b_new S) as E.
  - exists [m_base m; m_base m + m_size m]. apply ch_step; rewrite E; [reflexivity|]. cbn [fst]. rewrite Hn.
    apply ch_end. rewrite fill_end; [discriminate|exact W|]. rewrite (split_fsize S). simpl. lia.
  - destruct (IH (pre ++ [m]) m' (split_next S)) as (l & Hl).
    exists (m_base m :: l). apply ch_step; rewrite E; [reflexivity|]. cbn [fst]. rewrite Hn, <- (split_next_base S). exact Hl.
Qed.

Lemma fill_good (f : Z) (b : block) : 0 <= f -> snd (b_fill F b f) = eNil ->
  vgood F (fst (b_fill F b f)) /\ b_has (fst (b_fill F b f)) = true /\ 0 <= b_next (fst (b_fill F b f)).
Proof.
  intros Hf Hnil. pose proof (fill_vgood F f b W Hf) as Hvg. pose proof (proj2 (fill_has F f b W Hf) Hnil) as Hh.
  split; [exact Hvg|]. split; [exact Hh|]. apply (good_next (Hvg Hh)).
Qed.

Lemma fill_bad (f : Z) (b : block) : 0 <= f -> snd (b_fill F b f) <> eNil -> b_next (fst (b_fill F b f)) = -1.
Proof.
  intros Hf He. destruct (fill_cases F b f W Hf) as [(pre & m & post & _ & _ & E)|(e & _ & E)]; rewrite E in *; [|reflexivity].
  contradiction.
Qed.

Definition st_of (a : astate) : store := r_st (a_r a).

Lemma a_fetch_nocache (a : astate) (d : nat) (blk : option nat) (off : Z) :
  r_cache (a_r a) = None ->
  a_fetch F a d blk off =
  let '(st, bid) := match blk with Some b => (st_of a, b) | None => (st_of a ++ [b_new], length (st_of a)) end in
  Ok (dset (as_r a (rs_st (a_r a) (sset st bid (fst (b_fill F (sget st bid) off))))) d
           (mkD (Some bid) (snd (b_fill F (sget st bid) off)))).
Proof.
  intros Hc. unfold a_fetch, st_of.
  assert (Hp : forall fuel, r_peekchain fuel (a_r a) off = Ok off) by (destruct fuel; simpl; rewrite Hc; reflexivity).
  rewrite Hp.
  destruct blk; destruct (b_fill F _ off); reflexivity.
Qed.

Lemma dget_dset_same (a : astate) (d : nat) (x : dec) : (d < length (a_decs a))%nat -> dget (dset a d x) d = x.
Proof. intros H. unfold dget, dset. simpl. apply nth_upd_nat_same. exact H. Qed.

Lemma dget_dset_other (a : astate) (d d' : nat) (x : dec) : d <> d' -> dget (dset a d x) d' = dget a d'.
Proof. intros H. unfold dget, dset. simpl. apply nth_upd_nat_other. exact H. Qed.

(** The records of the decompressors in working, in order; each holds a faithful fetch of the
    member at its block's base. *)
Definition queue (a : astate) : list dec := map (dget a) (a_working a).

Definition faithful (st : store) (x : dec) : Prop :=
  exists bid, d_blk x = Some bid /\ (bid < length st)%nat /\ 0 <= b_base (sget st bid) /\
    beq (sget st bid) (fst (b_fill F b_new (b_base (sget st bid)))) /\
    d_err x = snd (b_fill F b_new (b_base (sget st bid))).

Definition dbase (st : store) (x : dec) : Z :=
  match d_blk x with Some i => b_base (sget st i) | None => -1 end.

Definition bases (a : astate) : list Z := map (dbase (st_of a)) (queue a).

(** What the read-ahead thread will still dispatch; with it, what the consumer will receive. *)
Definition fut_ok (a : astate) (fut : list Z) : Prop :=
  match target a with Some o => is_chain o fut | None => fut = [] end.

Definition stream (a : astate) (s : list Z) : Prop := exists fut, fut_ok a fut /\ s = bases a ++ fut.

(** [held]: the decompressors in the consumer's hands in the middle of a call (none between calls);
    what they hold is the consumer's business.  A full control is taken by the read-ahead thread
    before its next dispatch provided somebody but working has a decompressor for it. *)
Record chinv_h (held : list nat) (a : astate) : Prop := {
  ci_cache : r_cache (a_r a) = None;
  ci_len : length (a_decs a) = rd;
  ci_tok : Permutation (held ++ tokens a) (seq 0 rd);
  ci_idle : forall d, In d (avail a) -> d_blk (dget a d) = None;
  ci_ent : Forall (faithful (st_of a)) (queue a);
  ci_apart : NoDup (r_cur (a_r a) :: map d_blk (queue a));
  ci_curlt : forall i, r_cur (a_r a) = Some i -> (i < length (st_of a))%nat;
  ci_ctl : forall v, a_control a = Some v -> 0 <= v /\ held ++ avail a <> [] }.

Definition chinv : astate -> Prop := chinv_h [].

(** The expected block [E] is found after at most rd - 1 others. *)
Definition chan_ok (a : astate) (E : Z) : Prop :=
  exists s k, stream a s /\ (k < rd)%nat /\ is_chain E (skipn k s).

Lemma chinv_out {held a} (d : nat) (l1 l2 : list nat) :
  chinv_h held a -> Permutation (held ++ tokens a) (l1 ++ d :: l2) ->
  (d < length (a_decs a))%nat /\ ~ In d (l1 ++ l2).
Proof.
  intros C P. pose proof (Permutation_trans (Permutation_sym P) (ci_tok _ _ C)) as P'. split.
  - rewrite (ci_len _ _ C). apply (Permutation_in d) in P'; [apply in_seq in P'; lia|apply in_elt].
  - apply NoDup_remove_2. apply (Permutation_NoDup (Permutation_sym P')), seq_NoDup.
Qed.

Lemma chinv_count {held a} : chinv_h held a -> (length held + length (avail a) + length (a_working a) = rd)%nat.
Proof.
  intros C. pose proof (Permutation_length (ci_tok _ _ C)) as H.
  rewrite (tokens_avail a), !app_length, seq_length in H. lia.
Qed.

Lemma target_nonneg {held a} (off : Z) : chinv_h held a -> target a = Some off -> 0 <= off.
Proof.
  intros C. unfold target. destruct (a_control a) as [v|] eqn:Hc.
  - intros H; inversion H; subst. apply (ci_ctl _ _ C _ Hc).
  - destruct (a_t a) as [n|]; [|discriminate]. destruct (Z.ltb_spec n 0) as [|Hn]; [discriminate|]. intros E; inversion E; subst. exact Hn.
Qed.

(** What a step of the read-ahead thread leaves alone. *)
Definition frame (a a' : astate) : Prop :=
  r_cur (a_r a') = r_cur (a_r a) /\ r_err (a_r a') = r_err (a_r a) /\ r_lc (a_r a') = r_lc (a_r a) /\
  r_blocked (a_r a') = r_blocked (a_r a) /\ a_sched a' = a_sched a /\
  (length (st_of a) <= length (st_of a'))%nat /\ (forall j, (j < length (st_of a))%nat -> sget (st_of a') j = sget (st_of a) j).

Lemma frame_refl a : frame a a.
Proof. unfold frame. repeat split; auto. Qed.

Lemma frame_trans a b c : frame a b -> frame b c -> frame a c.
Proof.
  intros (A1 & A2 & A3 & A4 & A5 & A6 & A7) (B1 & B2 & B3 & B4 & B5 & B6 & B7). unfold frame.
  repeat split; try congruence; try lia. intros j Hj. rewrite B7 by lia. apply A7. exact Hj.
Qed.

(** What the channel operations leave of the consumer's own state. *)
Definition regs (r : rstate) : Z * chunk * bool := (r_err r, r_lc r, r_blocked r).

Lemma frame_regs a a' : frame a a' -> regs (a_r a') = regs (a_r a).
Proof. intros (_ & A2 & A3 & A4 & _). unfold regs. congruence. Qed.

Lemma queue_keep (st st' : store) (q : list dec) :
  Forall (faithful st) q -> (length st <= length st')%nat ->
  (forall bid, (bid < length st)%nat -> In (Some bid) (map d_blk q) -> sget st' bid = sget st bid) ->
  Forall (faithful st') q /\ map (dbase st') q = map (dbase st) q.
Proof.
  intros Hq Hlen. induction Hq as [|x q (bid & Hb & Hlt & R) _ IH]; intros Hs; [split; constructor|].
  destruct IH as [IH1 IH2]; [intros b Hl Hin; apply Hs; [exact Hl|right; exact Hin]|].
  assert (E : sget st' bid = sget st bid) by (apply Hs; [exact Hlt|left; exact Hb]).
  split; [constructor; [|exact IH1]|simpl; rewrite IH2; unfold dbase; rewrite Hb, E; reflexivity].
  exists bid. rewrite E. split; [exact Hb|]. split; [lia|exact R].
Qed.

(** After a dispatch at [o], what was to come behind [o] is what is to come. *)
Lemma chain_tail (o : Z) (fut' : list Z) (a' : astate) : is_chain o (o :: fut') -> 0 <= o ->
  a_control a' = None -> a_t a' = TIdle (b_next (fst (b_fill F b_new o))) -> fut_ok a' fut'.
Proof.
  intros H Ho Hc Ht. unfold fut_ok, target. rewrite Hc, Ht. inversion H as [o' He|o' l He Hl]; subst.
  - rewrite (fill_bad o b_new Ho He). reflexivity.
  - destruct (fill_good o b_new Ho He) as (_ & _ & Hn). destruct (Z.ltb_spec (b_next (fst (b_fill F b_new o))) 0); [lia|exact Hl].
Qed.

(** The read-ahead thread's dispatch at [off] with decompressor [d], into a new block. *)
Definition dispatch (a1 : astate) (d : nat) (off : Z) : astate :=
  let n0 := length (st_of a1) in
  let blk := fst (b_fill F b_new off) in
  let a2 := dset (as_r a1 (rs_st (a_r a1) (sset (st_of a1 ++ [b_new]) n0 blk))) d (mkD (Some n0) (snd (b_fill F b_new off))) in
  as_t (as_working a2 (a_working a2 ++ [d])) (TIdle (b_next blk)).

Lemma sget_ext (st : store) (b : block) (j : nat) : (j < length st)%nat ->
  sget (sset (st ++ [b_new]) (length st) b) j = sget st j.
Proof. intros H. rewrite sget_sset_other by lia. apply sget_app_old. exact H. Qed.

Lemma sget_ext_new (st : store) (b : block) : sget (sset (st ++ [b_new]) (length st) b) (length st) = b.
Proof. apply sget_sset_same. rewrite app_length. simpl. lia. Qed.

Lemma dispatch_inv (held : list nat) (a : astate) (d : nat) (rest : list nat) (off : Z) :
  chinv_h held a -> avail a = d :: rest -> 0 <= off ->
  let a' := dispatch (taken a rest) d off in
  trun F (taken a rest) d off = Ok a' /\ chinv_h held a' /\ frame a a' /\ bases a' = bases a ++ [off] /\
  (forall d', In d' held -> dget a' d' = dget a d').
Proof.
  intros C Ea Hoff a'.
  assert (P : Permutation (held ++ tokens a) (held ++ d :: rest ++ a_working a)).
  { rewrite (tokens_avail a), Ea. reflexivity. }
  destruct (chinv_out d held (rest ++ a_working a) C P) as [Hdlt Hdn]. rewrite !in_app_iff in Hdn.
  set (n0 := length (st_of a)). set (e := snd (b_fill F b_new off)).
  assert (Hsgn : sget (st_of a') n0 = fst (b_fill F b_new off)) by apply sget_ext_new.
  assert (Hlen' : length (st_of a') = S n0).
  { unfold a', dispatch, st_of. simpl. rewrite sset_length, app_length. simpl. unfold n0, st_of. lia. }
  assert (Hother : forall d', d' <> d -> dget a' d' = dget a d') by (intros d' Hne; apply nth_upd_nat_other; congruence).
  assert (Hq : queue a' = queue a ++ [mkD (Some n0) e]).
  { unfold queue. change (a_working a') with (a_working a ++ [d]). rewrite map_app. f_equal.
    - apply map_ext_in. intros d' Hin. apply Hother. intros ->. tauto.
    - simpl. f_equal. apply nth_upd_nat_same. exact Hdlt. }
  pose proof (fill_base F off b_new W Hoff) as Hbase.
  destruct (queue_keep (st_of a) (st_of a') (queue a) (ci_ent _ _ C)) as [Hent Hb];
    [rewrite Hlen'; unfold n0; lia|intros bid Hlt _; apply sget_ext; exact Hlt|].
  split; [|split; [|split; [|split; [|intros d' Hin; apply Hother; intros ->; tauto]]]].
  { unfold trun. change (dget (taken a rest) d) with (dget a d). rewrite (ci_idle _ _ C d) by (rewrite Ea; left; reflexivity).
    rewrite (a_fetch_nocache (taken a rest) d None off (ci_cache _ _ C)). cbv iota beta.
    assert (Hs : sget (st_of a ++ [b_new]) n0 = b_new) by (unfold sget; rewrite app_nth2, Nat.sub_diag by apply le_n; reflexivity).
    change (st_of (taken a rest)) with (st_of a). fold n0. rewrite Hs, dget_dset_same by exact Hdlt. simpl d_blk. cbv iota.
    unfold a', dispatch. simpl. fold (st_of a). fold n0. rewrite sget_ext_new. reflexivity. }
  2:{ unfold frame. repeat split; auto; [rewrite Hlen'; unfold n0; lia|intros j Hj; apply sget_ext; exact Hj]. }
  2:{ unfold bases. rewrite Hq, map_app, Hb. simpl. unfold dbase. simpl. rewrite Hsgn, Hbase. reflexivity. }
  constructor.
  - apply (ci_cache _ _ C).
  - unfold a', dispatch. simpl. rewrite length_upd_nat. apply (ci_len _ _ C).
  - rewrite <- (ci_tok _ _ C), P. apply Permutation_app_head. unfold tokens, a', dispatch. simpl.
    rewrite app_nil_r, app_assoc. apply Permutation_sym, Permutation_cons_append.
  - intros d' Hin. change (avail a') with rest in Hin. rewrite Hother by (intros ->; tauto).
    apply (ci_idle _ _ C). rewrite Ea. right. exact Hin.
  - rewrite Hq. apply Forall_app. split; [exact Hent|]. constructor; [|constructor].
    exists n0. simpl. rewrite Hlen', Hsgn, Hbase.
    split; [reflexivity|]. split; [lia|]. split; [exact Hoff|]. split; [apply beq_refl|reflexivity].
  - (* the new block is nobody's yet *)
    rewrite Hq, map_app. change (r_cur (a_r a')) with (r_cur (a_r a)).
    apply (Permutation_NoDup (Permutation_cons_append (_ :: _) (Some n0))). constructor; [|apply (ci_apart _ _ C)].
    intros [Hc|Hin]; [apply (ci_curlt _ _ C) in Hc; unfold n0 in *; lia|].
    apply in_map_iff in Hin. destruct Hin as (x & Hx & Hin).
    destruct (proj1 (Forall_forall _ _) (ci_ent _ _ C) x Hin) as (bid & Hbx & Hlt & _). unfold n0 in *. rewrite Hx in Hbx. inversion Hbx. lia.
  - intros i Hi. rewrite Hlen'. pose proof (ci_curlt _ _ C i Hi). fold n0 in H. lia.
  - discriminate.
Qed.

(** One iteration of the read-ahead thread: either it has moved an entry into working, or it had
    nothing to dispatch; what the consumer will receive stays as it was. *)
Lemma t_step_inv (held : list nat) (a : astate) (o : outcome astate) : chinv_h held a -> t_step F a = Some o ->
  exists a', o = Ok a' /\ chinv_h held a' /\ frame a a' /\ (forall s, stream a s -> stream a' s) /\
             (a_working a' <> [] \/ target a = None) /\ a_control a' = None /\ (forall d, In d held -> dget a' d = dget a d).
Proof.
  intros C Hst. rewrite (t_step_cases F) in Hst.
  destruct (avail a) as [|d rest] eqn:Ea; [discriminate|]. unfold stream, fut_ok. destruct (target a) as [off|] eqn:Et.
  - (* a dispatch at [off], the head of what was to come *)
    pose proof (target_nonneg off C Et) as Hoff.
    destruct (dispatch_inv held a d rest off C Ea Hoff) as (Hrun & C' & Fr & Hb & Hkeep).
    rewrite Hrun in Hst. inversion Hst; subst o.
    eexists. split; [reflexivity|]. split; [exact C'|]. split; [exact Fr|].
    split; [|split; [left; intros H; exact (app_cons_not_nil _ _ _ (eq_sym H))|split; [reflexivity|exact Hkeep]]].
    intros s (fut & Hch & ->). destruct (chain_head off fut Hch) as (fut' & ->).
    exists fut'. split; [apply (chain_tail off fut' _ Hch Hoff); reflexivity|rewrite Hb, <- app_assoc; reflexivity].
  - (* nothing to dispatch: the thread parks on control *)
    destruct (a_t a) as [n|] eqn:Ht; [|discriminate]. inversion Hst; subst o.
    assert (Hc : a_control a = None) by (unfold target in Et; destruct (a_control a); [discriminate|reflexivity]).
    eexists. split; [reflexivity|]. split; [|split; [unfold frame; simpl; repeat split; auto|split; [|split; [right; reflexivity|split; [exact Hc|reflexivity]]]]].
    + destruct C as [C1 C2 C3 C4 C5 C6 C7 C8]. rewrite Ea in C4, C8. constructor; auto.
      rewrite <- C3. apply Permutation_app_head. unfold tokens, avail in *. rewrite Ht in *. simpl in *. rewrite Ea, app_nil_r.
      rewrite app_assoc. apply Permutation_sym, Permutation_cons_append.
    + intros s (fut & -> & ->). exists []. split; [|reflexivity]. unfold target. simpl. rewrite Hc. reflexivity.
Qed.

Lemma t_step_enabled (a : astate) : chinv a -> a_working a = [] -> target a <> None -> t_step F a <> None.
Proof.
  intros C Hw Ht. rewrite (t_step_cases F). pose proof (chinv_count C) as Hl. rewrite Hw in Hl.
  destruct (avail a); [simpl in Hl; lia|]. destruct (target a); [discriminate|contradiction].
Qed.

Lemma recv_spec (a : astate) (s : list Z) (fuel : nat) :
  chinv a -> stream a s -> s <> [] -> (2 <= fuel)%nat ->
  exists a' d w, recv_working F fuel a = Ok (as_working a' w, d) /\ a_working a' = d :: w /\
                 chinv a' /\ frame a a' /\ stream a' s.
Proof.
  intros C Hs Hne Hf. destruct fuel as [|[|fuel]]; try lia.
  destruct (a_working a) as [|d w] eqn:Hw.
  2:{ exists a, d, w. simpl. rewrite Hw. auto 10 using frame_refl. }
  (* the read-ahead thread must produce an entry *)
  assert (Ht : target a <> None).
  { intros Ht. destruct Hs as (fut & Hfo & ->). unfold fut_ok in Hfo. rewrite Ht in Hfo. subst fut.
    apply Hne. unfold bases, queue. rewrite Hw. reflexivity. }
  pose proof (t_step_enabled a C Hw Ht) as Hen.
  simpl recv_working. rewrite Hw. destruct (t_step F a) as [o|] eqn:Hts; [|congruence].
  destruct (t_step_inv [] a o C Hts) as (a1 & -> & C1 & Fr1 & Hs1 & [Hne1|Hnone] & _); [|contradiction].
  destruct (a_working a1) as [|d w] eqn:Hw1; [congruence|].
  exists a1, d, w. auto 10.
Qed.

(** The consumer takes a decompressor out of a channel, changes its record, makes its block the
    current one, gives it back. *)
Lemma take_waiting (held : list nat) (a : astate) (d : nat) (w : list nat) :
  chinv_h held a -> a_waiting a = d :: w -> chinv_h (d :: held) (as_waiting a w).
Proof.
  intros [C1 C2 C3 C4 C5 C6 C7 C8] Hw. constructor; auto.
  - rewrite <- C3. unfold tokens. rewrite Hw. apply Permutation_middle.
  - intros d' Hin. apply C4. unfold avail in *. rewrite Hw. simpl in Hin. rewrite in_app_iff in *. simpl. tauto.
  - intros v Hv. split; [apply (C8 v Hv)|discriminate].
Qed.

Lemma take_working (held : list nat) (a : astate) (d : nat) (w : list nat) :
  chinv_h held a -> a_working a = d :: w -> chinv_h (d :: held) (as_working a w).
Proof.
  intros [C1 C2 C3 C4 C5 C6 C7 C8] Hw. unfold queue in *. rewrite Hw in *. constructor; auto.
  - rewrite <- C3. unfold tokens. rewrite Hw. simpl. rewrite !(app_assoc held). apply Permutation_middle.
  - exact (Forall_inv_tail C5).
  - exact (NoDup_remove_1 [_] _ _ C6).
  - intros v Hv. split; [apply (C8 v Hv)|discriminate].
Qed.

Lemma queue_dset (a : astate) (d : nat) (x : dec) : ~ In d (a_working a) -> queue (dset a d x) = queue a.
Proof. intros H. apply map_ext_in. intros d' Hin. apply dget_dset_other. intros ->. exact (H Hin). Qed.

Lemma chinv_dset (held : list nat) (a : astate) (d : nat) (x : dec) :
  chinv_h (d :: held) a -> chinv_h (d :: held) (dset a d x).
Proof.
  intros C.
  assert (P : Permutation ((d :: held) ++ tokens a) ([] ++ d :: held ++ avail a ++ a_working a)).
  { rewrite (tokens_avail a). reflexivity. }
  destruct (chinv_out d _ _ C P) as [_ Hdn]. simpl in Hdn. rewrite !in_app_iff in Hdn.
  assert (Hq : queue (dset a d x) = queue a) by (apply queue_dset; tauto).
  destruct C as [C1 C2 C3 C4 C5 C6 C7 C8]. constructor; try rewrite Hq; auto.
  - simpl. rewrite length_upd_nat. exact C2.
  - intros d' Hin. rewrite dget_dset_other; [exact (C4 d' Hin)|]. intros <-. tauto.
Qed.

Lemma chinv_cur (held : list nat) (a : astate) (c : option nat) :
  chinv_h held a -> ~ In c (map d_blk (queue a)) -> (forall i, c = Some i -> (i < length (st_of a))%nat) ->
  chinv_h held (as_r a (rs_cur (a_r a) c)).
Proof.
  intros [C1 C2 C3 C4 C5 C6 C7 C8] Hc Hlt. constructor; auto.
  constructor; [exact Hc|exact (proj2 (proj1 (NoDup_cons_iff _ _) C6))].
Qed.

Lemma chinv_cur_none (held : list nat) (a : astate) : chinv_h held a -> chinv_h held (as_r a (rs_cur (a_r a) None)).
Proof.
  intros C. apply chinv_cur; [exact C| |discriminate].
  intros Hin. apply in_map_iff in Hin. destruct Hin as (x & Hx & Hin).
  destruct (proj1 (Forall_forall _ _) (ci_ent _ _ C) x Hin) as (bid & Hb & _). congruence.
Qed.

Lemma chinv_give (held : list nat) (a : astate) (d : nat) :
  chinv_h (d :: held) a -> d_blk (dget a d) = None -> chinv_h held (give a d).
Proof.
  intros [C1 C2 C3 C4 C5 C6 C7 C8] Hd. constructor; auto.
  - rewrite <- C3. unfold tokens. simpl. rewrite <- !app_assoc, app_assoc. simpl.
    apply Permutation_sym. rewrite (app_assoc held). apply Permutation_middle.
  - intros d' Hin. unfold avail in Hin. simpl in Hin. rewrite app_assoc in Hin. apply in_app_or in Hin.
    destruct Hin as [Hin|[<-|[]]]; [exact (C4 d' Hin)|exact Hd].
  - intros v Hv. split; [apply (C8 v Hv)|]. unfold avail. simpl. rewrite !app_assoc.
    intros H. exact (app_cons_not_nil _ _ _ (eq_sym H)).
Qed.

Lemma chinv_set_control (held : list nat) (a : astate) (E : Z) :
  chinv_h held a -> 0 <= E -> held ++ avail a <> [] -> chinv_h held (as_control a (Some E)).
Proof.
  intros [C1 C2 C3 C4 C5 C6 C7 C8] HE Hw. constructor; auto.
  intros v Hv. inversion Hv; subst. auto.
Qed.

Lemma chinv_rs (held : list nat) (a : astate) (r' : rstate) :
  r_st r' = r_st (a_r a) -> r_cur r' = r_cur (a_r a) -> r_cache r' = r_cache (a_r a) ->
  chinv_h held a -> chinv_h held (as_r a r').
Proof.
  destruct a as [r decs wt wk ctl t sc]. destruct r as [st cur err lc bl ca]. destruct r' as [st' cur' err' lc' bl' ca'].
  simpl. intros -> -> -> [C1 C2 C3 C4 C5 C6 C7 C8]. constructor; assumption.
Qed.

Lemma chinv_sset (held : list nat) (a : astate) (i : nat) (b : block) :
  chinv_h held a -> r_cur (a_r a) = Some i ->
  let a' := as_r a (rs_st (a_r a) (sset (st_of a) i b)) in chinv_h held a' /\ bases a' = bases a.
Proof.
  intros C Hi. destruct (queue_keep (st_of a) (sset (st_of a) i b) (queue a) (ci_ent _ _ C)) as [Hent Hb].
  { rewrite sset_length. apply le_n. }
  { intros bid _ Hin. apply sget_sset_other. intros <-. pose proof (ci_apart _ _ C) as Hnd. rewrite Hi in Hnd.
    inversion Hnd. contradiction. }
  split; [|exact Hb]. destruct C as [C1 C2 C3 C4 C5 C6 C7 C8]. constructor; auto.
  intros i' Hi'. unfold st_of. simpl. rewrite sset_length. exact (C7 i' Hi').
Qed.

(** The current block is a faithful fetch of the member at [E]. *)
Definition got (a : astate) (E e : Z) : Prop :=
  exists bid, r_cur (a_r a) = Some bid /\ (bid < length (st_of a))%nat /\
              beq (sget (st_of a) bid) (fst (b_fill F b_new E)) /\ e = snd (b_fill F b_new E).

Lemma pop_inv (held : list nat) (a : astate) (d : nat) (w : list nat) :
  chinv_h held a -> a_working a = d :: w ->
  let a3 := pop (as_working a w) d in
  let E := dbase (st_of a) (dget a d) in
  chinv_h (d :: held) a3 /\ d_blk (dget a3 d) = None /\ bases a = E :: bases a3 /\
  got a3 E (d_err (dget a d)).
Proof.
  intros C Hw a3 E.
  assert (P : Permutation (held ++ tokens a) ((held ++ a_waiting a) ++ d :: w ++ tpark (a_t a))).
  { unfold tokens. rewrite Hw, <- app_assoc. reflexivity. }
  destruct (chinv_out d _ _ C P) as [Hdlt Hdn]. rewrite !in_app_iff in Hdn.
  pose proof (ci_ent _ _ C) as Hent. pose proof (ci_apart _ _ C) as Hnd. unfold queue in Hent, Hnd. rewrite Hw in Hent, Hnd.
  inversion Hent as [|? ? (bid & Hb & Hlt & H0 & Hbq & He) _]; subst.
  assert (Hq : forall x, queue (dset (as_working a w) d x) = map (dget a) w) by (intros x; apply queue_dset; simpl; tauto).
  subst E. unfold dbase. rewrite Hb. split; [|split; [exact (f_equal d_blk (dget_dset_same (as_working a w) d (mkD None _) Hdlt))|split]].
  - apply chinv_cur; [apply chinv_dset, take_working; assumption|rewrite Hq|].
    + inversion Hnd as [|? ? _ Hnd']. inversion Hnd'. assumption.
    + intros i Hi. change (d_blk (dget a d) = Some i) in Hi. rewrite Hb in Hi. inversion Hi; subst. exact Hlt.
  - unfold bases. change (queue a3) with (queue (dset (as_working a w) d (mkD None (d_err (dget a d))))). rewrite Hq. unfold queue. rewrite Hw. simpl. unfold dbase at 1. rewrite Hb. reflexivity.
  - exists bid. split; [exact Hb|]. split; [exact Hlt|]. split; [exact Hbq|exact He].
Qed.

Lemma a_keep_none (a : astate) (b : option nat) : r_cache (a_r a) = None -> a_keep a b = Ok a.
Proof. intros H. unfold a_keep. rewrite H. destruct b; reflexivity. Qed.

Lemma skipn_cons_tl {A} (k : nat) (x y : A) (s l : list A) : skipn k (x :: s) = y :: l -> skipn k s = l.
Proof.
  revert x s. induction k as [|k IH]; intros x s; simpl; [intros H; inversion H; reflexivity|].
  destruct s as [|x' s]; [destruct k; discriminate|]. apply IH.
Qed.

(** The loop of nextBlock finds the expected block [E] at position [k] of what it receives. *)
Lemma nb_loop_spec : forall i a E s k rg,
  chinv a -> 0 <= E -> stream a s -> is_chain E (skipn k s) -> (k < rd)%nat -> (k < i)%nat -> regs (a_r a) = rg ->
  exists a' e, nb_loop F i a E = Ok (a', e) /\ chinv a' /\ regs (a_r a') = rg /\ got a' E e /\
               (e = eNil -> chan_ok a' (b_next (fst (b_fill F b_new E)))).
Proof.
  induction i as [|i IH]; intros a E s k rg C HE Hs Hl Hk Hki Hrg; [lia|].
  assert (Hne : s <> []) by (intros ->; rewrite skipn_nil in Hl; destruct (chain_head _ _ Hl); discriminate).
  destruct (recv_spec a s (S (length (a_decs a))) C Hs Hne ltac:(rewrite (ci_len _ _ C); lia))
    as (a1 & d & w & Hrecv & Hw1 & C1 & Fr1 & fut1 & Hfo1 & ->).
  rewrite nb_loop_S, Hrecv. cbv beta iota.
  destruct (pop_inv [] a1 d w C1 Hw1) as (C3 & Hd3 & Hb1 & Hgot). cbv zeta in C3, Hd3, Hb1, Hgot.
  apply chinv_give in C3; [|exact Hd3].
  set (a3 := give (pop (as_working a1 w) d) d) in *. cbv zeta.
  change (blk_base (as_working a1 w) (d_blk (dget (as_working a1 w) d))) with (dbase (st_of a1) (dget a1 d)).
  change (dget (as_working a1 w) d) with (dget a1 d).
  change (bases (pop (as_working a1 w) d)) with (bases a3) in Hb1.
  change (got a3 (dbase (st_of a1) (dget a1 d)) (d_err (dget a1 d))) in Hgot.
  rewrite Hb1 in Hl. simpl app in Hl.
  assert (Hrf : regs (a_r a3) = rg) by (rewrite <- Hrg; exact (frame_regs _ _ Fr1)).
  assert (Hs3 : stream a3 (bases a3 ++ fut1)) by (exists fut1; split; [exact Hfo1|reflexivity]).
  clearbody a3.
  destruct (Z.eqb_spec (dbase (st_of a1) (dget a1 d)) E) as [Heq|Hneq].
  - (* accepted *)
    rewrite Heq in *. exists a3, (d_err (dget a1 d)). split; [reflexivity|]. split; [exact C3|]. split; [exact Hrf|]. split; [exact Hgot|].
    intros Hnil. destruct Hgot as (_ & _ & _ & _ & Herr). rewrite Hnil in Herr.
    destruct (chain_step E _ Hl (eq_sym Herr)) as (l' & Hleq & Hl').
    exists (bases a3 ++ fut1), k. rewrite (skipn_cons_tl _ _ _ _ _ Hleq). auto.
  - (* not the block wanted: a stale entry, and the loop goes on from [a3], with or without its block *)
    destruct k as [|k]; [destruct (chain_head _ _ Hl) as (l' & Hh); simpl in Hh; congruence|]. simpl in Hl.
    destruct (d_err (dget a1 d) =? eNil).
    + rewrite (a_keep_none a3 _ (ci_cache _ _ C3)).
      exact (IH _ E _ k rg (chinv_cur_none [] a3 C3) HE Hs3 Hl ltac:(lia) ltac:(lia) Hrf).
    + exact (IH a3 E _ k rg C3 HE Hs3 Hl ltac:(lia) ltac:(lia) Hrf).
Qed.

Record arel (a : astate) (v : vstate) : Prop := {
  ar_csr : csr F (a_r a) v;
  ar_ch : chinv a;
  ar_chan : b_has (v_cur v) = true -> chan_ok a (b_next (v_cur v)) }.

Lemma csr_regs (r : rstate) (v : vstate) : csr F r v -> regs r = (v_err v, v_lc v, v_blocked v).
Proof. intros [H1 H2 H3 _ _]. unfold regs. congruence. Qed.

(** The reader whose current block is a faithful fetch at [E], with the channels in order for the
    block behind it if the fetch succeeded. *)
Lemma arel_got (a : astate) (v : vstate) (E e : Z) :
  chinv a -> regs (a_r a) = (v_err v, v_lc v, v_blocked v) -> 0 <= E -> got a E e ->
  (e = eNil -> chan_ok a (b_next (fst (b_fill F b_new E)))) ->
  snd (b_fill F (v_cur v) E) = e /\ arel a (set_cur v (fst (b_fill F (v_cur v) E))).
Proof.
  intros C Hr HE (bid & Hcb & Hbl & Hbq & ->) Hch.
  destruct (fill_beq F E b_new (v_cur v) HE) as (Hb1 & Hb2). split; [symmetry; exact Hb2|].
  injection Hr as H1 H2 H3. constructor.
  - constructor; auto; [exact (fill_vgood F E (v_cur v) W HE)|].
    exists bid. rewrite (ci_cache _ _ C). split; [exact Hcb|split; [exact Hbl|split; [exact (beq_trans _ _ _ Hbq Hb1)|exact I]]].
  - exact C.
  - intros Hn. change (chan_ok a (b_next (fst (b_fill F (v_cur v) E)))). rewrite <- (beq_next Hb1). apply Hch.
    rewrite Hb2. apply (fill_has F E (v_cur v) W HE). exact Hn.
Qed.

Lemma cacheSwap_none (r : rstate) (k : Z) : r_cache r = None -> r_cacheSwap r k = Ok (r, false).
Proof. intros H. unfold r_cacheSwap. rewrite H. reflexivity. Qed.

Lemma as_r_eta (a : astate) : as_r a (a_r a) = a.
Proof. destruct a; reflexivity. Qed.

Lemma a_nextBlock_sim (a : astate) (v : vstate) :
  arel a v -> b_has (v_cur v) = true ->
  exists a', a_nextBlock F a = Ok (a', snd (v_nextBlock F v)) /\ arel a' (fst (v_nextBlock F v)).
Proof.
  intros [Hcs C Hcf] Hh.
  destruct (cs_cur _ _ _ Hcs) as (i & Hci & Hil & Hbeq & _).
  unfold a_nextBlock. rewrite Hci, (cacheSwap_none _ _ (ci_cache _ _ C)), as_r_eta, (beq_next Hbeq).
  set (E := b_next (v_cur v)).
  destruct (good_next ((cs_vgood _ _ _ Hcs) Hh)) as [_ HE]. fold E in HE.
  destruct (Hcf Hh) as (s & k & Hs & Hk & Hl). fold E in Hl.
  destruct (nb_loop_spec (length (a_decs a)) a E s k _ C HE Hs Hl Hk
              ltac:(rewrite (ci_len _ _ C); exact Hk) (csr_regs _ _ Hcs)) as (a' & e & Hnb & C' & Hr' & Hgot & Hch').
  destruct (arel_got a' v E e C' Hr' HE Hgot Hch') as [He Ha'].
  rewrite Hnb. unfold v_nextBlock. fold E. rewrite (surjective_pairing (b_fill F (v_cur v) E)), He. eauto.
Qed.

(** Updating the current block in place (block.Read / ReadByte / seek). *)
Lemma arel_set_cur (a : astate) (v : vstate) (i : nat) (b bv : block) :
  arel a v -> r_cur (a_r a) = Some i -> beq b bv -> same_blk (v_cur v) bv ->
  arel (as_r a (rs_st (a_r a) (sset (st_of a) i b))) (set_cur v bv).
Proof.
  intros [Hcs C Hcf] Hi Hb Hsm. destruct (chinv_sset [] a i b C Hi) as [C' Hbs]. constructor.
  - exact (csr_set_cur F (a_r a) v i b bv Hcs Hi Hb Hsm).
  - exact C'.
  - intros Hh. simpl in Hh. simpl v_cur. rewrite (next_same Hsm).
    destruct Hsm as (_ & _ & _ & E4). rewrite E4 in Hh.
    destruct (Hcf Hh) as (s & k & (fut & Hfo & ->) & R). exists (bases a ++ fut), k. split; [|exact R].
    exists fut. rewrite Hbs. auto.
Qed.

Lemma arel_rs (a : astate) (v v' : vstate) (r' : rstate) :
  arel a v -> csr F r' v' ->
  r_st r' = r_st (a_r a) -> r_cur r' = r_cur (a_r a) -> r_cache r' = r_cache (a_r a) -> v_cur v' = v_cur v ->
  arel (as_r a r') v'.
Proof.
  intros [Hcs C Hcf] Hcs' H1 H2 H3 H4. constructor.
  - exact Hcs'.
  - apply chinv_rs; assumption.
  - intros Hh. rewrite H4 in *. destruct (Hcf Hh) as (s & k & (fut & Hfo & ->) & R). exists (bases a ++ fut), k. split; [|exact R].
    exists fut. unfold bases, st_of. simpl. rewrite H1. auto.
Qed.

Lemma arel_err (a : astate) (v : vstate) (e : Z) : arel a v -> arel (as_r a (rs_err (a_r a) e)) (set_err v e).
Proof. intros Ha. apply (arel_rs a v); try reflexivity; [exact Ha|]. apply csr_err. exact (ar_csr _ _ Ha). Qed.

Lemma arel_end_err (a : astate) (v : vstate) (e : Z) (o : voff) :
  arel a v -> arel (as_r a (rs_end (rs_err (a_r a) e) o)) (set_end (set_err v e) o).
Proof.
  intros Ha. apply (arel_rs a v); try reflexivity; [exact Ha|]. apply csr_end_err. exact (ar_csr _ _ Ha).
Qed.

Lemma arel_begin (a : astate) (v : vstate) (o : voff) :
  arel a v -> arel (as_r a (rs_begin (a_r a) o)) (set_begin v o).
Proof.
  intros Ha. apply (arel_rs a v); try reflexivity; [exact Ha|]. apply csr_begin. exact (ar_csr _ _ Ha).
Qed.

Lemma a_cur_tx (a : astate) (v : vstate) : arel a v -> cur_tx (a_r a) = b_tx (v_cur v).
Proof. intros Ha. apply (csr_cur_tx F). exact (ar_csr _ _ Ha). Qed.

Lemma a_skip_sim : forall fuel a v x, arel a v -> b_has (v_cur v) = true -> v_skip F fuel v = Ok x ->
  exists a', a_skip F fuel a = Ok (a', snd x) /\ arel a' (fst x) /\ (snd x = eNil -> b_len (v_cur (fst x)) <> 0).
Proof.
  induction fuel as [|fuel IH]; intros a v x Ha Hhas Hv;
    pose proof (ar_csr _ _ Ha) as [_ _ _ Hvg (i & Hci & _ & Hbeq & _)];
    simpl in Hv |- *; unfold acur, ablk; rewrite Hci, (beq_len Hbeq);
    destruct (Z.eqb_spec (b_len (v_cur v)) 0) as [E|E]; try discriminate.
  1,3: (* the block is not exhausted *)
    inversion Hv; subst; exists a; (split; [reflexivity|]); split; [exact Ha|intros _; exact E].
  destruct (a_nextBlock_sim a v Ha Hhas) as (a1 & Hnb & Ha1). rewrite Hnb.
  pose proof (nb_has F v W Hhas Hvg) as Hh1.
  destruct (v_nextBlock F v) as [v1 e]. simpl in Ha1, Hh1 |- *.
  destruct (Z.eqb_spec e eNil) as [Ee|Ee]; [subst e|].
  - exact (IH a1 v1 x Ha1 (Hh1 eq_refl) Hv).
  - inversion Hv; subst. simpl. eexists. split; [reflexivity|]. split; [apply arel_err; exact Ha1|contradiction].
Qed.

Lemma arel_read (a : astate) (v : vstate) (n : Z) : arel a v -> b_has (v_cur v) = true ->
  exists i, r_cur (a_r a) = Some i /\
    let x := b_read (sget (r_st (a_r a)) i) n in let y := b_read (v_cur v) n in
    snd (fst x) = snd (fst y) /\ snd x = snd y /\ b_tx (fst (fst x)) = b_tx (fst (fst y)) /\
    arel (as_r a (rs_st (a_r a) (sset (r_st (a_r a)) i (fst (fst x))))) (set_cur v (fst (fst y))) /\
    b_has (fst (fst y)) = true.
Proof.
  intros Ha Hhas. destruct (cs_cur _ _ _ (ar_csr _ _ Ha)) as (i & Hci & _ & Hbeq & _). exists i. split; [exact Hci|].
  destruct (beq_read n Hbeq) as (Hb1 & Hb2 & Hb3). pose proof (read_same (v_cur v) n) as Hsm. cbv zeta.
  split; [exact Hb2|]. split; [exact Hb3|]. split; [exact (beq_tx Hb1)|]. split; [apply arel_set_cur; assumption|].
  destruct Hsm as (_ & _ & _ & ->). exact Hhas.
Qed.

Lemma a_copy_sim (n : Z) : forall fuel a v acc x, arel a v -> b_has (v_cur v) = true -> v_copy F fuel v n acc = Ok x ->
  exists a', a_copy F fuel a n acc = Ok (a', snd (fst x), snd x) /\ arel a' (fst (fst x)).
Proof.
  induction fuel as [|fuel IH]; intros a v acc x Ha Hhas Hv;
    simpl in Hv |- *; destruct (zlen acc <? n); try discriminate.
  1,3: (* nothing more is wanted *)
    inversion Hv; subst; simpl; eexists; (split; [reflexivity|]);
    rewrite (a_cur_tx a v Ha); apply arel_end_err; exact Ha.
  destruct (arel_read a v (n - zlen acc) Ha Hhas) as (i & Hci & Hbs & He & Htx & Ha1 & Hhas1). cbv zeta in Hbs, He, Htx, Ha1, Hhas1.
  unfold acur, ablk. rewrite Hci. rewrite (cs_bl _ _ _ (ar_csr _ _ Ha)).
  destruct (b_read (v_cur v) (n - zlen acc)) as [[bv bsv] ev].
  destruct (b_read (sget (r_st (a_r a)) i) (n - zlen acc)) as [[br bsr] er].
  cbn [fst snd] in *. subst bsr er. rewrite Htx.
  destruct (ev =? eEOF); [|exact (IH _ _ (acc ++ bsv) x Ha1 Hhas1 Hv)].
  destruct (zlen (acc ++ bsv) =? n); [inversion Hv; subst; eexists; split; [reflexivity|apply arel_end_err; exact Ha1]|].
  destruct (v_blocked v); [inversion Hv; subst; eexists; split; [reflexivity|apply arel_end_err; exact Ha1]|].
  destruct (a_nextBlock_sim _ _ Ha1 Hhas1) as (a2 & Hnb & Ha2). rewrite Hnb.
  pose proof (nb_has F (set_cur v bv) W Hhas1 (cs_vgood _ _ _ (ar_csr _ _ Ha1))) as Hh2.
  destruct (v_nextBlock F (set_cur v bv)) as [v2 e2]. simpl in Ha2, Hh2 |- *.
  destruct (Z.eqb_spec e2 eNil) as [Ee|Ee]; [subst e2|].
  - exact (IH a2 v2 (acc ++ bsv) x Ha2 (Hh2 eq_refl) Hv).
  - inversion Hv; subst. simpl. eexists. split; [reflexivity|].
    rewrite (a_cur_tx a2 v2 Ha2). apply arel_end_err. exact Ha2.
Qed.

(** The head of Read and ReadByte: after the skip the current block has bytes left. *)
Lemma a_enter_sim (a : astate) (v : vstate) (v1 : vstate) (e1 : Z) :
  arel a v -> b_has (v_cur v) = true -> v_skip F (S (length F)) v = Ok (v1, e1) ->
  exists a1, a_skip F (a_fuel F a) a = Ok (a1, e1) /\ arel a1 v1 /\ (e1 = eNil -> b_len (v_cur v1) <> 0).
Proof.
  intros Ha Hh Hsk. apply (v_skip_mono F _ (a_fuel F a)) in Hsk; [|unfold a_fuel, r_fuel; lia].
  exact (a_skip_sim _ a v _ Ha Hh Hsk).
Qed.

Lemma a_read_sim (a : astate) (v : vstate) (n : Z) (x : vstate * list Z * Z) :
  arel a v -> (v_err v = eNil -> b_has (v_cur v) = true) -> v_read F v n = Ok x ->
  exists a', a_read F a n = Ok (a', snd (fst x), snd x) /\ arel a' (fst (fst x)).
Proof.
  intros Ha Hnh Hv. unfold v_read in Hv. unfold a_read. rewrite (cs_err _ _ _ (ar_csr _ _ Ha)).
  destruct (Z.eqb_spec (v_err v) eNil) as [Ee|Ee]; simpl negb in *; cbv iota in *.
  2:{ inversion Hv; subst. simpl. exists a. split; [reflexivity|exact Ha]. }
  destruct (v_skip F (S (length F)) v) as [[v1 e1]| | |] eqn:Hsk; try discriminate.
  destruct (a_enter_sim a v v1 e1 Ha (Hnh Ee) Hsk) as (a1 & Hrs & Ha1 & Hl1). rewrite Hrs.
  destruct (Z.eqb_spec e1 eNil) as [E1|E1]; simpl negb in *; cbv iota in *.
  2:{ inversion Hv; subst. simpl. exists a1. split; [reflexivity|exact Ha1]. }
  rewrite (a_cur_tx a1 v1 Ha1).
  apply (a_copy_sim n _ _ _ [] x (arel_begin _ _ _ Ha1) (b_len_has _ (Hl1 E1))).
  apply (v_copy_mono F n (fuel_of F)); [unfold a_fuel, r_fuel, fuel_of; lia|exact Hv].
Qed.

Lemma a_readbyte_sim (a : astate) (v : vstate) (x : vstate * list Z * Z) :
  arel a v -> (v_err v = eNil -> b_has (v_cur v) = true) -> v_readbyte F v = Ok x ->
  exists a', a_readbyte F a = Ok (a', snd (fst x), snd x) /\ arel a' (fst (fst x)).
Proof.
  intros Ha Hnh Hv. unfold v_readbyte in Hv. unfold a_readbyte. rewrite (cs_err _ _ _ (ar_csr _ _ Ha)).
  destruct (Z.eqb_spec (v_err v) eNil) as [Ee|Ee]; simpl negb in *; cbv iota in *.
  2:{ inversion Hv; subst. simpl. exists a. split; [reflexivity|exact Ha]. }
  destruct (v_skip F (S (length F)) v) as [[v1 e1]| | |] eqn:Hsk; try discriminate.
  destruct (a_enter_sim a v v1 e1 Ha (Hnh Ee) Hsk) as (a1 & Hrs & Ha1 & Hl1). rewrite Hrs.
  destruct (Z.eqb_spec e1 eNil) as [E1|E1]; simpl negb in *; cbv iota in *.
  2:{ inversion Hv; subst. simpl. exists a1. split; [reflexivity|exact Ha1]. }
  (* the block has bytes left: the read cannot report its end *)
  specialize (Hl1 E1). rewrite (a_cur_tx a1 v1 Ha1). cbv zeta in *.
  pose proof (arel_begin _ _ (b_tx (v_cur v1)) Ha1) as Ha2.
  destruct (arel_read _ _ 1 Ha2 (b_len_has _ Hl1)) as (i & Hci & Hbs & He & Htx & Ha3 & _). cbv zeta in Hbs, He, Htx, Ha3.
  unfold acur, ablk. rewrite Hci. rewrite !b_readbyte_read in *.
  pose proof (b_read_nonempty (v_cur v1) 1 Hl1) as Hev. simpl v_cur in *.
  destruct (b_read (v_cur v1) 1) as [[bv bsv] ev].
  destruct (b_read (sget (r_st (a_r (as_r a1 (rs_begin (a_r a1) (b_tx (v_cur v1)))))) i) 1) as [[br bsr] er].
  cbn [fst snd] in *. subst bsr er ev. change (eNil =? eEOF) with false in *. cbv iota in *.
  inversion Hv; subst. simpl. eexists. split; [reflexivity|].
  rewrite Htx. apply arel_end_err. exact Ha3.
Qed.

Lemma chan_from_control (a : astate) (E : Z) : chinv a -> a_control a = Some E -> chan_ok a E.
Proof.
  intros C Hc. destruct (ci_ctl _ _ C E Hc) as [HE Hav]. destruct (chain_exists E HE) as (l & Hl).
  exists (bases a ++ l), (length (bases a)). split; [exists l; unfold fut_ok, target; rewrite Hc; auto|]. split.
  - pose proof (chinv_count C) as H. unfold bases, queue. rewrite !map_length. destruct (avail a); [contradiction|simpl in H; lia].
  - rewrite skipn_app, skipn_all, Nat.sub_diag. exact Hl.
Qed.

(** The send on control by a consumer that holds a decompressor: a full control is emptied by one
    iteration of the read-ahead thread, which can move. *)
Lemma send_control_spec (held : list nat) (a : astate) (E : Z) (fuel : nat) :
  chinv_h held a -> held <> [] -> (forall v, a_control a = Some v -> avail a <> []) -> (1 <= fuel)%nat -> 0 <= E ->
  exists a6, send_control F fuel a E = Ok a6 /\ chinv_h held a6 /\ a_control a6 = Some E /\ frame a a6 /\
             (forall d, In d held -> dget a6 d = dget a d).
Proof.
  intros C Hh K Hf HE.
  assert (Hput : forall a1 fuel1, chinv_h held a1 -> a_control a1 = None ->
            send_control F fuel1 a1 E = Ok (as_control a1 (Some E)) /\ chinv_h held (as_control a1 (Some E))).
  { intros a1 fuel1 C1 Hc1. split; [destruct fuel1; simpl; rewrite Hc1; reflexivity|].
    apply chinv_set_control; [exact C1|exact HE|destruct held; [contradiction|discriminate]]. }
  destruct (a_control a) as [v|] eqn:Hc.
  2:{ destruct (Hput a fuel C Hc) as [Hs C']. eexists. split; [exact Hs|]. split; [exact C'|]. split; [reflexivity|]. split; [unfold frame; simpl; repeat split; auto|reflexivity]. }
  destruct fuel as [|fuel]; [lia|]. simpl. rewrite Hc.
  destruct (t_step F a) as [o|] eqn:Hts.
  2:{ exfalso. rewrite (t_step_cases F) in Hts. unfold target in Hts. rewrite Hc in Hts.
      destruct (avail a); [exact (K v eq_refl eq_refl)|discriminate]. }
  destruct (t_step_inv held a o C Hts) as (a1 & -> & C1 & Fr & _ & _ & Hc1 & Hkeep).
  destruct (Hput a1 fuel C1 Hc1) as [Hs C']. eexists. split; [exact Hs|]. split; [exact C'|]. split; [reflexivity|]. split; [exact Fr|exact Hkeep].
Qed.

Lemma arel_frame (a a' : astate) (v : vstate) :
  arel a v -> chinv a' -> frame a a' ->
  (forall s, stream a s -> stream a' s) -> arel a' v.
Proof.
  intros [Hcs C Hcf] C' (A1 & A2 & A3 & A4 & _ & A6 & A7) Hseq. constructor.
  - destruct Hcs as [He Hlc Hbl Hvg (i & Hci & Hil & Hbeq & _)]. constructor; try congruence; try exact Hvg.
    exists i. split; [congruence|]. unfold st_of in *. split; [lia|]. split; [rewrite A7 by exact Hil; exact Hbeq|].
    rewrite (ci_cache _ _ C'). exact I.
  - exact C'.
  - intros Hh. destruct (Hcf Hh) as (s & k & Hs & R). exists s, k. auto.
Qed.

Lemma t_run_inv : forall k a v, arel a v -> exists a', t_run F k a = Ok a' /\ arel a' v.
Proof.
  induction k as [|k IH]; intros a v Ha; [exists a; split; [reflexivity|exact Ha]|].
  simpl. destruct (t_step F a) as [o|] eqn:Hs; [|exists a; split; [reflexivity|exact Ha]].
  destruct (t_step_inv [] a o (ar_ch _ _ Ha) Hs) as (a1 & -> & C1 & Fr & Hseq & _).
  apply IH. apply (arel_frame a a1 v Ha C1 Fr Hseq).
Qed.

Lemma arel_sched (a : astate) (v : vstate) (sc : list nat) : arel a v -> arel (as_sched a sc) v.
Proof.
  intros [Hcs [C1 C2 C3 C4 C5 C6 C7 C8] Hcf]. constructor; [exact Hcs|constructor; assumption|exact Hcf].
Qed.

Lemma beq_sym (b1 b2 : block) : beq b1 b2 -> beq b2 b1.
Proof. intros (Q1 & Q2 & Q3 & Q4 & Q5 & Q6). unfold beq. repeat split; congruence. Qed.

(** The select over waiting and working always finds a decompressor, the head of one of them. *)
Lemma select_spec (a : astate) (v : vstate) (fuel : nat) : arel a v ->
  exists a0 d w (fw : bool), arel a0 v /\
    select_dec F fuel a = Ok (if fw then as_working a0 w else as_waiting a0 w, d, fw) /\
    (if fw then a_working a0 else a_waiting a0) = d :: w.
Proof.
  intros Ha. rewrite select_dec_eq. pose proof (select_now_spec a) as Hn. destruct (select_now a) as [x|].
  - destruct Hn as (sc & d & w & fw & -> & Hw). exists (as_sched a sc), d, w, fw.
    split; [apply arel_sched; exact Ha|]. split; [reflexivity|exact Hw].
  - exfalso. destruct Hn as [Hw Hk]. pose proof (chinv_count (ar_ch _ _ Ha)) as H. unfold avail in H. rewrite Hw, Hk in H.
    destruct (a_t a); simpl in H; lia.
Qed.

Lemma afin_spec (a1 : astate) (v1 : vstate) (f o : Z) :
  arel a1 v1 -> b_has (v_cur v1) = true ->
  exists a', afin f o a1 = Ok (a', eNil) /\
             arel a' (set_lc (set_err (set_cur v1 (b_seek (v_cur v1) o)) eNil) ((f, o), (f, o))).
Proof.
  intros Ha Hh. destruct (cs_cur _ _ _ (ar_csr _ _ Ha)) as (i & Hci & _ & Hbeq & _).
  pose proof Hbeq as (_ & _ & _ & _ & _ & B6).
  unfold afin, acur, ablk. cbv zeta. rewrite Hci, B6, Hh. simpl negb. cbv iota.
  eexists. split; [reflexivity|].
  pose proof (arel_set_cur a1 v1 i _ _ Ha Hci (beq_seek o Hbeq) (seek_same _ o)) as Ha1.
  apply (arel_rs _ _ _ _ Ha1); try reflexivity. apply csr_misc. exact (ar_csr _ _ Ha1).
Qed.

(** The synchronous fetch of Seek, with the held decompressor [d], into the current block. *)
Lemma seek_sync_spec (a3 : astate) (v : vstate) (d : nat) (f o : Z) :
  csr F (a_r a3) v -> chinv_h [d] a3 -> 0 <= f -> snd (b_fill F (v_cur v) f) = eNil ->
  let b := fst (b_fill F (v_cur v) f) in
  exists a', seek_sync F a3 d f o = Ok (a', eNil) /\
    arel a' (set_lc (set_err (set_cur (set_err (set_cur v b) eNil) (b_seek b o)) eNil) ((f, o), (f, o))).
Proof.
  intros Hcs C Hf Hnil b.
  destruct (cs_cur _ _ _ Hcs) as (ci & Hci & Hcil & Hbeq & _).
  destruct (chinv_out d [] _ C (Permutation_refl _)) as [Hdlt _].
  pose proof (proj2 (fill_beq F f b_new (v_cur v) Hf)) as Hnil0. rewrite Hnil in Hnil0.
  destruct (fill_beq F f (sget (st_of a3) ci) b_new Hf) as (Hb1 & Hb2). rewrite Hnil0 in Hb2.
  unfold seek_sync, acur. rewrite Hci, a_fetch_nocache by (exact (ci_cache _ _ C)). cbv beta iota.
  unfold a_wait. cbv beta iota zeta.
  rewrite !dget_dset_same by (simpl; rewrite ?length_upd_nat; exact Hdlt).
  cbn [d_blk d_err]. rewrite Hb2. change (negb (eNil =? eNil)) with false. cbv iota.
  set (blk := fst (b_fill F (sget (st_of a3) ci) f)) in *.
  match goal with |- context [cur_next ?A] => replace (cur_next A) with (b_next (fst (b_fill F b_new f))) end.
  2:{ unfold cur_next, acur, ablk. simpl. fold (st_of a3). rewrite sget_sset_same by exact Hcil. symmetry. exact (beq_next Hb1). }
  match goal with |- context [afin f o ?A] => set (a8 := A) end.
  (* the current block refilled in place, [d] back in waiting, control set *)
  assert (C8 : chinv a8).
  { apply (chinv_give [] _ d); [|unfold dget; simpl; rewrite nth_upd_nat_same by (rewrite length_upd_nat; exact Hdlt); reflexivity].
    apply chinv_set_control; [|apply (fill_good f b_new Hf Hnil0)|discriminate].
    apply (chinv_rs [d]); [reflexivity|exact (eq_sym Hci)|reflexivity|].
    apply chinv_dset, chinv_dset. exact (proj1 (chinv_sset [d] a3 ci blk C Hci)). }
  refine (afin_spec a8 _ f o (proj2 (arel_got a8 (set_err v eNil) f eNil C8 _ Hf _ _)) (proj1 (proj2 (fill_good f (v_cur v) Hf Hnil)))).
  - pose proof (csr_regs _ _ Hcs) as Hr. injection Hr as _ H2 H3. unfold regs. simpl. rewrite H2, H3. reflexivity.
  - exists ci. split; [reflexivity|]. unfold a8, st_of. simpl. fold (st_of a3).
    rewrite sset_length, sget_sset_same by exact Hcil. auto.
  - intros _. exact (chan_from_control a8 _ C8 eq_refl).
Qed.

(** A decompressor received from working that may hold the sought block. *)
Lemma seek_pre_working (a1 : astate) (v : vstate) (d : nat) (w : list nat) (f : Z) (fuel : nat) :
  arel a1 v -> a_working a1 = d :: w -> 0 <= f -> (1 <= fuel)%nat ->
  (exists a3, seek_pre F fuel (as_working a1 w) d true f = Ok (a3, true) /\ arel a3 (set_cur v (fst (b_fill F (v_cur v) f)))) \/
  (exists e, seek_pre F fuel (as_working a1 w) d true f = Ok (dset (as_working a1 w) d (mkD None e), false)).
Proof.
  intros Ha Hk Hf Hfu. pose proof (ar_ch _ _ Ha) as C.
  unfold seek_pre, a_wait. cbv beta iota zeta.
  destruct (Z.eqb_spec (d_err (dget (as_working a1 w) d)) eNil) as [Ee|_]; [|right; eexists; reflexivity].
  rewrite a_keep_none by (exact (ci_cache _ _ C)).
  destruct (Z.eqb_spec (blk_base (dset (as_working a1 w) d (mkD None (d_err (dget (as_working a1 w) d)))) (d_blk (dget (as_working a1 w) d))) f) as [Eb|_];
    [|right; eexists; reflexivity].
  left. change (dbase (st_of a1) (dget a1 d) = f) in Eb. change (d_err (dget a1 d) = eNil) in Ee.
  destruct (pop_inv [] a1 d w C Hk) as (C5 & Hd5 & _ & Hgot). cbv zeta in C5, Hd5, Hgot. rewrite Eb, Ee in Hgot.
  set (a5 := pop (as_working a1 w) d) in *. change (as_r _ _) with a5.
  pose proof Hgot as (bid & Hcb & Hbl & Hbq & Hnil).
  replace (cur_next a5) with (b_next (fst (b_fill F b_new f)))
    by (unfold cur_next, acur, ablk; rewrite Hcb; symmetry; exact (beq_next Hbq)).
  destruct (send_control_spec [d] a5 _ fuel C5 ltac:(discriminate) (fun v0 H => proj2 (ci_ctl _ _ C v0 H)) Hfu
              (proj2 (proj2 (fill_good f b_new Hf (eq_sym Hnil))))) as (a6 & Hsend & C6 & Hc6 & Fr & Hkeep).
  rewrite Hsend. eexists. split; [reflexivity|].
  assert (C7 : chinv (give a6 d)) by (apply (chinv_give [] a6 d C6); rewrite (Hkeep d (or_introl eq_refl)); exact Hd5).
  refine (proj2 (arel_got (give a6 d) v f eNil C7 (eq_trans (frame_regs _ _ Fr) (csr_regs _ _ (ar_csr _ _ Ha))) Hf _
                          (fun _ => chan_from_control _ _ C7 Hc6))).
  destruct Fr as (F1 & _ & _ & _ & _ & F6 & F7). exists bid. change (st_of (give a6 d)) with (st_of a6).
  rewrite F7 by exact Hbl. split; [exact (eq_trans F1 Hcb)|]. split; [lia|]. split; [exact Hbq|exact Hnil].
Qed.

Lemma a_seek_sim (a : astate) (v : vstate) (f o : Z) :
  arel a v -> 0 <= f -> snd (b_fill F (v_cur v) f) = eNil ->
  exists a', a_seek F a f o = Ok (a', snd (v_seek F v f o)) /\ arel a' (fst (v_seek F v f o)).
Proof.
  intros Ha Hf Hnil. pose proof (ar_csr _ _ Ha) as Hcs. pose proof (ar_ch _ _ Ha) as C.
  destruct (cs_cur _ _ _ Hcs) as (ci & Hci & Hcil & Hbeq & _).
  pose proof Hbeq as (B1 & _ & _ & _ & _ & B6).
  rewrite a_seek_eq. unfold v_seek. unfold acur at 1. rewrite Hci. cbv zeta. unfold ablk at 1 2. rewrite B1, B6.
  destruct (negb (f =? b_base (v_cur v)) || negb (b_has (v_cur v))) eqn:Hre.
  2:{ change (negb (eNil =? eNil)) with false. cbv iota.
      apply orb_false_iff in Hre. destruct Hre as [_ H2]. apply negb_false_iff in H2. exact (afin_spec a v f o Ha H2). }
  rewrite (cacheSwap_none _ _ (ci_cache _ _ C)), as_r_eta.
  rewrite (surjective_pairing (b_fill F (v_cur v) f)), Hnil. change (negb (eNil =? eNil)) with false. cbv iota.
  destruct (select_spec a v (S (length (a_decs a))) Ha) as (a1 & d & w & fw & Ha1 & Hsel & Hw). rewrite Hsel.
  destruct (fill_good f (v_cur v) Hf Hnil) as (_ & Hhas & _).
  destruct fw.
  - destruct (seek_pre_working a1 v d w f (S (length (a_decs a))) Ha1 Hw Hf ltac:(lia))
      as [(a3 & Hpre & Ha3)|(e & Hpre)]; rewrite Hpre.
    + exact (afin_spec a3 _ f o Ha3 Hhas).
    + exact (seek_sync_spec (dset (as_working a1 w) d (mkD None e)) v d f o (ar_csr _ _ Ha1)
               (chinv_dset [] _ d _ (take_working [] a1 d w (ar_ch _ _ Ha1) Hw)) Hf Hnil).
  - cbn [seek_pre]. exact (seek_sync_spec (as_waiting a1 w) v d f o (ar_csr _ _ Ha1) (take_waiting [] a1 d w (ar_ch _ _ Ha1) Hw) Hf Hnil).
Qed.

Lemma a_step_sim (ch : list nat) (a0 : astate) (v : vstate) (f : fstate) (o : rop) (x : vstate * fret) :
  arel a0 v -> sim F v f -> valid_op F o -> no_cache_op o = true -> v_step F v o = Ok x ->
  exists a', a_step F ch a0 o = Ok (a', snd x) /\ arel a' (fst x).
Proof.
  intros Ha0 Hsim Hv Hn Hvs. unfold a_step.
  assert (Ha1 : arel (snd (pop_sched a0)) v) by (unfold pop_sched; destruct (a_sched a0); [exact Ha0|apply arel_sched; exact Ha0]).
  destruct (pop_sched a0) as [k a1]. simpl in Ha1.
  destruct (t_run_inv k a1 v Ha1) as (a & Htr & Ha). rewrite Htr. clear Htr Ha1 Ha0 a0 a1.
  assert (Hseek : forall fo bo, valid_off F fo bo = true -> v_step F v (OSeek fo bo) = Ok x ->
            exists a', match a_seek F a fo bo with Ok (a', e) => Ok (a', ([], e))
                       | Err e => Err e | Panic w => Panic w | Stuck => Stuck end = Ok (a', snd x) /\ arel a' (fst x)).
  { intros fo bo Hvo Hk. destruct (valid_off_split F fo bo W Hvo) as (pre & m & post & Sp & <- & _).
    destruct (a_seek_sim a v _ bo Ha (split_base_nonneg Sp)) as (a' & Hrs & Ha'); [rewrite (fill_at _ Sp); reflexivity|].
    rewrite Hrs. simpl in Hk. destruct (v_seek F v (m_base m) bo) as [v1 e]. inversion Hk; subst. eauto. }
  destruct o as [fo bo|n| |b| |kk cap]; simpl in Hvs.
  - exact (Hseek fo bo Hv Hvs).
  - destruct (v_read F v n) as [[[v1 bs] e]| | |] eqn:Hr; try discriminate. inversion Hvs; subst.
    destruct (a_read_sim a v n _ Ha (sim_nil_has Hsim) Hr) as (a' & Hrs & Ha'). rewrite Hrs. eauto.
  - destruct (v_readbyte F v) as [[[v1 bs] e]| | |] eqn:Hr; try discriminate. inversion Hvs; subst.
    destruct (a_readbyte_sim a v _ Ha (sim_nil_has Hsim) Hr) as (a' & Hrs & Ha'). rewrite Hrs. eauto.
  - inversion Hvs; subst. eexists. split; [reflexivity|].
    apply (arel_rs a v); try reflexivity; [exact Ha|].
    destruct (ar_csr _ _ Ha) as [He Hlc Hbl Hvg Hc]. constructor; simpl; auto.
  - rewrite (cs_lc _ _ _ (ar_csr _ _ Ha)). pose proof (sim_begin_valid _ _ _ Hsim) as Hbv.
    destruct (fst (v_lc v)) as [fo bo]. exact (Hseek fo bo Hbv Hvs).
  - discriminate.
Qed.

Lemma a_run_sim (ch : list nat) : forall ops a v f,
  arel a v -> sim F v f -> Forall (valid_op F) ops -> forallb no_cache_op ops = true ->
  a_run F ch a ops = v_run F v ops.
Proof.
  induction ops as [|o ops IH]; intros a v f Ha Hsim Hv Hn; [reflexivity|].
  inversion Hv; subst. simpl in Hn. apply andb_true_iff in Hn. destruct Hn as [Hn1 Hn2].
  destruct (step_sim F v f o W Hsim H1) as (v' & r & Hvs & _ & Hsim').
  destruct (a_step_sim ch a v f o _ Ha Hsim H1 Hn1 Hvs) as (a' & Has & Ha').
  simpl. rewrite Hvs, Has. rewrite (IH a' v' _ Ha' Hsim' H2 Hn2).
  rewrite (cs_lc _ _ _ (ar_csr _ _ Ha')), (csr_blen _ _ _ (ar_csr _ _ Ha')). reflexivity.
Qed.

Lemma init_arel (sched : list nat) : F <> [] -> arel (fst (a_init F rd sched)) (fst (v_init F)).
Proof.
  intros Hne. pose proof (init_csr F W Hne) as Hcs. destruct (init_sim F W Hne) as [Hsim He0].
  pose proof (sim_nil_has Hsim) as Hhas.
  unfold a_init. rewrite r_init_emb in *. cbn [fst snd] in *.
  set (v0 := fst (v_init F)) in *.
  assert (Hh : b_has (v_cur v0) = true).
  { apply Hhas. unfold v0, v_init. destruct (b_fill F b_new 0); reflexivity. }
  destruct (good_next ((cs_vgood _ _ _ Hcs) Hh)) as [_ Hnx].
  simpl. change (sget [v_cur v0] 0) with (v_cur v0).
  constructor.
  - exact Hcs.
  - constructor; simpl.
    + reflexivity.
    + apply repeat_length.
    + unfold tokens. simpl. rewrite app_nil_r. destruct rd as [|n]; [lia|]. simpl. rewrite Nat.sub_0_r.
      apply Permutation_sym. apply Permutation_cons_append.
    + intros d _. unfold dget. simpl. rewrite nth_repeat. reflexivity.
    + constructor.
    + repeat constructor. intros [].
    + intros i Hi. inversion Hi; subst. unfold st_of. simpl. lia.
    + discriminate.
  - intros _. destruct (chain_exists _ Hnx) as (l & Hl).
    exists l, O. split; [exists l; split; [|reflexivity]|split; [lia|exact Hl]].
    unfold fut_ok, target. simpl. destruct (Z.ltb_spec (b_next (v_cur v0)) 0); [lia|exact Hl].
Qed.

End AR.

(** C02 for the reader with read-ahead (rd >= 2, no cache): under every
    schedule of the read-ahead goroutine the calls return, with the
    observations of the flat stream — no panic, no deadlock. *)
Theorem async_refines_flat_proof (F : file) (rd : nat) (ch sched : list nat) (ops : list rop) :
  wf_file F = true -> F <> [] -> (2 <= rd)%nat -> Forall (valid_op F) ops -> forallb no_cache_op ops = true ->
  snd (a_init F rd sched) = eNil /\
  exists l, a_run F ch (fst (a_init F rd sched)) ops = Ok l /\
    rets l = map fst (flat_run F f_init ops) /\
    begins F l = map (fun y => fst (snd y)) (flat_run F f_init ops) /\
    (addressable F = true -> ends F l = map (fun y => snd (snd y)) (flat_run F f_init ops)).
Proof.
  intros W Hne Hrd Hv Hn.
  destruct (v_refines_flat F ops W Hne Hv) as (He & l & Hrun & R).
  split.
  - unfold a_init. rewrite r_init_emb. simpl. exact He.
  - exists l. split; [|exact R].
    destruct (init_sim F W Hne) as [Hsim _].
    rewrite (a_run_sim F W rd Hrd ch ops _ _ _ (init_arel F W rd Hrd sched Hne) Hsim Hv Hn). exact Hrun.
Qed.

Print Assumptions async_refines_flat_proof.
