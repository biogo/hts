(** C04 for CSI, Add side: for every (minShift, depth) Add never fails on a
    well-formed list and keeps every record findable under its bin, with the
    bin's [left] offset below the record's chunk. *)
From Coq Require Import ZArith Lia List Bool.
From Hts Require Import Base.Prim Generated Model.Index Model.Csi Model.IndexSpec Model.Bins Proofs.Bins
  Proofs.CsiGen Proofs.IndexSort Proofs.Index.
Open Scope Z_scope.

(** Largest coordinate [validIndexPos] accepts for the scheme. *)
Definition cs_limit (ms dp : Z) : Z := Z.shiftl 1 (u32 (ms + u32 (dp * csi_nextBinShift))) - 1 - 1.

Lemma cs_valid_pos_iff x ms dp : cs_valid_pos x ms dp = true <-> -1 <= x <= cs_limit ms dp.
Proof. unfold cs_valid_pos, cs_limit. rewrite andb_true_iff, Z.leb_le, Z.leb_le. tauto. Qed.

Lemma u32_idem x : u32 (u32 x) = u32 x.
Proof. unfold u32, wrapu. apply Z.mod_mod. lia. Qed.

Lemma u32_small x : 0 <= x < 2 ^ 32 -> u32 x = x.
Proof. intros H. unfold u32, wrapu. apply Z.mod_small. exact H. Qed.

Lemma cs_reg2bin_u32 b e ms dp : u32 (cs_reg2bin b e ms dp) = cs_reg2bin b e ms dp.
Proof.
  unfold cs_reg2bin. generalize (Z.to_nat dp) (e - 1) ms (u32 (u32 (u32 (Z.shiftl 1 (u32 (dp * csi_nextBinShift))) - 1) / 7)).
  intros level. induction level as [|l IH]; intros; simpl; [reflexivity|].
  destruct (_ =? _); [apply u32_idem|apply IH].
Qed.

(** C16's bin containment, transported: the two models of csi.reg2bin /
    csi.reg2bins compute the same values for every geometry that fits 32-bit
    bin numbers. *)
Section Geometry.
  Variables ms dp : Z.
  Hypothesis Hms : 0 <= ms.
  Hypothesis Hdp : 0 <= dp <= 10.
  Hypothesis Hsum : ms + 3 * dp <= 62.

  Lemma csi_shift : u32 (ms + u32 (dp * csi_nextBinShift)) = ms + 3 * dp.
  Proof. change csi_nextBinShift with 3. rewrite (u32_small (dp * 3)) by lia. rewrite u32_small by lia. lia. Qed.

  Lemma cs_limit_pow : cs_limit ms dp + 2 = 2 ^ (ms + 3 * dp).
  Proof. unfold cs_limit. rewrite csi_shift, Z.shiftl_1_l. lia. Qed.

  Lemma reg2bin_loop_cs n : forall level beg e s t,
    level = Z.of_nat n -> level < 2 ^ 32 ->
    reg2bin_loop n level beg e s t = Ok (cs_reg2bin_go n beg e s t).
  Proof.
    induction n as [|n IH]; intros level beg e s t Hl Hb; [reflexivity|].
    cbn [reg2bin_loop cs_reg2bin_go]. destruct (Z.shiftr beg s =? Z.shiftr e s); [reflexivity|].
    assert (Hu : u32 (level - 1) = Z.of_nat n) by (rewrite u32_small by lia; lia).
    rewrite Hu. apply IH; [reflexivity|lia].
  Qed.

  Lemma reg2bins_loop_cs n : forall level beg e s t acc l,
    0 <= level -> level + Z.of_nat n < 2 ^ 31 -> 3 * (Z.of_nat n - 1) <= s < 2 ^ 32 ->
    reg2bins_loop n level beg e s t acc = Ok l ->
    l = acc ++ cs_reg2bins_go n level beg e s t.
  Proof.
    induction n as [|n IH]; intros level beg e s t acc l Hl Hb Hs H.
    - simpl in H. inversion H. simpl. rewrite app_nil_r. reflexivity.
    - cbn [reg2bins_loop cs_reg2bins_go] in *. unfold loop_u32 in H.
      destruct (_ =? 2 ^ 32 - 1); [discriminate|]. cbn [obind] in H.
      rewrite zrange_ix in H. fold (ix_zrange (u32 (t + u32 (Z.shiftr beg s))) (u32 (t + u32 (Z.shiftr e s)))) in H.
      destruct n as [|n'].
      + simpl in H. inversion H. simpl. rewrite app_nil_r. reflexivity.
      + rewrite (u32_small (level + 1)) in H by lia.
        rewrite (u32_small (s - csi_nextBinShift)) in H by (change csi_nextBinShift with 3; lia).
        apply IH in H; [|lia|lia|change csi_nextBinShift with 3; lia].
        rewrite H, <- app_assoc. reflexivity.
  Qed.

  Theorem csi_bin_containment b1 e1 b2 e2 :
    0 <= b1 < e1 -> e1 <= cs_limit ms dp + 2 -> 0 <= b2 < e2 -> e2 <= cs_limit ms dp + 2 -> b1 < e2 -> b2 < e1 ->
    In (cs_reg2bin b1 e1 ms dp) (cs_reg2bins b2 e2 ms dp).
  Proof.
    intros H1 H1' H2 H2' Ha Hb. rewrite cs_limit_pow in H1', H2'.
    assert (Hpow : 2 ^ (ms + 3 * dp) <= 2 ^ 62) by (apply Z.pow_le_mono_r; lia).
    assert (Hs64 : forall x, - 2 ^ 63 <= x < 2 ^ 63 -> s64 x = x).
    { intros x Hx. unfold s64, wraps. change (2 ^ (64 - 1)) with (2 ^ 63). rewrite Z.mod_small by lia. lia. }
    destruct (csi_bin_in_bins_gen ms dp b1 e1 b2 e2 Hms Hdp Hsum (proj1 H1) (proj1 H2) (conj (proj2 H1) H1')
                (conj (proj2 H2) H2') Ha Hb) as (k & l & Hk & Hl & Hin).
    unfold csi_reg2bin in Hk. rewrite Hs64 in Hk by lia.
    rewrite (reg2bin_loop_cs (Z.to_nat dp) dp) in Hk by lia. inversion Hk; subst k. clear Hk.
    unfold csi_reg2bins in Hl. rewrite Hs64, csi_shift in Hl by lia.
    apply reg2bins_loop_cs in Hl; [|lia..].
    simpl in Hl. subst l. unfold cs_reg2bin, cs_reg2bins. rewrite csi_shift.
    replace (Z.to_nat (dp + 1)) with (S (Z.to_nat dp)) by lia.
    assert (Et : csi_t0 dp = u32 (u32 (u32 (Z.shiftl 1 (u32 (dp * csi_nextBinShift))) - 1) / 7)).
    { unfold csi_t0. rewrite Z.quot_div_nonneg; [reflexivity| |lia]. unfold u32, wrapu. apply Z.mod_pos_bound. lia. }
    rewrite <- Et. exact Hin.
  Qed.

  Lemma cs_query_valid ix beg end_ :
    c_ms ix = ms -> c_dp ix = dp -> 0 <= beg < end_ -> end_ <= cs_limit ms dp + 2 ->
    (beg <? 0) || (end_ <=? beg) || (beg >=? cs_max ix) = false /\
    (if end_ >? cs_max ix then cs_max ix else end_) = end_.
  Proof.
    intros Ems Edp Hq Hq2. unfold cs_max. rewrite Ems, Edp. unfold cs_limit in Hq2. rewrite csi_shift in *.
    destruct (Z.ltb_spec (ms + 3 * dp) 63); [|lia].
    destruct (beg <? 0) eqn:E1; [lia|]. destruct (end_ <=? beg) eqn:E2; [lia|].
    destruct (beg >=? Z.shiftl 1 (ms + 3 * dp)) eqn:E3; [lia|]. split; [reflexivity|].
    destruct (end_ >? Z.shiftl 1 (ms + 3 * dp)) eqn:E4; [lia|reflexivity].
  Qed.
End Geometry.

(** The translation of csi.reg2bin that gen/ regenerates from csi/csi.go
    computes [cs_reg2bin], the bin Index.Add files records under. *)
Lemma csigen_reg2bin_is_cs beg e ms depth k :
  0 <= depth < 2 ^ 32 -> - 2 ^ 63 < e <= 2 ^ 63 ->
  csigen_reg2bin (S (Z.to_nat depth) + k) beg e ms depth = Ok (cs_reg2bin beg e ms depth).
Proof.
  intros Hd He. rewrite csigen_reg2bin_is_model by assumption.
  unfold csi_reg2bin, cs_reg2bin. cbv zeta. rewrite BinArith.s64_id by lia.
  rewrite (reg2bin_loop_cs (Z.to_nat depth) depth) by lia.
  unfold csi_t0. rewrite Z.quot_div_nonneg; [reflexivity|apply Z.mod_pos_bound; lia|lia].
Qed.

Definition cbin_add (c : chunk) (x : cbin) : cbin :=
  mkCBin (cnum x) (cleft x) (crecords x + 1) (ix_upd_chunks (cchunks x) c).
Definition cfiled (bs : list cbin) (b : Z) (c : chunk) : list cbin :=
  file cnum (cbin_add c) (mkCBin b (fst c) 1 [c]) bs b.

Lemma cs_upd_bins_upd bs b c : cs_upd_bins bs b c = upd_bin cnum (cbin_add c) bs b.
Proof. induction bs as [|x t IH]; simpl; [reflexivity|]. rewrite IH. reflexivity. Qed.

Lemma cs_folds : folds cs_add cs_fold_add.
Proof. intros x [|r t]; reflexivity. Qed.

Definition cum_of (ix : cindex) : Z := match c_unm ix with Some u => u | None => 0 end.

Lemma cs_add_Ok ix r ix' :
  cs_add ix r = Ok ix' ->
  if q_placed r then
    let ref := nth (Z.to_nat (q_rid r)) (c_refs ix) cs_empty_ref in
    let c := (q_cb r, q_ce r) in
    0 <= q_rid r /\
    exists sorted, (c_sorted ix = false -> sorted = false) /\
      ix' = mkCsi (c_aux ix) (c_ver ix)
              (put cs_empty_ref (c_refs ix) (q_rid r)
                 (mkCRef (cfiled (cbins ref) (cs_reg2bin (q_start r) (q_end r) (c_ms ix) (c_dp ix)) c)
                         (Some (ix_upd_stats (cstats ref) c (q_mapped r)))))
              (Some (cum_of ix)) (c_ms ix) (c_dp ix) sorted (q_start r)
  else ix' = mkCsi (c_aux ix) (c_ver ix) (c_refs ix) (Some (cum_of ix + 1)) (c_ms ix) (c_dp ix) (c_sorted ix) (c_last ix).
Proof.
  unfold cs_add. intros H.
  destruct (negb _ || negb _); [discriminate|].
  destruct (q_placed r); cbn [negb] in H; cbv iota in H; [|injection H as <-; reflexivity].
  destruct (Z.ltb_spec (q_rid r) (zlen (c_refs ix) - 1)); [discriminate|].
  change cs_grow_refs with (grow cs_empty_ref) in H. rewrite grow_if in H.
  destruct (inb _ _) eqn:Ei; [|discriminate]. unfold chk in H.
  apply andb_true_iff in Ei. destruct Ei as (Ei & _). apply Z.leb_le in Ei.
  rewrite nth_grow, cs_upd_bins_upd in H.
  split; [assumption|].
  destruct (upd_bin _ _ _ _) eqn:Eb; destruct (_ <? _); try discriminate; injection H as <-;
    eexists; (split; [|unfold cfiled, file; rewrite Eb; reflexivity]); auto.
Qed.

Lemma cs_add_accepts ix r :
  cs_valid_pos (q_start r) (c_ms ix) (c_dp ix) = true -> cs_valid_pos (q_end r - 1) (c_ms ix) (c_dp ix) = true ->
  (q_placed r = true ->
     0 <= q_rid r /\ zlen (c_refs ix) - 1 <= q_rid r /\ (q_rid r < zlen (c_refs ix) -> c_last ix <= q_start r) /\
     0 <= q_start r) ->
  exists ix', cs_add ix r = Ok ix'.
Proof.
  intros V1 V2 Hp. unfold cs_add. rewrite V1, V2. cbn [negb orb].
  destruct (q_placed r); cbn [negb]; cbv iota; [|eexists; reflexivity]. destruct (Hp eq_refl) as (H0 & Hn & Hl & Hs).
  destruct (Z.ltb_spec (q_rid r) (zlen (c_refs ix) - 1)); [lia|].
  change cs_grow_refs with (grow cs_empty_ref).
  rewrite grow_if, inb_grow by assumption. unfold chk.
  assert (El : (q_start r <? (if q_rid r >=? zlen (c_refs ix) then 0 else c_last ix)) = false)
    by (destruct (q_rid r >=? zlen (c_refs ix)) eqn:E; lia).
  destruct (cs_upd_bins _ _ _); rewrite El; eexists; reflexivity.
Qed.

Lemma cs_fold_unsorted rs ix ix' : c_sorted ix = false -> cs_fold_add ix rs = Ok ix' -> c_sorted ix' = false.
Proof.
  refine (fold_keeps cs_add cs_fold_add (fun _ ix => c_sorted ix = false) cs_folds _ rs [] ix ix').
  clear. intros _ ix r ix' Hs H. apply cs_add_Ok in H. destruct (q_placed r); [|subst ix'; exact Hs].
  destruct H as (_ & sorted & Hf & ->). exact (Hf Hs).
Qed.

Definition cbin_bounded (lend : Z) (x : cbin) : Prop :=
  (forall c, In c (cchunks x) -> snd c <= lend) /\ cleft x <= lend.

Definition cref_bounded (lend : Z) (ref : cref) : Prop :=
  Forall (cbin_bounded lend) (cbins ref) /\ NoDup (map cnum (cbins ref)).

Lemma cbin_add_append lend c x :
  cbin_bounded lend x -> lend <= fst c ->
  cbin_add c x = mkCBin (cnum x) (cleft x) (crecords x + 1) (cchunks x ++ [c]).
Proof.
  intros (H & _) Hl. unfold cbin_add. rewrite ix_upd_chunks_append; [reflexivity|].
  intros ch Hc. specialize (H ch Hc). lia.
Qed.

Lemma cref_bounded_empty lend : cref_bounded lend cs_empty_ref.
Proof. repeat split; constructor. Qed.

Lemma cref_bounded_mono l1 l2 ref : l1 <= l2 -> cref_bounded l1 ref -> cref_bounded l2 ref.
Proof.
  intros H (A & B). split; [|exact B]. eapply Forall_impl; [|exact A].
  intros x (Hx & Hl). split; [|lia]. intros c Hc. specialize (Hx c Hc). lia.
Qed.

Section Scheme.
  Variables ms dp : Z.

  (** The record can be found again: its chunk lies inside a chunk of its bin,
      which the bin's [left] offset does not prune. *)
  Definition rec_in_cref (ref : cref) (R : irec) : Prop :=
    exists x, find_bin cnum (cbins ref) (cs_reg2bin (q_start R) (q_end R) ms dp) = Some x /\
              ix_covers (cchunks x) R /\ cleft x <= q_cb R.

  Record CInv (ix : cindex) (done : list irec) (lrid lstart lend : Z) : Prop := mkCInv {
    ci_ms : c_ms ix = ms; ci_dp : c_dp ix = dp;
    ci_len : zlen (c_refs ix) = lrid + 1;
    ci_last : c_last ix <= lstart;
    ci_unsorted : c_sorted ix = false;
    ci_refs : Forall (cref_bounded lend) (c_refs ix);
    ci_seen : seen cs_empty_ref rec_in_cref (c_refs ix) done
  }.

  Section CRefAdd.
    Variables (lend : Z) (ref : cref) (r : irec) (st : option istats).
    Let c : chunk := (q_cb r, q_ce r).
    Let b : Z := cs_reg2bin (q_start r) (q_end r) ms dp.
    Let ref' : cref := mkCRef (cfiled (cbins ref) b c) st.
    Hypothesis Hb : cref_bounded lend ref.
    Hypothesis Hl : lend <= q_cb r < q_ce r.

    Lemma cfiled_find n :
      find_bin cnum (cfiled (cbins ref) b c) n
      = if n =? b then Some (match find_bin cnum (cbins ref) b with
                             | Some x => mkCBin (cnum x) (cleft x) (crecords x + 1) (cchunks x ++ [c])
                             | None => mkCBin b (q_cb r) 1 [c]
                             end)
        else find_bin cnum (cbins ref) n.
    Proof.
      unfold cfiled. rewrite find_file by reflexivity. destruct (n =? b); [|reflexivity].
      destruct (find_bin cnum (cbins ref) b) as [x|] eqn:E; [|reflexivity].
      rewrite (cbin_add_append lend); [reflexivity| |apply Hl].
      destruct Hb as (B1 & _). rewrite Forall_forall in B1. apply B1. apply (find_bin_In _ _ _ _ E).
    Qed.

    Lemma cref_add_old R : rec_in_cref ref R -> rec_in_cref ref' R.
    Proof.
      intros (x & Hx & Hcov & Hleft). unfold rec_in_cref. simpl. rewrite cfiled_find.
      destruct (Z.eqb_spec (cs_reg2bin (q_start R) (q_end R) ms dp) b) as [E|E]; [|exists x; auto].
      rewrite <- E, Hx. eexists. split; [reflexivity|]. simpl. split; [|exact Hleft].
      eapply ix_covers_incl; [apply incl_appl, incl_refl|exact Hcov].
    Qed.

    Lemma cref_add_new : rec_in_cref ref' r.
    Proof.
      unfold rec_in_cref. simpl. fold b. rewrite cfiled_find, Z.eqb_refl. eexists. split; [reflexivity|].
      destruct (find_bin cnum (cbins ref) b) as [x|] eqn:E; simpl.
      - split; [exists c; split; [apply in_or_app; right; left; reflexivity|simpl; lia]|].
        destruct Hb as (B1 & _). rewrite Forall_forall in B1. destruct (B1 x (proj1 (find_bin_In _ _ _ _ E))). lia.
      - split; [exists c; split; [left; reflexivity|simpl; lia]|lia].
    Qed.

    Lemma cref_add_bounded : cref_bounded (q_ce r) ref'.
    Proof.
      destruct Hb as (B1 & B2). split; simpl; [|apply file_NoDup; auto].
      apply (file_Forall cnum _ _ _ (cbin_bounded lend) (cbin_bounded (q_ce r))); [exact B1| | |].
      - intros x (Hx & Hlf). split; [|lia]. intros ch Hch. specialize (Hx ch Hch). lia.
      - intros x Hx _. rewrite (cbin_add_append lend) by (assumption || apply Hl). destruct Hx as (Hx & Hlf).
        split; simpl; [|lia]. intros ch Hch. apply in_app_or in Hch. destruct Hch as [Hch|[<-|[]]]; [specialize (Hx ch Hch)|simpl]; lia.
      - split; simpl; [|lia]. intros ch [<-|[]]. simpl. lia.
    Qed.
  End CRefAdd.

  Lemma CInv_add ix done g r :
    (let '(a, b, c) := g in CInv ix done a b c) -> wf_at (cs_limit ms dp) g [r] ->
    exists ix', cs_add ix r = Ok ix' /\ let '(a, b, c) := ghost_step g r in CInv ix' (done ++ [r]) a b c.
  Proof.
    destruct g as [[lrid lstart] lend]. intros [Ims Idp Ilen Ilast Iuns Irefs Iseen] W.
    unfold ghost_step. cbn [wf_at ix_wf_from] in W. destruct (q_placed r) eqn:Hp.
    - destruct W as (W1 & W2 & W3 & W4 & W5 & W6 & _).
      destruct (cs_add_accepts ix r) as (ix' & E);
        [rewrite Ims, Idp; apply cs_valid_pos_iff; lia..|rewrite Hp; intros _; lia|].
      exists ix'. split; [exact E|]. apply cs_add_Ok in E. rewrite Hp, Ims, Idp in E. cbv zeta in E.
      set (ref := nth (Z.to_nat (q_rid r)) (c_refs ix) cs_empty_ref) in *.
      destruct E as (_ & sorted & Hs & ->).
      assert (Hb : cref_bounded lend ref) by (apply Forall_nth_d; [exact Irefs|apply cref_bounded_empty]).
      constructor; simpl; auto; try lia.
      + rewrite zlen_put. lia.
      + apply Forall_put; [|apply cref_bounded_empty|apply (cref_add_bounded lend); auto].
        eapply Forall_impl; [|exact Irefs]. intros a. apply cref_bounded_mono. lia.
      + apply seen_put; [exact Iseen|lia|intros R; apply (cref_add_old lend)|apply (cref_add_new lend)]; auto.
    - destruct W as (W1 & W2 & _).
      destruct (cs_add_accepts ix r) as (ix' & E); [rewrite Ims, Idp; apply cs_valid_pos_iff; lia..|congruence|].
      exists ix'. split; [exact E|]. apply cs_add_Ok in E. rewrite Hp in E. subst ix'.
      constructor; simpl; try assumption. apply seen_unplaced; assumption.
  Qed.

  Lemma csi_built aux ver rs :
    ix_wf_from (cs_limit ms dp) (-1) 0 0 rs ->
    exists ix a b c, cs_fold_add (mkCsi aux ver [] None ms dp false 0) rs = Ok ix /\ CInv ix rs a b c.
  Proof.
    intros W.
    assert (I0 : CInv (mkCsi aux ver [] None ms dp false 0) [] (-1) 0 0).
    { constructor; simpl; try reflexivity; try lia; try (intros ? []); constructor. }
    destruct (I_fold cs_add cs_fold_add (cs_limit ms dp) (fun ix done '(a, b, c) => CInv ix done a b c)
                cs_folds CInv_add rs _ [] (-1, 0, 0) I0 W) as (ix & F & I).
    destruct (fold_left _ _ _) as [[a b] c]. exists ix, a, b, c. auto.
  Qed.
End Scheme.
