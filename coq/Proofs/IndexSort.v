(** Lemmas about the sorting, searching and list helpers of Model/Index.v, and
    what the index cores (BAI/tabix, CSI) share: the list of references, the
    table of bins of a reference, the provided merge strategies. *)
From Coq Require Import ZArith Lia List Permutation Sorted.
From Hts Require Import Base.Prim Base.Bits Model.Index Model.IndexSpec.
Open Scope Z_scope.

Lemma nth_map_fix {A} (f : A -> A) d l i : f d = d -> nth i (map f l) d = f (nth i l d).
Proof. intros H. rewrite <- H at 1. apply map_nth. Qed.

Lemma Forall_nth_d {A} (P : A -> Prop) l d i : Forall P l -> P d -> P (nth i l d).
Proof. intros Hl Hd. destruct (nth_in_or_default i l d) as [H| ->]; [|exact Hd]. rewrite Forall_forall in Hl. auto. Qed.

Section Isort.
  Context {A : Type} (key : A -> Z).

  Lemma ix_ins_perm x l : Permutation (x :: l) (ix_ins key x l).
  Proof.
    induction l as [|y t IH]; simpl; [reflexivity|].
    destruct (key x <=? key y); [reflexivity|].
    rewrite perm_swap. constructor. exact IH.
  Qed.

  Lemma ix_isort_perm l : Permutation l (ix_isort key l).
  Proof.
    induction l as [|x t IH]; simpl; [constructor|].
    rewrite <- ix_ins_perm. constructor. exact IH.
  Qed.

  Lemma ix_isort_in x l : In x (ix_isort key l) <-> In x l.
  Proof.
    split; intro H.
    - eapply Permutation_in; [symmetry; apply ix_isort_perm|exact H].
    - eapply Permutation_in; [apply ix_isort_perm|exact H].
  Qed.

  Lemma ix_isort_length l : length (ix_isort key l) = length l.
  Proof. symmetry. apply Permutation_length, ix_isort_perm. Qed.

  Lemma ix_isort_NoDup l : NoDup (map key l) -> NoDup (map key (ix_isort key l)).
  Proof. apply Permutation_NoDup, Permutation_map, ix_isort_perm. Qed.

  Definition key_sorted (l : list A) : Prop := StronglySorted (fun a b => key a <= key b) l.

  Lemma ix_ins_sorted x l : key_sorted l -> key_sorted (ix_ins key x l).
  Proof.
    unfold key_sorted. induction l as [|y t IH]; simpl; intros Hs.
    - constructor; constructor.
    - destruct (key x <=? key y) eqn:E.
      + apply Z.leb_le in E. constructor; [exact Hs|].
        constructor; [exact E|]. inversion Hs as [|? ? _ Hall]; subst.
        eapply Forall_impl; [|exact Hall]. simpl; intros; lia.
      + apply Z.leb_gt in E. inversion Hs as [|? ? Hst Hall]; subst.
        constructor; [apply IH; exact Hst|].
        apply Forall_forall. intros z Hz.
        eapply Permutation_in in Hz; [|symmetry; apply ix_ins_perm].
        destruct Hz as [<-|Hz]; [lia|].
        rewrite Forall_forall in Hall. apply Hall; exact Hz.
  Qed.

  Lemma ix_isort_sorted l : key_sorted (ix_isort key l).
  Proof.
    induction l as [|x t IH]; simpl; [constructor|]. apply ix_ins_sorted; exact IH.
  Qed.

  Lemma ix_ins_sorted_id x l : key_sorted (x :: l) -> ix_ins key x l = x :: l.
  Proof.
    intros Hs. destruct l as [|y t]; simpl; [reflexivity|].
    inversion Hs as [|? ? _ Hall]; subst. inversion Hall; subst.
    destruct (key x <=? key y) eqn:E; [reflexivity|]. apply Z.leb_gt in E. lia.
  Qed.

  Lemma ix_isort_sorted_id l : key_sorted l -> ix_isort key l = l.
  Proof.
    induction l as [|x t IH]; simpl; intros Hs; [reflexivity|].
    inversion Hs; subst. rewrite IH by assumption. apply ix_ins_sorted_id; exact Hs.
  Qed.

  Lemma ix_isort_idem l : ix_isort key (ix_isort key l) = ix_isort key l.
  Proof. apply ix_isort_sorted_id, ix_isort_sorted. Qed.

  Lemma key_sorted_snoc l x : key_sorted l -> (forall y, In y l -> key y <= key x) -> key_sorted (l ++ [x]).
  Proof.
    unfold key_sorted. induction l as [|h t IH]; intros Hs Hb; simpl; [constructor; constructor|].
    inversion Hs as [|? ? Hst Hall]; subst. constructor.
    - apply IH; [exact Hst|]. intros y Hy. apply Hb. right; exact Hy.
    - apply Forall_app. split; [exact Hall|]. constructor; [|constructor]. apply Hb. left; reflexivity.
  Qed.

  Lemma Forall_isort (P : A -> Prop) l : Forall P l -> Forall P (ix_isort key l).
  Proof. rewrite !Forall_forall. intros H x Hx. apply H, ix_isort_in, Hx. Qed.
End Isort.

Lemma key_sorted_ext {A B} (ka : A -> Z) (kb : B -> Z) (a : list A) (b : list B) :
  map ka a = map kb b -> key_sorted ka a -> key_sorted kb b.
Proof.
  unfold key_sorted. revert b. induction a as [|x t IH]; intros [|y u] E H; try discriminate E; [constructor|].
  injection E as Ex Et. inversion H as [|? ? Hs Hall]; subst. constructor; [apply IH; assumption|].
  apply Forall_forall. intros z Hz. apply (in_map kb) in Hz. rewrite <- Et in Hz.
  apply in_map_iff in Hz. destruct Hz as (z0 & <- & Hin). rewrite Forall_forall in Hall. rewrite <- Ex. exact (Hall z0 Hin).
Qed.

Lemma key_sorted_map {A} (key : A -> Z) (f : A -> A) l :
  (forall x, key (f x) = key x) -> key_sorted key l -> key_sorted key (map f l).
Proof. intros H. apply key_sorted_ext. rewrite map_map. symmetry. apply map_ext, H. Qed.

Lemma key_sorted_begin cs : key_sorted fst cs -> ix_sorted_begin cs.
Proof.
  induction cs as [|c t IH]; intros H; simpl; [exact I|]. inversion H as [|? ? Hs Hall]; subst.
  split; [|apply IH; exact Hs]. intros d Hd. rewrite Forall_forall in Hall. apply Hall. exact Hd.
Qed.

Definition prefix_le (v : Z) (n : nat) (l : list Z) : Prop :=
  forall i, (i < n)%nat -> nth i l 0 <= v.

Lemma ix_ins_prefix v x l n :
  x <= v -> prefix_le v n l -> prefix_le v (S n) (ix_ins (fun z => z) x l).
Proof.
  revert n. induction l as [|y t IH]; intros n Hx Hp i Hi; simpl.
  - destruct i as [|i]; simpl; [exact Hx|]. specialize (Hp O ltac:(lia)). destruct i; exact Hp.
  - destruct (x <=? y) eqn:E.
    + destruct i as [|i]; simpl; [exact Hx|]. apply (Hp i). lia.
    + apply Z.leb_gt in E. destruct i as [|i]; simpl; [lia|].
      destruct n as [|n]; [lia|].
      apply (IH n); [exact Hx| |lia].
      intros k Hk. apply (Hp (S k)). lia.
Qed.

Lemma ix_isort_prefix v n l :
  (n <= length l)%nat -> prefix_le v n l -> prefix_le v n (ix_isort (fun z => z) l).
Proof.
  revert n. induction l as [|x t IH]; intros n Hn Hp; simpl.
  - intros i Hi. simpl in Hn. lia.
  - destruct n as [|n]; [intros i Hi; lia|].
    apply ix_ins_prefix.
    + apply (Hp O). lia.
    + apply IH; [simpl in Hn; lia|]. intros i Hi. apply (Hp (S i)). lia.
Qed.

Lemma ix_ins_zeros x k l :
  0 < x -> ix_ins (fun z => z) x (repeat 0 k ++ l) = repeat 0 k ++ ix_ins (fun z => z) x l.
Proof.
  intros Hx. induction k as [|k IH]; simpl; [reflexivity|].
  destruct (x <=? 0) eqn:E; [apply Z.leb_le in E; lia|]. rewrite IH. reflexivity.
Qed.

Lemma filter_zero_repeat l :
  filter (fun x => x =? 0) l = repeat 0 (length (filter (fun x => x =? 0) l)).
Proof.
  induction l as [|x t IH]; simpl; [reflexivity|].
  destruct (x =? 0) eqn:E; simpl; [|exact IH].
  apply Z.eqb_eq in E. subst. f_equal. exact IH.
Qed.

Lemma ix_sort_intv_nonneg l :
  forallb (fun x => 0 <=? x) l = true ->
  filter (fun x => x =? 0) l ++ ix_isort (fun x => x) (filter (fun x => negb (x =? 0)) l)
  = ix_isort (fun x => x) l.
Proof.
  induction l as [|x t IH]; simpl; intros H; [reflexivity|].
  apply andb_true_iff in H. destruct H as [Hx Ht]. apply Z.leb_le in Hx.
  specialize (IH Ht). destruct (x =? 0) eqn:E; simpl.
  - apply Z.eqb_eq in E. subst x. rewrite <- IH.
    destruct (filter (fun x => x =? 0) t ++ ix_isort (fun x => x) (filter (fun x => negb (x =? 0)) t)) as [|y r] eqn:El.
    + reflexivity.
    + simpl. destruct (0 <=? y) eqn:Ey; [reflexivity|].
      apply Z.leb_gt in Ey. exfalso.
      assert (Hin : In y (ix_isort (fun x => x) t)) by (rewrite <- IH; left; reflexivity).
      apply ix_isort_in in Hin. rewrite forallb_forall in Ht. apply Ht in Hin. apply Z.leb_le in Hin. lia.
  - apply Z.eqb_neq in E. rewrite <- IH.
    pose proof (filter_zero_repeat t) as Hz.
    set (k := length (filter (fun x => x =? 0) t)) in Hz. clearbody k.
    rewrite Hz. rewrite ix_ins_zeros by lia. reflexivity.
Qed.

Lemma ix_sort_intv_eq l : ix_sort_intv l = ix_isort (fun x => x) l.
Proof.
  unfold ix_sort_intv. destruct (forallb (fun x => 0 <=? x) l) eqn:E; [|reflexivity].
  apply ix_sort_intv_nonneg; exact E.
Qed.

Lemma ix_sort_sorted_id ix : isorted ix = true -> ix_sort ix = ix.
Proof. intros H. unfold ix_sort. rewrite H. reflexivity. Qed.

Lemma ix_sort_zlen ix : zlen (irefs (ix_sort ix)) = zlen (irefs ix).
Proof. unfold ix_sort. destruct (isorted ix); [reflexivity|]. simpl. unfold zlen. rewrite map_length. reflexivity. Qed.

Lemma ix_sort_unm ix : iunm (ix_sort ix) = iunm ix.
Proof. unfold ix_sort. destruct (isorted ix); reflexivity. Qed.

Lemma zlen_repeat {A} (x : A) n : zlen (repeat x n) = Z.of_nat n.
Proof. unfold zlen. rewrite repeat_length. reflexivity. Qed.

Lemma Forall_upd_nat {A} (P : A -> Prop) l i x : Forall P l -> P x -> Forall P (upd_nat l i x).
Proof.
  revert i; induction l as [|h t IH]; intros i Hl Hx; simpl; [constructor|].
  inversion Hl; subst. destruct i; constructor; auto.
Qed.

(** The list of references: [Add] extends it with empty entries up to the
    record's reference id ([grow] is [ix_grow_refs] / [cs_grow_refs] for any entry
    type) and then replaces the entry of that reference ([put]). *)
Section Refs.
  Context {A : Type} (d : A).

  Definition grow (l : list A) (i : Z) : list A := l ++ repeat d (Z.to_nat (i + 1 - zlen l)).
  Definition put (l : list A) (i : Z) (x : A) : list A := upd_nat (grow l i) (Z.to_nat i) x.

  Lemma grow_if l i : (if i >=? zlen l then grow l i else l) = grow l i.
  Proof.
    unfold grow. destruct (i >=? zlen l) eqn:E; [reflexivity|].
    replace (Z.to_nat (i + 1 - zlen l)) with O by lia. symmetry. apply app_nil_r.
  Qed.

  Lemma nth_grow l i k : nth k (grow l i) d = nth k l d.
  Proof.
    unfold grow. destruct (Nat.lt_ge_cases k (length l)) as [H|H]; [apply app_nth1; exact H|].
    rewrite app_nth2, (nth_overflow l) by exact H. apply nth_repeat.
  Qed.

  Lemma zlen_grow l i : zlen (grow l i) = Z.max (zlen l) (i + 1).
  Proof. unfold grow. rewrite zlen_app, zlen_repeat. lia. Qed.

  Lemma inb_grow l i : 0 <= i -> inb (grow l i) i = true.
  Proof. intros H. unfold inb. rewrite zlen_grow. apply andb_true_intro. split; [apply Z.leb_le|apply Z.ltb_lt]; lia. Qed.

  Lemma zlen_put l i x : zlen (put l i x) = Z.max (zlen l) (i + 1).
  Proof. unfold put, zlen. rewrite length_upd_nat. apply zlen_grow. Qed.

  Lemma nth_put l i x j :
    0 <= i -> 0 <= j -> nth (Z.to_nat j) (put l i x) d = if j =? i then x else nth (Z.to_nat j) l d.
  Proof.
    intros Hi Hj. unfold put. destruct (Z.eqb_spec j i) as [->|E].
    - apply nth_upd_nat_same. pose proof (zlen_grow l i). unfold zlen in *. lia.
    - rewrite nth_upd_nat_other by lia. apply nth_grow.
  Qed.

  Lemma Forall_put (P : A -> Prop) l i x : Forall P l -> P d -> P x -> Forall P (put l i x).
  Proof.
    intros Hl Hd Hx. apply Forall_upd_nat; [|exact Hx]. apply Forall_app. split; [exact Hl|].
    apply Forall_forall. intros y Hy. apply repeat_spec in Hy. subst. exact Hd.
  Qed.

  (** Every placed record added so far is found in the entry of its reference. *)
  Definition seen (found : A -> irec -> Prop) (l : list A) (done : list irec) : Prop :=
    forall R, In R done -> q_placed R = true -> 0 <= q_rid R < zlen l /\ found (nth (Z.to_nat (q_rid R)) l d) R.

  Lemma seen_put (found : A -> irec -> Prop) l done r x :
    seen found l done -> 0 <= q_rid r ->
    (forall R, found (nth (Z.to_nat (q_rid r)) l d) R -> found x R) -> found x r ->
    seen found (put l (q_rid r) x) (done ++ [r]).
  Proof.
    intros H H0 Hold Hnew R HR Hp. rewrite zlen_put. apply in_app_or in HR. destruct HR as [HR|[<-|[]]].
    - destruct (H R HR Hp) as (Hlt & Hf). split; [lia|]. rewrite nth_put by lia.
      destruct (Z.eqb_spec (q_rid R) (q_rid r)) as [E|_]; [apply Hold; rewrite <- E|]; exact Hf.
    - split; [lia|]. rewrite nth_put, Z.eqb_refl by lia. exact Hnew.
  Qed.

  Lemma seen_unplaced (found : A -> irec -> Prop) l done r : seen found l done -> q_placed r = false -> seen found l (done ++ [r]).
  Proof. intros H Hr R HR Hp. apply in_app_or in HR. destruct HR as [HR|[<-|[]]]; [auto|congruence]. Qed.

  Lemma seen_map (found : A -> irec -> Prop) (g : A -> A) l done :
    g d = d -> (forall i R, found (nth i l d) R -> found (g (nth i l d)) R) ->
    seen found l done -> seen found (map g l) done.
  Proof.
    intros Hd Hg H R HR Hp. destruct (H R HR Hp) as (Hlt & Hf). unfold zlen. rewrite map_length, nth_map_fix by exact Hd.
    split; [exact Hlt|apply Hg; exact Hf].
  Qed.
End Refs.

Section BinTable.
  Context {B : Type} (num : B -> Z).

  Fixpoint find_bin (bs : list B) (n : Z) : option B :=
    match bs with [] => None | x :: t => if num x =? n then Some x else find_bin t n end.

  (** The loop of [Add] over the bins ([ix_upd_bins], [cs_upd_bins]): [f] is
      applied to the first bin numbered [n]; a new bin goes to the end. *)
  Fixpoint upd_bin (f : B -> B) (bs : list B) (n : Z) : option (list B) :=
    match bs with
    | [] => None
    | x :: t => if num x =? n then Some (f x :: t)
                else match upd_bin f t n with Some t' => Some (x :: t') | None => None end
    end.

  Definition file (f : B -> B) (fresh : B) (bs : list B) (n : Z) : list B :=
    match upd_bin f bs n with Some bs' => bs' | None => bs ++ [fresh] end.

  Lemma find_bin_In bs n x : find_bin bs n = Some x -> In x bs /\ num x = n.
  Proof.
    induction bs as [|y t IH]; simpl; [discriminate|]. destruct (Z.eqb_spec (num y) n) as [E|E].
    - intros [= ->]. auto.
    - intros H. destruct (IH H). auto.
  Qed.

  Lemma find_bin_None bs n : find_bin bs n = None -> ~ In n (map num bs).
  Proof.
    induction bs as [|y t IH]; simpl; [tauto|]. destruct (Z.eqb_spec (num y) n); [discriminate|].
    intros H [E|Hin]; [contradiction|exact (IH H Hin)].
  Qed.

  Lemma find_bin_unique bs x : NoDup (map num bs) -> In x bs -> find_bin bs (num x) = Some x.
  Proof.
    induction bs as [|y t IH]; simpl; intros Hnd Hin; [destruct Hin|].
    inversion Hnd as [|? ? Hni Hnd']; subst. destruct Hin as [->|Hin].
    - rewrite Z.eqb_refl. reflexivity.
    - destruct (Z.eqb_spec (num y) (num x)) as [E|_]; [|exact (IH Hnd' Hin)].
      destruct Hni. rewrite E. apply in_map. exact Hin.
  Qed.

  Lemma find_bin_map (g : B -> B) bs n :
    (forall x, num (g x) = num x) -> find_bin (map g bs) n = option_map g (find_bin bs n).
  Proof.
    intros Hg. induction bs as [|y t IH]; simpl; [reflexivity|]. rewrite Hg. destruct (num y =? n); [reflexivity|exact IH].
  Qed.

  Lemma find_bin_isort bs n : NoDup (map num bs) -> find_bin (ix_isort num bs) n = find_bin bs n.
  Proof.
    intros Hnd. destruct (find_bin bs n) as [x|] eqn:E.
    - destruct (find_bin_In _ _ _ E) as (Hin & <-).
      apply find_bin_unique; [apply ix_isort_NoDup; exact Hnd|apply ix_isort_in; exact Hin].
    - destruct (find_bin (ix_isort num bs) n) as [y|] eqn:E'; [|reflexivity].
      destruct (find_bin_In _ _ _ E') as (Hin & <-). destruct (find_bin_None _ _ E).
      apply in_map, ix_isort_in with (key := num), Hin.
  Qed.

  Lemma upd_bin_found f bs n : upd_bin f bs n = None <-> find_bin bs n = None.
  Proof.
    induction bs as [|y t IH]; simpl; [tauto|]. destruct (num y =? n); [split; discriminate|].
    destruct (upd_bin f t n); [split; [discriminate|]; intros H; apply IH in H; discriminate|tauto].
  Qed.

  Section File.
    Variables (f : B -> B) (fresh : B) (b : Z).
    Hypothesis num_f : forall x, num (f x) = num x.
    Hypothesis num_fresh : num fresh = b.

    Lemma find_file bs n :
      find_bin (file f fresh bs b) n
      = if n =? b then Some (match find_bin bs b with Some x => f x | None => fresh end) else find_bin bs n.
    Proof.
      unfold file. induction bs as [|y t IH]; simpl.
      - rewrite num_fresh, (Z.eqb_sym b n). reflexivity.
      - destruct (Z.eqb_spec (num y) b) as [E|E]; simpl.
        + rewrite num_f, E, (Z.eqb_sym b n). destruct (n =? b); reflexivity.
        + destruct (upd_bin f t b); simpl in *; rewrite IH; destruct (Z.eqb_spec (num y) n), (Z.eqb_spec n b); congruence.
    Qed.

    Lemma file_nums bs :
      map num (file f fresh bs b) = map num bs ++ match find_bin bs b with Some _ => [] | None => [b] end.
    Proof.
      unfold file. induction bs as [|y t IH]; simpl; [rewrite num_fresh; reflexivity|].
      destruct (num y =? b); simpl; [rewrite num_f, app_nil_r; reflexivity|].
      destruct (upd_bin f t b); simpl in *; rewrite IH; reflexivity.
    Qed.

    Lemma file_NoDup bs : NoDup (map num bs) -> NoDup (map num (file f fresh bs b)).
    Proof.
      intros H. rewrite file_nums. destruct (find_bin bs b) eqn:E; [rewrite app_nil_r; exact H|].
      apply Permutation_NoDup with (l := b :: map num bs); [apply Permutation_cons_append|].
      constructor; [apply find_bin_None; exact E|exact H].
    Qed.

    Lemma file_Forall (P Q : B -> Prop) bs :
      Forall P bs -> (forall x, P x -> Q x) -> (forall x, P x -> num x = b -> Q (f x)) -> Q fresh ->
      Forall Q (file f fresh bs b).
    Proof.
      intros H HPQ Hf Hfresh. unfold file. induction H as [|y t Hy Ht IH]; simpl; [repeat constructor; exact Hfresh|].
      assert (Ht' : Forall Q t) by (eapply Forall_impl; [exact HPQ|exact Ht]).
      destruct (Z.eqb_spec (num y) b) as [E|E]; [constructor; auto|].
      destruct (upd_bin f t b); simpl in *; constructor; auto.
    Qed.
  End File.
End BinTable.

Section Search.
  Context {B : Type} (key : B -> Z) (d : B).

  Lemma sorted_nth_le l : key_sorted key l ->
    forall i j, (i <= j)%nat -> (j < length l)%nat -> key (nth i l d) <= key (nth j l d).
  Proof.
    induction l as [|x t IH]; intros Hs i j Hij Hj; [simpl in Hj; lia|].
    inversion Hs as [|? ? Hst Hall]; subst. destruct i as [|i]; destruct j as [|j]; simpl; try lia.
    - rewrite Forall_forall in Hall. apply Hall. apply nth_In. simpl in Hj. lia.
    - apply IH; [exact Hst|lia|simpl in Hj; lia].
  Qed.

  Lemma nodup_nth_inj l : NoDup (map key l) ->
    forall i j, (i < length l)%nat -> (j < length l)%nat -> key (nth i l d) = key (nth j l d) -> i = j.
  Proof.
    intros Hnd i j Hi Hj E.
    apply (proj1 (NoDup_nth (map key l) (key d)) Hnd i j); try (rewrite map_length; assumption).
    rewrite !(map_nth key). exact E.
  Qed.

  Lemma bs_go_finds l b p : key_sorted key l -> NoDup (map key l) ->
    (p < length l)%nat -> key (nth p l d) = b ->
    forall fuel i j, 0 <= i <= Z.of_nat p -> Z.of_nat p <= j <= zlen l -> j - i <= Z.of_nat fuel ->
      ix_bs_go key d l b fuel i j = Z.of_nat p.
  Proof.
    intros Hs Hnd Hp Hb. induction fuel as [|f IH]; intros i j Hi Hj Hf; simpl.
    - lia.
    - destruct (i <? j) eqn:E; [|lia]. apply Z.ltb_lt in E.
      rewrite Z.shiftr_div_pow2 by lia. change (2 ^ 1) with 2.
      set (h := (i + j) / 2). assert (Hh : i <= h < j) by (unfold h; split; [apply Z.div_le_lower_bound|apply Z.div_lt_upper_bound]; lia).
      assert (Hhl : (Z.to_nat h < length l)%nat) by (unfold zlen in Hj; lia).
      destruct (key (nth (Z.to_nat h) l d) >=? b) eqn:E2.
      + assert (Z.of_nat p <= h).
        { destruct (Z.le_gt_cases (Z.of_nat p) h) as [H|H]; [exact H|]. exfalso.
          pose proof (sorted_nth_le l Hs (Z.to_nat h) p ltac:(lia) Hp) as Hle.
          assert (key (nth (Z.to_nat h) l d) = key (nth p l d)) by lia.
          apply nodup_nth_inj in H0; try assumption. lia. }
        apply IH; lia.
      + assert (h < Z.of_nat p).
        { destruct (Z.lt_ge_cases h (Z.of_nat p)) as [H|H]; [exact H|]. exfalso.
          pose proof (sorted_nth_le l Hs p (Z.to_nat h) ltac:(lia) Hhl) as Hle. lia. }
        apply IH; lia.
  Qed.

  Lemma bsearch_finds l x : key_sorted key l -> NoDup (map key l) -> In x l ->
    exists p, (p < length l)%nat /\ nth p l d = x /\ ix_bsearch key d l (key x) = Z.of_nat p.
  Proof.
    intros Hs Hnd Hin. destruct (In_nth l x d Hin) as (p & Hp & Hx). exists p. split; [exact Hp|]. split; [exact Hx|].
    unfold ix_bsearch. apply (bs_go_finds l (key x) p Hs Hnd Hp); [rewrite Hx; reflexivity| | |]; unfold zlen; lia.
  Qed.

  (** [ix_search] / [cs_search]: the search followed by the test of the number found. *)
  Lemma search_found l n x : key_sorted key l -> NoDup (map key l) -> find_bin key l n = Some x ->
    (let c := ix_bsearch key d l n in
     if c <? zlen l then let y := nth (Z.to_nat c) l d in if key y =? n then Some y else None else None) = Some x.
  Proof.
    intros Hs Hnd Hf. destruct (find_bin_In key _ _ _ Hf) as (Hin & <-).
    destruct (bsearch_finds l x Hs Hnd Hin) as (p & Hp & Hx & Hb).
    cbv zeta. rewrite Hb. destruct (Z.of_nat p <? zlen l) eqn:E; [|unfold zlen in E; lia].
    rewrite Nat2Z.id, Hx, Z.eqb_refl. reflexivity.
  Qed.

  (** Nothing in the search looks beyond the keys. *)
  Lemma search_map (f : B -> B) l b :
    (forall x, key (f x) = key x) -> f d = d ->
    (let c := ix_bsearch key d (map f l) b in
     if c <? zlen (map f l) then let y := nth (Z.to_nat c) (map f l) d in if key y =? b then Some y else None else None)
    = option_map f (let c := ix_bsearch key d l b in
                    if c <? zlen l then let y := nth (Z.to_nat c) l d in if key y =? b then Some y else None else None).
  Proof.
    intros Hk Hd. cbv zeta. unfold ix_bsearch, zlen. rewrite map_length.
    assert (E : forall fuel i j, ix_bs_go key d (map f l) b fuel i j = ix_bs_go key d l b fuel i j).
    { induction fuel as [|fu IH]; intros i j; simpl; [reflexivity|].
      destruct (i <? j); [|reflexivity]. rewrite (nth_map_fix f) by exact Hd. rewrite Hk.
      destruct (key (nth (Z.to_nat (Z.shiftr (i + j) 1)) l d) >=? b); apply IH. }
    rewrite E. destruct (_ <? _); [|reflexivity]. rewrite (nth_map_fix f), Hk by exact Hd.
    destruct (_ =? b); reflexivity.
  Qed.
End Search.

Lemma ix_search_found bs n x :
  key_sorted bnum bs -> NoDup (map bnum bs) -> find_bin bnum bs n = Some x -> ix_search bs n = Some x.
Proof. exact (search_found bnum (mkBin 0 []) bs n x). Qed.

Lemma ix_covers_incl cs cs' R : incl cs cs' -> ix_covers cs R -> ix_covers cs' R.
Proof. intros H (c & Hc & Hcov). exists c. split; [apply H; exact Hc|exact Hcov]. Qed.

(** A left-to-right merge: [go cur rest] either absorbs the next chunk into
    [cur] (keeping its begin, taking the larger end) or emits [cur]. *)
Section MergeGo.
  Variables (cond : chunk -> chunk -> bool) (go : chunk -> list chunk -> list chunk).
  Hypothesis go_nil : forall cur, go cur [] = [cur].
  Hypothesis go_cons : forall cur r t,
    go cur (r :: t) = if cond cur r then go (fst cur, if snd cur >? snd r then snd cur else snd r) t
                      else cur :: go r t.

  Lemma go_covers rest : forall cur,
    (forall d, In d rest -> fst cur <= fst d) -> ix_sorted_begin rest ->
    forall c, c = cur \/ In c rest ->
      exists c', In c' (go cur rest) /\ fst c' <= fst c /\ snd c <= snd c'.
  Proof.
    induction rest as [|r t IH]; intros cur Hle Hs c Hc.
    - rewrite go_nil. destruct Hc as [->|[]]. exists cur. split; [left; reflexivity|lia].
    - rewrite go_cons. destruct Hs as (Hr & Hs). destruct (cond cur r).
      + set (cur' := (fst cur, if snd cur >? snd r then snd cur else snd r)).
        assert (Hsnd : snd cur <= snd cur' /\ snd r <= snd cur') by (simpl; destruct (snd cur >? snd r) eqn:E; lia).
        assert (Hr0 : fst cur <= fst r) by (apply Hle; left; reflexivity).
        pose proof (IH cur' (fun d Hd => Hle d (or_intror Hd)) Hs) as IH'.
        destruct Hc as [->|[->|Hc]]; [| |exact (IH' c (or_intror Hc))];
          destruct (IH' cur' (or_introl eq_refl)) as (c' & H1 & H2 & H3); exists c'; simpl in *; (split; [exact H1|lia]).
      + destruct Hc as [->|Hc].
        * exists cur. split; [left; reflexivity|lia].
        * destruct (IH r Hr Hs c) as (c' & H1 & H2).
          { destruct Hc as [->|Hc]; auto. }
          exists c'. split; [right; exact H1|exact H2].
  Qed.

  Lemma merge_go_covers : ix_strategy_covers (fun l => match l with [] => [] | c :: t => go c t end).
  Proof.
    intros [|c0 t] c Hs Hc; [destruct Hc|]. destruct Hs as (H0 & Hs).
    apply (go_covers t c0 H0 Hs c). destruct Hc as [->|Hc]; auto.
  Qed.
End MergeGo.

Theorem adjacent_covers : ix_strategy_covers ix_adjacent.
Proof. exact (merge_go_covers _ ix_adj_go (fun _ => eq_refl) (fun _ _ _ => eq_refl)). Qed.

Theorem compressor_covers near : ix_strategy_covers (ix_compressor near).
Proof. exact (merge_go_covers _ (ix_comp_go near) (fun _ => eq_refl) (fun _ _ _ => eq_refl)). Qed.

Theorem identity_covers : ix_strategy_covers (fun l => l).
Proof. intros cs c _ Hc. exists c. split; [exact Hc|lia]. Qed.

Lemma fold_max_ge t : forall init,
  init <= fold_left (fun r x => if snd x >? r then snd x else r) t init /\
  forall c : chunk, In c t -> snd c <= fold_left (fun r x => if snd x >? r then snd x else r) t init.
Proof.
  induction t as [|x t IH]; intros init; simpl; [split; [lia|intros ? []]|].
  destruct (IH (if snd x >? init then snd x else init)) as (A & B).
  split; [destruct (snd x >? init) eqn:E; lia|].
  intros c [->|Hc]; [destruct (snd c >? init) eqn:E; lia|apply B; exact Hc].
Qed.

Theorem squash_covers : ix_strategy_covers ix_squash.
Proof.
  intros cs c Hs Hc. destruct cs as [|c0 t]; [destruct Hc|]. simpl in Hs. destruct Hs as (H0 & _).
  simpl. eexists. split; [left; reflexivity|]. simpl. destruct (fold_max_ge t (snd c0)) as (A & B).
  destruct Hc as [->|Hc]; [lia|]. split; [apply H0; exact Hc|apply B; exact Hc].
Qed.
