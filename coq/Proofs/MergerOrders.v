(** C18 — comparisons.  A binary heap needs a comparison that lies between a
    total preorder and its strict part; bySortOrderAndID.Less inherits that
    from the less function.  Both queues — the transcribed container/heap and
    the reference queue — then meet the whole contract.  The comparison
    functions of sam/record.go (and the custom ones of the harness) are such
    comparisons. *)
From Coq Require Import ZArith List Bool Lia Permutation.
From Hts Require Import Base.Prim Model.Merger Proofs.Merger Proofs.MergerTop Proofs.MergerHeap.
Import ListNotations.
Open Scope Z_scope.

(** [less] is compatible with the preorder [le]: it answers true only when
    a <= b and false only when b <= a (so it contains the strict part). *)
Definition less_compat (le : rec -> rec -> Prop) (less : rec -> rec -> bool) : Prop :=
  (forall a b, less a b = true -> le a b) /\ (forall a b, less a b = false -> le b a).

Section Compat.
  Variable le : rec -> rec -> Prop.
  Variable less : rec -> rec -> bool.
  Hypothesis le_trans : forall a b c, le a b -> le b c -> le a c.
  Hypothesis HC : less_compat le less.

  Lemma rless_compat : forall a b c, rless less a b = Ok c ->
      if c then leR le a b else leR le b a.
  Proof.
    intros a b c H. unfold rless in H. unfold leR.
    destruct (d_head a) as [x |]; [| discriminate]. destruct (d_head b) as [y |]; [| discriminate].
    inversion H; subst. destruct HC as [H1 H2].
    destruct (less x y) eqn:E1; [now apply H1 |].
    destruct (d_id a <? d_id b); simpl.
    - destruct (less y x) eqn:E2; simpl; [now apply H1 | now apply H2].
    - now apply H2.
  Qed.

  Lemma leR_trans : forall a b c, d_head b <> None -> leR le a b -> leR le b c -> leR le a c.
  Proof.
    intros a b c Hb. unfold leR.
    destruct (d_head a); [| auto]. destruct (d_head b); [| contradiction].
    destruct (d_head c); [| auto]. apply le_trans.
  Qed.

  Definition heap_wf : list rdr -> Prop := heap rdr0 (leR le) (fun r => d_head r <> None).

  Lemma goheap_min_spec :
      pq_spec (rless less) (pq_init_of goheap (rless less)) (pq_push_of goheap (rless less))
              (pq_pop_of goheap (rless less)) heap_wf (fun x q' => Forall (leR le x) q').
  Proof.
    pose proof (fun a b H => rless_compat a b true H) as CT.
    pose proof (fun a b H => rless_compat a b false H) as CF.
    simpl. constructor.
    - apply hinit_bag.
    - apply hpush_bag.
    - apply hpop_bag.
    - apply hinit_ok.
    - apply hpush_ok.
    - apply hpop_ok.
    - intros l l' Ht. apply (hinit_heap rdr0 _ _ _ leR_trans CT CF). now apply (total_heads less).
    - intros q x q' Hw Ht. apply (hpush_heap rdr0 _ _ _ leR_trans CT CF); auto.
      apply (total_heads less) in Ht. now inversion Ht.
    - apply (hpop_heap rdr0 _ _ _ leR_trans CT CF).
  Qed.

  Lemma lp_min_ok : forall l m acc,
      has_heads (m :: acc ++ l) -> exists x q', lp_min (rless less) m acc l = Ok (x, q').
  Proof.
    induction l as [| y t IH]; intros m acc Hok; simpl; [eauto |].
    assert (Hok' : has_heads (y :: m :: acc ++ t)).
    { eapply Permutation_Forall; [| exact Hok]. apply Permutation_sym, (Permutation_middle (m :: acc)). }
    destruct (heads_total less _ Hok' y m) as [[] Hc]; [now left | right; now left | |]; rewrite Hc; simpl.
    - apply (IH y (m :: acc)). exact Hok'.
    - apply (IH m (y :: acc)). eapply Permutation_Forall; [apply perm_swap | exact Hok'].
  Qed.

  (** [lp_min m acc l] selects a minimum of [m :: l]; [acc] collects the rest *)
  Lemma lp_min_sound : forall l m acc x q',
      lp_min (rless less) m acc l = Ok (x, q') ->
      Permutation (m :: acc ++ l) (x :: q') /\ (Forall (leR le m) acc -> Forall (leR le x) q').
  Proof.
    induction l as [| y t IH]; intros m acc x q' H; simpl in H.
    - inversion H; subst. rewrite app_nil_r. auto.
    - destruct (rless less y m) as [c | | |] eqn:Hc; simpl in H; try discriminate.
      pose proof (rless_compat _ _ _ Hc) as Hle. apply rless_heads in Hc. destruct Hc as [_ Hm].
      destruct c; apply IH in H; destruct H as [HP HF]; split.
      + eapply Permutation_trans; [| exact HP]. apply Permutation_sym, (Permutation_middle (m :: acc)).
      + intros Hacc. apply HF. constructor; [exact Hle |].
        eapply Forall_impl; [| exact Hacc]. intros a. now apply leR_trans.
      + eapply Permutation_trans; [| exact HP]. constructor. apply Permutation_sym, Permutation_middle.
      + intros Hacc. apply HF. now constructor.
  Qed.

  Lemma listpq_spec :
      pq_spec (rless less) (pq_init_of listpq (rless less)) (pq_push_of listpq (rless less))
              (pq_pop_of listpq (rless less)) (cmp_total (rless less)) (fun x q' => Forall (leR le x) q').
  Proof.
    simpl. constructor.
    - intros l l' H. inversion H; subst. apply Permutation_refl.
    - intros q x q' H. inversion H; subst. apply Permutation_cons_append.
    - intros [| m t] x q' H; [discriminate |]. now apply lp_min_sound in H.
    - intros l _. eexists; reflexivity.
    - intros q x _. eexists; reflexivity.
    - intros [| m t] Hne Ht; [contradiction |]. apply (lp_min_ok t m []). now apply (total_heads less).
    - intros l l' Ht H. inversion H; subst. exact Ht.
    - intros q x q' _ Ht H. inversion H; subst.
      apply heads_total. eapply Permutation_Forall; [apply Permutation_cons_append | now apply (total_heads less)].
    - intros [| m t] x q' Ht H; [discriminate |]. apply lp_min_sound in H. destruct H as [HP HF].
      split; [| now apply HF].
      apply heads_total. apply (total_heads less) in Ht.
      assert (Hx : has_heads (x :: q')) by (eapply Permutation_Forall; eauto). now inversion Hx.
  Qed.
End Compat.

Lemma str_ltb_asym : forall a b, str_ltb a b = true -> str_ltb b a = false.
Proof.
  induction a as [| x a IH]; intros [| y b] H; simpl in *; try congruence.
  destruct (Z.ltb_spec x y), (Z.ltb_spec y x); auto; lia || discriminate.
Qed.

Lemma str_nlt_trans : forall a b c, str_ltb b a = false -> str_ltb c b = false -> str_ltb c a = false.
Proof.
  induction a as [| x a IH]; intros [| y b] [| z c] H1 H2; simpl in *; try congruence.
  destruct (Z.ltb_spec y x); [discriminate |]. destruct (Z.ltb_spec z y); [discriminate |].
  destruct (Z.ltb_spec z x); [lia |]. destruct (Z.ltb_spec x z); [reflexivity |].
  destruct (Z.ltb_spec x y); [lia |]. destruct (Z.ltb_spec y z); [lia | eauto].
Qed.

(** query-name order: Name, bytewise *)
Definition le_name (a b : rec) : Prop := str_ltb (r_name b) (r_name a) = false.

Lemma le_name_trans : forall a b c, le_name a b -> le_name b c -> le_name a c.
Proof. unfold le_name. intros a b c H1 H2. eapply str_nlt_trans; eauto. Qed.

Lemma less_by_name_compat : less_compat le_name less_by_name.
Proof.
  unfold less_compat, le_name, less_by_name. split; intros a b H; [now apply str_ltb_asym | exact H].
Qed.

(** coordinate order: reference order of the header the records are linked
    to (the merged header, after re-linking), then position; no reference last *)
Definition coord_leb (a b : rec) : bool :=
  if r_ref b <? 0 then true
  else if r_ref a <? 0 then false
  else (r_ref a <? r_ref b) || ((r_ref a =? r_ref b) && (r_pos a <=? r_pos b)).
Definition le_coord (a b : rec) : Prop := coord_leb a b = true.

Lemma coord_leb_iff : forall a b,
    coord_leb a b = true <->
    r_ref b < 0 \/ 0 <= r_ref a /\ (r_ref a < r_ref b \/ r_ref a = r_ref b /\ r_pos a <= r_pos b).
Proof.
  intros a b. unfold coord_leb.
  destruct (Z.ltb_spec (r_ref b) 0); [split; auto |].
  destruct (Z.ltb_spec (r_ref a) 0); [split; [discriminate | lia] |].
  rewrite orb_true_iff, andb_true_iff, Z.ltb_lt, Z.eqb_eq, Z.leb_le. lia.
Qed.

Lemma less_by_coordinate_iff : forall a b,
    less_by_coordinate a b = true <->
    r_ref b < 0 \/ 0 <= r_ref a /\ (r_ref a < r_ref b \/ r_ref a = r_ref b /\ r_pos a < r_pos b).
Proof.
  intros a b. unfold less_by_coordinate. cbv zeta.
  destruct (Z.ltb_spec (r_ref b) 0); [split; auto |].
  destruct (Z.ltb_spec (r_ref a) 0); [split; [discriminate | lia] |].
  rewrite orb_true_iff, andb_true_iff, !Z.ltb_lt, Z.eqb_eq. lia.
Qed.

Lemma le_coord_trans : forall a b c, le_coord a b -> le_coord b c -> le_coord a c.
Proof. unfold le_coord. intros a b c. rewrite !coord_leb_iff. lia. Qed.

Lemma less_by_coordinate_compat : less_compat le_coord less_by_coordinate.
Proof.
  split; intros a b H; unfold le_coord; rewrite coord_leb_iff.
  - apply less_by_coordinate_iff in H. lia.
  - rewrite <- not_true_iff_false, less_by_coordinate_iff in H. lia.
Qed.

Definition le_custom (code : Z) (a b : rec) : Prop :=
  if code =? 1 then r_pos a <= r_pos b
  else if code =? 2 then r_pos b <= r_pos a
  else if code =? 3 then r_key a <= r_key b
  else if code =? 4 then r_pos a <= r_pos b
  else True.

Lemma le_custom_trans : forall code a b c, le_custom code a b -> le_custom code b c -> le_custom code a c.
Proof.
  unfold le_custom. intros code a b c.
  destruct (code =? 1); [lia |]. destruct (code =? 2); [lia |]. destruct (code =? 3); [lia |].
  destruct (code =? 4); [lia | auto].
Qed.

Lemma custom_less_compat : forall code less, custom_less code = Some less -> less_compat (le_custom code) less.
Proof.
  unfold custom_less, less_compat, le_custom. intros code less H.
  destruct (code =? 1); [inversion H; subst; split; intros; lia |].
  destruct (code =? 2); [inversion H; subst; split; intros; lia |].
  destruct (code =? 3); [inversion H; subst; split; intros; lia |].
  destruct (code =? 4); [inversion H; subst; split; intros; lia |].
  destruct (code =? 5); [inversion H; subst; split; intros; exact I | discriminate].
Qed.
