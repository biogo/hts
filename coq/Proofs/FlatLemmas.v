(** Facts about files, the flat data and the translation of offsets. *)
From Coq Require Import ZArith List Bool Lia.
From Hts Require Import Base.Prim Model.Flat.
Import ListNotations.
Open Scope Z_scope.

Lemma zlen_nonneg {A} (l : list A) : 0 <= zlen l.
Proof. unfold zlen. lia. Qed.

Lemma zlen_nil {A} : zlen (@nil A) = 0.
Proof. reflexivity. Qed.

Lemma zlen_app {A} (a b : list A) : zlen (a ++ b) = zlen a + zlen b.
Proof. unfold zlen. rewrite app_length. lia. Qed.

Lemma ztake_zlen {A} (k : Z) (l : list A) : 0 <= k <= zlen l -> zlen (ztake k l) = k.
Proof.
  intros H. unfold ztake, zlen in *. rewrite firstn_length. lia.
Qed.

Lemma ztake_all {A} (k : Z) (l : list A) : zlen l <= k -> ztake k l = l.
Proof. intros H. unfold ztake, zlen in *. apply firstn_all2. lia. Qed.

Lemma ztake_0 {A} (l : list A) : ztake 0 l = [].
Proof. reflexivity. Qed.

Lemma ztake_neg {A} (k : Z) (l : list A) : k <= 0 -> ztake k l = [].
Proof. intros. unfold ztake. replace (Z.to_nat k) with O by lia. reflexivity. Qed.

Lemma zdrop_0 {A} (l : list A) : zdrop 0 l = l.
Proof. reflexivity. Qed.

Lemma zdrop_neg {A} (k : Z) (l : list A) : k <= 0 -> zdrop k l = l.
Proof. intros. unfold zdrop. replace (Z.to_nat k) with O by lia. reflexivity. Qed.

Lemma zdrop_all {A} (k : Z) (l : list A) : zlen l <= k -> zdrop k l = [].
Proof. intros H. unfold zdrop, zlen in *. apply skipn_all2. lia. Qed.

Lemma zlen_zdrop {A} (k : Z) (l : list A) : 0 <= k <= zlen l -> zlen (zdrop k l) = zlen l - k.
Proof. intros H. unfold zdrop, zlen in *. rewrite skipn_length. lia. Qed.

Lemma ztake_app {A} (k : Z) (a b : list A) : ztake k (a ++ b) = ztake k a ++ ztake (k - zlen a) b.
Proof. unfold ztake, zlen. rewrite firstn_app. do 2 f_equal. lia. Qed.

Lemma zdrop_app {A} (k : Z) (a b : list A) : zdrop k (a ++ b) = zdrop k a ++ zdrop (k - zlen a) b.
Proof. unfold zdrop, zlen. rewrite skipn_app. do 2 f_equal. lia. Qed.

Lemma ztake_app_le {A} (k : Z) (a b : list A) : k <= zlen a -> ztake k (a ++ b) = ztake k a.
Proof. intros H. rewrite ztake_app, (ztake_neg (k - zlen a)) by lia. apply app_nil_r. Qed.

Lemma skipn_skipn' {A} (x y : nat) (l : list A) : skipn x (skipn y l) = skipn (x + y) l.
Proof.
  revert l. induction y as [|y IH]; intros l.
  - rewrite Nat.add_0_r. reflexivity.
  - destruct l; simpl.
    + rewrite !skipn_nil. reflexivity.
    + rewrite IH. replace (x + S y)%nat with (S (x + y)) by lia. reflexivity.
Qed.

Lemma ztake_zdrop_split {A} (p k : Z) (l : list A) :
  0 <= p -> 0 <= k -> ztake k (zdrop p l) ++ zdrop (p + k) l = zdrop p l.
Proof.
  intros Hp Hk. unfold ztake, zdrop.
  replace (Z.to_nat (p + k)) with (Z.to_nat k + Z.to_nat p)%nat by lia.
  rewrite <- skipn_skipn'. apply firstn_skipn.
Qed.

Lemma zdrop_zdrop {A} (p k : Z) (l : list A) : 0 <= p -> 0 <= k -> zdrop k (zdrop p l) = zdrop (p + k) l.
Proof.
  intros. unfold zdrop. rewrite skipn_skipn'. f_equal. lia.
Qed.

Lemma ztake_ztake_app {A} (a b : Z) (l : list A) :
  0 <= a -> 0 <= b -> ztake a l ++ ztake b (zdrop a l) = ztake (a + b) l.
Proof.
  intros Ha Hb. unfold ztake, zdrop.
  replace (Z.to_nat (a + b)) with (Z.to_nat a + Z.to_nat b)%nat by lia.
  revert l. induction (Z.to_nat a) as [|n IH]; intros l; simpl; [reflexivity|].
  destruct l; simpl; [rewrite firstn_nil; reflexivity|]. f_equal. apply IH.
Qed.

Lemma ztake_nil {A} (k : Z) : ztake k (@nil A) = [].
Proof. apply firstn_nil. Qed.

Lemma ztake_min {A} (n : Z) (l : list A) : ztake (Z.min n (zlen l)) l = ztake n l.
Proof.
  destruct (Z.le_ge_cases n (zlen l)); [rewrite Z.min_l by lia; reflexivity|].
  rewrite Z.min_r, !ztake_all by lia. reflexivity.
Qed.

Lemma ztake_split {A} (r k : Z) (d t : list A) :
  0 <= k <= r -> k <= zlen d -> ztake r (d ++ t) = ztake k d ++ ztake (r - k) (zdrop k d ++ t).
Proof.
  intros Hk Hd. replace r with (k + (r - k)) at 1 by lia.
  rewrite <- ztake_ztake_app, zdrop_app, (zdrop_neg (k - zlen d)), ztake_app_le by lia. reflexivity.
Qed.

Lemma flat_data_app (a b : file) : flat_data (a ++ b) = flat_data a ++ flat_data b.
Proof. unfold flat_data. rewrite map_app, concat_app. reflexivity. Qed.

Lemma flat_data_cons (m : member) (F : file) : flat_data (m :: F) = m_data m ++ flat_data F.
Proof. reflexivity. Qed.

Lemma total_app (a b : file) : total (a ++ b) = total a + total b.
Proof. unfold total. rewrite flat_data_app, zlen_app. reflexivity. Qed.

Lemma total_cons (m : member) (F : file) : total (m :: F) = m_len m + total F.
Proof. unfold total, m_len. rewrite flat_data_cons, zlen_app. reflexivity. Qed.

Lemma total_nil : total [] = 0.
Proof. reflexivity. Qed.

Lemma total_nonneg (F : file) : 0 <= total F.
Proof. apply zlen_nonneg. Qed.

Lemma m_len_nonneg (m : member) : 0 <= m_len m.
Proof. apply zlen_nonneg. Qed.

Lemma wf_from_cons (b : Z) (m : member) (F : file) :
  wf_from b (m :: F) = true <->
  m_base m = b /\ 0 < m_size m /\ m_len m <= 65536 /\ wf_from (b + m_size m) F = true.
Proof. simpl. rewrite !andb_true_iff, Z.eqb_eq, Z.ltb_lt, Z.leb_le. tauto. Qed.

Lemma fsize_from_app (b : Z) (a c : file) : fsize_from b (a ++ c) = fsize_from (fsize_from b a) c.
Proof. revert b. induction a as [|m a IH]; intros b; simpl; [reflexivity|apply IH]. Qed.

Lemma fsize_from_ge (b : Z) (F : file) : wf_from b F = true -> b <= fsize_from b F.
Proof.
  revert b. induction F as [|m F IH]; intros b H; [simpl; lia|].
  apply wf_from_cons in H. destruct H as (_ & H2 & _ & H4). apply IH in H4. simpl. lia.
Qed.

Lemma wf_from_app (b : Z) (a c : file) :
  wf_from b (a ++ c) = true <-> wf_from b a = true /\ wf_from (fsize_from b a) c = true.
Proof.
  revert b. induction a as [|m a IH]; intros b; simpl.
  - tauto.
  - repeat rewrite andb_true_iff. rewrite IH. tauto.
Qed.

Lemma wf_from_bases_ge (b : Z) (F : file) :
  wf_from b F = true -> Forall (fun m => b <= m_base m) F.
Proof.
  revert b. induction F as [|m F IH]; intros b H; [constructor|].
  apply wf_from_cons in H. destruct H as (H1 & H2 & _ & H4).
  constructor; [lia|].
  apply IH in H4. eapply Forall_impl; [|exact H4]. simpl. intros; lia.
Qed.

Lemma wf_from_bases_lt (b : Z) (F : file) :
  wf_from b F = true -> Forall (fun m => m_base m < fsize_from b F) F.
Proof.
  revert b. induction F as [|m F IH]; intros b H; [constructor|].
  apply wf_from_cons in H. destruct H as (H1 & H2 & _ & H4).
  constructor; [apply fsize_from_ge in H4; simpl; lia|apply IH; exact H4].
Qed.

Lemma before_all (F : file) (f : Z) : Forall (fun m => m_base m < f) F -> before F f = total F.
Proof.
  induction 1 as [|m F Hm _ IH]; [reflexivity|].
  simpl. rewrite total_cons. destruct (Z.ltb_spec (m_base m) f); lia.
Qed.

Lemma before_none (F : file) (f : Z) : Forall (fun m => f <= m_base m) F -> before F f = 0.
Proof.
  induction 1 as [|m F Hm _ IH]; [reflexivity|].
  simpl. destruct (Z.ltb_spec (m_base m) f); lia.
Qed.

Lemma before_app (a c : file) (f : Z) : before (a ++ c) f = before a f + before c f.
Proof. induction a as [|m a IH]; simpl; [reflexivity|]. rewrite IH. lia. Qed.

(** The situation every proof works in: the file split around a member. *)
Record split_at (F pre : file) (m : member) (post : file) : Prop := {
  sp_eq : F = pre ++ m :: post;
  sp_wf : wf_file F = true }.

Lemma split_wf {F pre m post} : split_at F pre m post ->
  wf_from 0 pre = true /\ m_base m = fsize_from 0 pre /\ 0 < m_size m /\ m_len m <= 65536 /\
  wf_from (m_base m + m_size m) post = true.
Proof.
  intros [-> H]. apply wf_from_app in H. destruct H as [Hp H].
  apply wf_from_cons in H. destruct H as (-> & H). tauto.
Qed.

Lemma split_base {F pre m post} : split_at F pre m post -> m_base m = fsize_from 0 pre.
Proof. intros S. apply (split_wf S). Qed.

Lemma split_wf_post {F pre m post} : split_at F pre m post -> wf_from (m_base m + m_size m) post = true.
Proof. intros S. apply (split_wf S). Qed.

Lemma split_size_pos {F pre m post} : split_at F pre m post -> 0 < m_size m.
Proof. intros S. apply (split_wf S). Qed.

Lemma split_len_le {F pre m post} : split_at F pre m post -> m_len m <= 65536.
Proof. intros S. apply (split_wf S). Qed.

Lemma split_base_nonneg {F pre m post} : split_at F pre m post -> 0 <= m_base m.
Proof. intros S. destruct (split_wf S) as (Hp & -> & _). apply (fsize_from_ge 0 pre Hp). Qed.

Lemma split_pre_lt {F pre m post} : split_at F pre m post -> Forall (fun x => m_base x < m_base m) pre.
Proof. intros S. destruct (split_wf S) as (Hp & -> & _). apply (wf_from_bases_lt 0 pre Hp). Qed.

Lemma split_before_post {F pre m post} (f : Z) :
  split_at F pre m post -> f <= m_base m + m_size m -> before post f = 0.
Proof.
  intros S Hf. apply before_none. eapply Forall_impl; [|exact (wf_from_bases_ge _ _ (split_wf_post S))]. simpl; intros; lia.
Qed.

Lemma split_before {F pre m post} : split_at F pre m post -> before F (m_base m) = total pre.
Proof.
  intros S. pose proof (split_size_pos S) as Hs.
  rewrite (sp_eq _ _ _ _ S), before_app, (before_all _ _ (split_pre_lt S)). simpl.
  rewrite Z.ltb_irrefl, (split_before_post _ S) by lia. lia.
Qed.

Lemma split_fsize {F pre m post} : split_at F pre m post -> fsize F = fsize_from (m_base m + m_size m) post.
Proof.
  intros S. pose proof (split_base S) as Hb. destruct S as [-> _].
  unfold fsize. rewrite fsize_from_app. simpl. rewrite Hb. reflexivity.
Qed.

Lemma before_ge_fsize (F : file) (f : Z) : wf_file F = true -> fsize F <= f -> before F f = total F.
Proof.
  intros H Hf. apply before_all. apply wf_from_bases_lt in H.
  eapply Forall_impl; [|exact H]. simpl. unfold fsize in Hf. intros; lia.
Qed.

Lemma before_fsize (F : file) : wf_file F = true -> before F (fsize F) = total F.
Proof. intros H. apply (before_ge_fsize F _ H). lia. Qed.

Lemma split_next {F pre m m' post} :
  split_at F pre m (m' :: post) -> split_at F (pre ++ [m]) m' post.
Proof.
  intros [E W]. split; [|exact W]. rewrite <- app_assoc. exact E.
Qed.

Lemma split_next_base {F pre m m' post} :
  split_at F pre m (m' :: post) -> m_base m' = m_base m + m_size m.
Proof. intros S. pose proof (split_wf_post S) as H. apply wf_from_cons in H. tauto. Qed.

Lemma split_unique {F pre m post pre' m' post'} :
  split_at F pre m post -> split_at F pre' m' post' -> m_base m = m_base m' ->
  pre = pre' /\ m = m' /\ post = post'.
Proof.
  intros S S' Hb.
  pose proof (split_pre_lt S) as P1. pose proof (split_pre_lt S') as P2.
  destruct S as [E _]. destruct S' as [E' _]. rewrite E in E'. clear E.
  revert pre' E' P2. induction P1 as [|x pre Hx P1 IH]; intros pre' E' P2; destruct P2 as [|y pre' Hy P2];
    simpl in E'; inversion E'; subst; try lia; [auto|].
  destruct (IH _ H1 P2) as (-> & -> & ->). auto.
Qed.

Lemma split_single {m pre m' post} : split_at [m] pre m' post -> pre = [] /\ m' = m /\ post = [].
Proof. intros [E _]. destruct pre as [|x [|y pre]]; inversion E; auto. Qed.

Lemma block_end_split (pre : file) (m : member) (post : file) (start p : Z) :
  0 <= p < m_len m ->
  block_end (pre ++ m :: post) start (start + total pre + p) = start + total pre + m_len m.
Proof.
  revert start. induction pre as [|x pre IH]; intros start Hp; simpl.
  - rewrite total_nil. destruct (Z.ltb_spec (start + 0 + p) (start + m_len m)); lia.
  - rewrite total_cons. pose proof (m_len_nonneg x). pose proof (total_nonneg pre).
    destruct (Z.ltb_spec (start + (m_len x + total pre) + p) (start + m_len x)); [lia|].
    replace (start + (m_len x + total pre) + p) with ((start + m_len x) + total pre + p) by lia.
    rewrite IH by lia. lia.
Qed.

Lemma zdrop_flat_split (pre : file) (m : member) (post : file) (p : Z) :
  0 <= p <= m_len m ->
  zdrop (total pre + p) (flat_data (pre ++ m :: post)) = zdrop p (m_data m) ++ flat_data post.
Proof.
  intros Hp. unfold total, m_len in *. rewrite flat_data_app, flat_data_cons, !zdrop_app.
  rewrite (zdrop_all _ (flat_data pre)), (zdrop_neg _ (flat_data post)) by lia. simpl. do 2 f_equal. lia.
Qed.

Lemma valid_off_split (F : file) (f b : Z) :
  wf_file F = true -> valid_off F f b = true ->
  exists pre m post, split_at F pre m post /\ m_base m = f /\ 0 <= b <= m_len m /\ b <= 65535.
Proof.
  intros W H. unfold valid_off in H. apply existsb_exists in H. destruct H as [m [Hin H]].
  repeat rewrite andb_true_iff in H. destruct H as [[[H1 H2] H3] H4].
  apply in_split in Hin. destruct Hin as [pre [post E]].
  exists pre, m, post. split; [split; assumption|]. lia.
Qed.

Lemma u16_small (x : Z) : 0 <= x <= 65535 -> u16 x = x.
Proof. intros. unfold u16, wrapu. change (2 ^ 16) with 65536. apply Z.mod_small. lia. Qed.

Lemma u16_add_u16 (a k : Z) : u16 (u16 a + u16 k) = u16 (a + k).
Proof.
  unfold u16, wrapu. change (2 ^ 16) with 65536.
  rewrite <- Z.add_mod by lia. reflexivity.
Qed.
