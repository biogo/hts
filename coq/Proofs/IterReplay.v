(** C13 — bam.Iterator: Next over a list of record-aligned chunks, in any
    order, yields the records of each chunk in turn and then stops with io.EOF.
    The iterator is a sequence of SetChunk replays ([replay_one]): when Read
    says io.EOF, Next calls SetChunk for the next chunk of the list. *)
From Coq Require Import ZArith List Bool Lia.
From Hts Require Import Base.Prim Model.Flat Model.Reader Model.ChunkReader
  Proofs.ReaderFlat Proofs.BamReplay.
Import ListNotations.
Open Scope Z_scope.

Section Next.
Variable M : machine.

Definition cons_bodies (l0 : list (list Z)) (o : outcome (bstate M * list (list Z) * Z)) :=
  match o with Ok (b, l, e) => Ok (b, l0 ++ l, e) | Err e => Err e | Panic w => Panic w | Stuck => Stuck end.

(** [bk]: the state in which the run of Reads met [r]; Next goes on from there. *)
Lemma it_all_recs : forall fuel b b' recs r rest n, br_readall M fuel b = Ok (b', recs, r) ->
  exists bk, br_read M bk = Ok (b', r) /\
    it_all M (n + length recs) b rest = cons_bodies (map fst recs) (it_all M n bk rest).
Proof.
  induction fuel as [|fuel IH]; intros b b' recs r rest n H; [discriminate|]. simpl in H.
  destruct (br_read M b) as [[b1 r1]| | |] eqn:Hrd; try discriminate.
  destruct r1 as [body| |].
  2,3: inversion H; subst; exists b; rewrite Nat.add_0_r; (split; [exact Hrd|]);
    destruct (it_all M n b rest) as [[[? ?] ?]| | |]; reflexivity.
  destruct (br_readall M fuel b1) as [[[b2 l] r']| | |] eqn:Hra; inversion H; subst.
  destruct (IH _ _ _ _ rest n Hra) as (bk & Hbk & Heq). exists bk. split; [exact Hbk|].
  cbn [length]. rewrite Nat.add_succ_r. cbn [it_all map fst]. destruct rest; cbn [it_next]; rewrite Hrd, Heq;
    destruct (it_all M n bk _) as [[[? ?] ?]| | |]; reflexivity.
Qed.

Lemma it_all_eof (n : nat) (bk b' : bstate M) (rest : list chunk) : br_read M bk = Ok (b', BEOF) ->
  it_all M (S n) bk rest = match rest with [] => Ok (b', [], eEOF) | _ => it_run M (S n) b' rest end.
Proof.
  intros H. destruct rest as [|c rest]; cbn [it_all it_next it_run]; rewrite H; [reflexivity|].
  destruct (br_setchunk M b' c) as [[b2 e]| | |]; [|reflexivity..]. destruct (negb (e =? eNil)); reflexivity.
Qed.

End Next.

Section Iter.
Variable F : file.
Hypothesis W : wf_file F = true.
Hypothesis Ha : addressable F = true.

(** A chunk that runs from the Begin of one record to the End of a later one:
    the chunk, the flat positions of its two ends, and the body sizes of the
    frames in between. *)
Record rchunk := mkRC { rc_c : chunk; rc_p : Z; rc_pe : Z; rc_sizes : list Z }.

Definition rchunk_ok (r : rchunk) : Prop :=
  is_before F (fst (rc_c r)) (rc_p r) /\ is_after F (snd (rc_c r)) (rc_pe r) /\
  frames F (rc_p r) (rc_sizes r) (rc_pe r) /\ rc_sizes r <> [] /\ rc_pe r <= total F.

Definition simok (s : vstate) : Prop := exists f, sim F s f /\ f_blocked f = false.

Definition all_bodies (L : list rchunk) : list (list Z) := concat (map (fun r => bodies F (rc_p r) (rc_sizes r)) L).
Definition nrecs (L : list rchunk) : nat := fold_right (fun r a => (length (rc_sizes r) + a)%nat) O L.

Theorem iterator_replay_proof (b : bstate (vM F)) (L : list rchunk) :
  simok (br_s _ b) -> Forall rchunk_ok L -> L <> [] ->
  exists b', it_run (vM F) (S (nrecs L)) b (map rc_c L) = Ok (b', all_bodies L, eEOF).
Proof.
  revert b. induction L as [|r L IH]; intros b (f & Hsim & Hfb) HL Hne; [congruence|].
  inversion HL as [|? ? (HB & HE & Hfr & Hnz & Hpe) HL']; subst.
  destruct (rc_c r) as [B E] eqn:Hc.
  destruct (replay_one F W Ha b f B E _ _ _ Hsim Hfb HB HE Hfr Hnz Hpe) as (b2 & Hset & b3 & l & Hra & Hrecs & Hok3).
  destruct (it_all_recs _ _ _ _ _ _ (map rc_c L) (S (nrecs L)) Hra) as (bk & Hbk & Heq).
  destruct (recs_at_bodies F _ _ _ Hrecs) as [Hl Hlen].
  cbn [map it_run nrecs fold_right]. rewrite Hc, Hset. cbn [negb Z.eqb eNil]. fold (nrecs L).
  rewrite Hlen in Heq. rewrite Nat.add_comm, <- Nat.add_succ_l, Heq, Hl, (it_all_eof _ _ _ _ _ Hbk).
  unfold all_bodies. cbn [map concat]. fold (all_bodies L).
  destruct L as [|r' L'].
  - eexists. reflexivity.
  - destruct (IH b3 Hok3 HL' ltac:(discriminate)) as (b' & ->). eexists. reflexivity.
Qed.

End Iter.
