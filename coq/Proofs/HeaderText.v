(** C07 — the lexical half of the text round trip: a printed header splits
    back into exactly the lines and TAB-separated fields that were printed. *)
From Coq Require Import ZArith List Bool Lia.
From Hts Require Import Base.Prim Model.Header Proofs.HeaderBase.
Import ListNotations.
Open Scope Z_scope.

Lemma split_go_chunk : forall sep l rest cur, ~ In sep l ->
  split_go sep (l ++ sep :: rest) cur = (rev cur ++ l) :: split_go sep rest [].
Proof.
  induction l as [|c l IH]; intros rest cur H; simpl.
  - rewrite Z.eqb_refl, app_nil_r. reflexivity.
  - destruct (c =? sep) eqn:E. { apply Z.eqb_eq in E. subst. exfalso. apply H. left; reflexivity. }
    rewrite IH by (intro; apply H; right; assumption). simpl. rewrite <- app_assoc. reflexivity.
Qed.

Lemma split_go_last : forall sep l cur, ~ In sep l -> split_go sep l cur = [rev cur ++ l].
Proof.
  induction l as [|c l IH]; intros cur H; simpl.
  - rewrite app_nil_r. reflexivity.
  - destruct (c =? sep) eqn:E. { apply Z.eqb_eq in E. subst. exfalso. apply H. left; reflexivity. }
    rewrite IH by (intro; apply H; right; assumption). simpl. rewrite <- app_assoc. reflexivity.
Qed.

Lemma split_terminated : forall sep (ls : list str), (forall l, In l ls -> ~ In sep l) ->
  split sep (concat (map (fun l => l ++ [sep]) ls)) = ls ++ [[]].
Proof.
  unfold split. induction ls as [|l ls IH]; intros H; simpl; [reflexivity|].
  rewrite <- app_assoc. simpl. rewrite split_go_chunk by (apply H; left; reflexivity). simpl.
  rewrite IH by (intros; apply H; right; assumption). reflexivity.
Qed.

Lemma split_preceded : forall sep (fs : list str) h, ~ In sep h -> (forall f, In f fs -> ~ In sep f) ->
  split sep (h ++ concat (map (cons sep) fs)) = h :: fs.
Proof.
  unfold split. intros sep fs. induction fs as [|f fs IH]; intros h Hh H; simpl.
  - rewrite app_nil_r. rewrite split_go_last by assumption. reflexivity.
  - rewrite split_go_chunk by assumption. simpl. f_equal. apply IH; [apply H; left; reflexivity|intros; apply H; right; assumption].
Qed.

Lemma strip_cr_clean : forall l, ~ In CR l -> strip_cr l = l.
Proof.
  intros l H. unfold strip_cr. destruct (rev l) as [|c t] eqn:E; [reflexivity|].
  destruct (c =? CR) eqn:EC; [|reflexivity]. apply Z.eqb_eq in EC. subst c. exfalso. apply H.
  apply in_rev. rewrite E. left; reflexivity.
Qed.

(** a printed document: lines, each a head and TAB-preceded fields, each ended by LF *)
Definition cf (fs : list str) : str := concat (map (cons TAB) fs).
Definition render_line (hf : str * list str) : str := fst hf ++ cf (snd hf).
Definition render (doc : list (str * list str)) : str := concat (map (fun hf => render_line hf ++ [LF]) doc).
Definition clean (s : str) : Prop := ~ In TAB s /\ ~ In LF s /\ ~ In CR s.

(** for the fixed strings of the format (tags, record heads, the SO/GO words) cleanliness is a computation *)
Definition cleanb (s : str) : bool := forallb (fun c => negb ((c =? TAB) || (c =? LF) || (c =? CR))) s.
Lemma cleanb_ok : forall s, cleanb s = true -> clean s.
Proof.
  intros s H. unfold cleanb in H. rewrite forallb_forall in H.
  repeat split; intro Hi; apply H in Hi; [rewrite Z.eqb_refl in Hi|rewrite Z.eqb_refl, orb_true_r in Hi|rewrite Z.eqb_refl, !orb_true_r in Hi]; discriminate.
Qed.

Lemma in_concat_cons : forall sep (fs : list str) x, In x (concat (map (cons sep) fs)) -> x = sep \/ exists f, In f fs /\ In x f.
Proof.
  induction fs as [|f fs IH]; simpl; intros x H; [contradiction|].
  destruct H as [H|H]; [left; auto|]. apply in_app_or in H. destruct H as [H|H].
  - right. exists f. auto.
  - destruct (IH _ H) as [E|(g & Hg & Hx)]; [left; auto|right; exists g; auto].
Qed.

Lemma render_line_clean : forall h fs, clean h -> (forall f, In f fs -> clean f) ->
  ~ In LF (render_line (h, fs)) /\ ~ In CR (render_line (h, fs)).
Proof.
  intros h fs (_ & HL & HC) Hf. unfold render_line, cf; simpl. split; intro Hi; apply in_app_or in Hi; destruct Hi as [Hi|Hi]; auto;
    apply in_concat_cons in Hi; (destruct Hi as [E|(f & Hin & Hx)]; [unfold LF, CR, TAB in E; discriminate|]); destruct (Hf f Hin) as (_ & A & B); auto.
Qed.

Theorem lex_roundtrip : forall doc,
  (forall h fs, In (h, fs) doc -> clean h /\ forall f, In f fs -> clean f) ->
  map (fun l => split TAB (strip_cr l)) (split LF (render doc)) = map (fun hf => fst hf :: snd hf) doc ++ [[[]]].
Proof.
  intros doc H. unfold render.
  replace (map (fun hf => render_line hf ++ [LF]) doc) with (map (fun l => l ++ [LF]) (map render_line doc)) by (rewrite map_map; reflexivity).
  rewrite (split_terminated LF (map render_line doc)).
  - rewrite map_app, map_map. simpl. f_equal.
    apply map_ext_in. intros [h fs] Hin. destruct (H h fs Hin) as (Ch & HF). simpl.
    rewrite strip_cr_clean by apply (render_line_clean h fs Ch HF).
    unfold render_line, cf; simpl. apply split_preceded; [apply Ch|]. intros f Hf. exact (proj1 (HF f Hf)).
  - intros l Hl. apply in_map_iff in Hl. destruct Hl as ([h fs] & <- & Hin). destruct (H h fs Hin) as (Ch & HF).
    apply (render_line_clean h fs Ch HF).
Qed.

Definition body (t : tag) (v : str) : str := fst t :: snd t :: COLON :: v.
Definition optf (t : tag) (v : str) : list str := if is_empty v then [] else [body t v].
Definition other_fields (l : list tagpair) : list str := map (fun tp => body (fst tp) (snd tp)) l.

Definition ref_fields (o : obj refpay) : list str :=
  let p := o_pay o in
  [body tSN (o_name o); body tLN (dec (rp_len p))]
  ++ (if is_empty (rp_md5 p) then [] else [body tM5 (hex_of (rp_md5 p))])
  ++ optf tAS (rp_as p) ++ optf tSP (rp_sp p)
  ++ (match rp_uri p with Some u => [body tUR u] | None => [] end)
  ++ other_fields (rp_other p).
Definition rg_fields_of (o : obj rgpay) : list str :=
  let p := o_pay o in
  [body tID (o_name o)] ++ optf tCN (g_cn p) ++ optf tDS (g_ds p)
  ++ (match g_dt p with Some d => [body tDT d] | None => [] end)
  ++ optf tFO (g_fo p) ++ optf tKS (g_ks p) ++ optf tLB (g_lb p) ++ optf tPG (g_pg p)
  ++ (if g_pi p =? 0 then [] else [body tPI (dec (g_pi p))])
  ++ optf tPL (g_pl p) ++ optf tPU (g_pu p) ++ optf tSM (g_sm p) ++ other_fields (g_other p).
Definition pg_fields_of (o : obj pgpay) : list str :=
  let p := o_pay o in
  [body tID (o_name o)] ++ optf tPN (p_pn p) ++ optf tCL (p_cl p) ++ optf tPP (p_pp p) ++ optf tVN (p_vn p)
  ++ other_fields (p_other p).
Definition hd_fields_of (h : hdr) : list str :=
  [body tVN (h_vn h); body tSO (so_string (h_so h))]
  ++ (if h_go h =? 0 then [] else [body tGO (go_string (h_go h))]) ++ other_fields (h_other h).

Lemma cf_app : forall a b, cf (a ++ b) = cf a ++ cf b.
Proof. intros. unfold cf. rewrite map_app, concat_app. reflexivity. Qed.
Lemma cf_one : forall x, cf [x] = TAB :: x.
Proof. intros. unfold cf. simpl. rewrite app_nil_r. reflexivity. Qed.

(** the printers write the fields one after the other: [cf_cons] and [cf_step] peel the first field off both sides,
    the lemmas after them say what one field of each form prints *)
Lemma cf_cons : forall f X rest, X = cf rest -> (TAB :: f) ++ X = cf (f :: rest).
Proof. intros; subst; reflexivity. Qed.
Lemma cf_step : forall x F X rest, x = cf F -> X = cf rest -> x ++ X = cf (F ++ rest).
Proof. intros; subst; symmetry; apply cf_app. Qed.
Lemma opt_field_cf : forall t v, opt_field t v = cf (optf t v).
Proof. intros. unfold opt_field, optf. destruct (is_empty v); [reflexivity|]. rewrite cf_one. reflexivity. Qed.
Lemma some_field_cf : forall t (o : option str),
  match o with Some v => field t v | None => [] end = cf match o with Some v => [body t v] | None => [] end.
Proof. intros t [v|]; [rewrite cf_one|]; reflexivity. Qed.
Lemma if_field_cf : forall t v (b : bool), (if b then [] else field t v) = cf (if b then [] else [body t v]).
Proof. intros t v [|]; [|rewrite cf_one]; reflexivity. Qed.
Lemma others_cf : forall l, others l = cf (other_fields l).
Proof.
  induction l as [|tp l IH]; [reflexivity|]. unfold others, cf, other_fields in *. simpl. rewrite IH. reflexivity.
Qed.

Ltac cf_fields :=
  cbn [app]; repeat first [apply cf_cons | apply cf_step; [first [apply opt_field_cf|apply some_field_cf|apply if_field_cf]|]]; apply others_cf.

Lemma ref_string_render : forall o, ref_string o = render_line ([AT; 83; 81], ref_fields o).
Proof. intro o. unfold ref_string, render_line, ref_fields. cbn [fst snd]. f_equal. cf_fields. Qed.
Lemma rg_string_render : forall o, rg_string o = render_line ([AT; 82; 71], rg_fields_of o).
Proof. intro o. unfold rg_string, render_line, rg_fields_of. cbn [fst snd]. f_equal. cf_fields. Qed.
Lemma pg_string_render : forall o, pg_string o = render_line ([AT; 80; 71], pg_fields_of o).
Proof. intro o. unfold pg_string, render_line, pg_fields_of. cbn [fst snd]. f_equal. cf_fields. Qed.

Lemma hd_string_render : forall h, hd_string h = if is_empty (h_vn h) then [] else render_line ([AT; 72; 68], hd_fields_of h) ++ [LF].
Proof.
  intro h. unfold hd_string. destruct (is_empty (h_vn h)); [reflexivity|].
  unfold render_line, hd_fields_of. cbn [fst snd]. rewrite <- (app_assoc [AT; 72; 68]). f_equal.
  rewrite !app_assoc. f_equal. rewrite <- !app_assoc. cf_fields.
Qed.

Definition doc_of (h : hdr) (rs : list (obj refpay)) (gs : list (obj rgpay)) (ps : list (obj pgpay)) : list (str * list str) :=
  (if is_empty (h_vn h) then [] else [([AT; 72; 68], hd_fields_of h)])
  ++ map (fun o => ([AT; 83; 81], ref_fields o)) rs
  ++ map (fun o => ([AT; 82; 71], rg_fields_of o)) gs
  ++ map (fun o => ([AT; 80; 71], pg_fields_of o)) ps
  ++ map (fun c => ([AT; 67; 79], [c])) (h_co h).

Lemma render_app : forall a b, render (a ++ b) = render a ++ render b.
Proof. intros. unfold render. rewrite map_app, concat_app. reflexivity. Qed.
Lemma lines_render : forall {A} (f : A -> str) (g : A -> str * list str) l,
  (forall x, f x = render_line (g x)) -> lines f l = render (map g l).
Proof.
  intros A f g l H. unfold lines, render. rewrite map_map. f_equal. apply map_ext. intro x. rewrite H. reflexivity.
Qed.

Lemma marshal_text_render : forall w h rs gs ps,
  objs (w_r w) (t_items (h_R h)) = Some rs -> objs (w_g w) (t_items (h_G h)) = Some gs -> objs (w_p w) (t_items (h_P h)) = Some ps ->
  marshal_text w h = Ok (render (doc_of h rs gs ps)).
Proof.
  intros w h rs gs ps Hr Hg Hp. unfold marshal_text. rewrite Hr, Hg, Hp. f_equal.
  unfold doc_of. rewrite !render_app.
  rewrite (lines_render ref_string (fun o => ([AT; 83; 81], ref_fields o))) by apply ref_string_render.
  rewrite (lines_render rg_string (fun o => ([AT; 82; 71], rg_fields_of o))) by apply rg_string_render.
  rewrite (lines_render pg_string (fun o => ([AT; 80; 71], pg_fields_of o))) by apply pg_string_render.
  rewrite (lines_render (fun c => [AT; 67; 79; TAB] ++ c) (fun c => ([AT; 67; 79], [c]))).
  2:{ intro c. unfold render_line. cbn [fst snd]. rewrite cf_one. reflexivity. }
  f_equal. rewrite hd_string_render. destruct (is_empty (h_vn h)); [reflexivity|].
  unfold render. cbn [map concat]. rewrite app_nil_r. reflexivity.
Qed.

(** the lexical half of the text round trip: the marshalled text of a header
    splits (the way UnmarshalText splits it) into exactly the record heads
    and "XX:value" fields that were printed, provided they are free of
    TAB, LF and CR; [split_field] then recovers tag and value of each field *)
Theorem marshal_text_lex : forall w h rs gs ps,
  objs (w_r w) (t_items (h_R h)) = Some rs -> objs (w_g w) (t_items (h_G h)) = Some gs -> objs (w_p w) (t_items (h_P h)) = Some ps ->
  (forall hd fs, In (hd, fs) (doc_of h rs gs ps) -> clean hd /\ forall f, In f fs -> clean f) ->
  exists text, marshal_text w h = Ok text /\
    map (fun l => split TAB (strip_cr l)) (split LF text) = map (fun hf => fst hf :: snd hf) (doc_of h rs gs ps) ++ [[[]]].
Proof.
  intros w h rs gs ps Hr Hg Hp C. exists (render (doc_of h rs gs ps)). split; [apply marshal_text_render; assumption|].
  apply lex_roundtrip. exact C.
Qed.

Lemma split_field_body : forall t v, split_field (body t v) = Some (t, v).
Proof. intros [a b] v. unfold split_field, body. simpl. reflexivity. Qed.
