(** C07 — the identity invariant for one kind of item (references, read
    groups or programs) and its preservation by the generic operations. *)
From Coq Require Import ZArith List Bool Lia.
From Hts Require Import Base.Prim Model.Header Proofs.HeaderBase.
Import ListNotations.
Open Scope Z_scope.

(** [seen] maps exactly the names of the list, each to its index (so the names are pairwise distinct):
    what a name table is to the names of the listed objects *)
Definition Rep (seen : smap) (names : list str) : Prop :=
  forall k v, mget k seen = Some v <-> exists i, nth_error names i = Some k /\ v = Z.of_nat i.

Lemma Rep_inj : forall seen names i j k, Rep seen names -> nth_error names i = Some k -> nth_error names j = Some k -> i = j.
Proof.
  intros seen names i j k R Hi Hj.
  assert (A : mget k seen = Some (Z.of_nat i)) by (apply R; eauto).
  assert (B : mget k seen = Some (Z.of_nat j)) by (apply R; eauto).
  rewrite A in B. inversion B. lia.
Qed.
Lemma Rep_NoDup : forall seen names, Rep seen names -> NoDup names.
Proof.
  intros seen names R. apply NoDup_nth_error. intros i j Li E.
  destruct (nth_error names i) as [k|] eqn:Hi; [|apply nth_error_None in Hi; lia]. symmetry in E. eapply Rep_inj; eauto.
Qed.
Lemma Rep_fresh : forall seen names n, Rep seen names -> mget n seen = None -> ~ In n names.
Proof.
  intros seen names n R M Hin. apply In_nth_error in Hin. destruct Hin as (i & Hi).
  assert (A : mget n seen = Some (Z.of_nat i)) by (apply R; eauto). congruence.
Qed.

Lemma Rep_snoc : forall seen names n, Rep seen names -> mget n seen = None -> Rep (mset n (zlen names) seen) (names ++ [n]).
Proof.
  intros seen names n R M k v. destruct (str_eq_dec k n) as [->|NE].
  - rewrite mget_mset_eq. split.
    + intro E; inversion E. exists (length names). split; [apply nth_error_app_last|reflexivity].
    + intros (i & Hi & ->). apply nth_error_app_inv in Hi. destruct Hi as [[L Hi]|[-> _]]; [|reflexivity].
      exfalso. apply (Rep_fresh _ _ _ R M). eapply nth_error_In; eauto.
  - rewrite mget_mset_ne by exact NE. rewrite (R k v). split; intros (i & Hi & ->); exists i; (split; [|reflexivity]).
    + rewrite nth_error_app1; [exact Hi|eapply nth_error_valid; eauto].
    + apply nth_error_app_inv in Hi. destruct Hi as [[L Hi]|[_ E]]; [exact Hi|congruence].
Qed.

Lemma Rep_rename : forall seen names i old n, Rep seen names -> nth_error names i = Some old -> mget n seen = None ->
  Rep (mset n (Z.of_nat i) (mdel old seen)) (upd names i n).
Proof.
  intros seen names i old n R Hi M k v. assert (Li := nth_error_valid _ _ _ Hi).
  assert (U : forall j x, nth_error (upd names i n) j = Some x <-> (j = i /\ x = n) \/ (j <> i /\ nth_error names j = Some x)).
  { intros j x. split; [intro H; apply nth_error_upd in H; intuition|].
    intros [[-> ->]|[NE H]]; [apply nth_error_upd_eq; exact Li|rewrite nth_error_upd_ne; auto]. }
  destruct (str_eq_dec k n) as [->|NE].
  - rewrite mget_mset_eq. split.
    + intro E; inversion E. exists i. split; [apply U; auto|reflexivity].
    + intros (j & Hj & ->). apply U in Hj. destruct Hj as [[-> _]|[_ Hj]]; [reflexivity|].
      exfalso. apply (Rep_fresh _ _ _ R M). eapply nth_error_In; eauto.
  - rewrite mget_mset_ne by exact NE. destruct (str_eq_dec k old) as [->|NO].
    + rewrite mget_mdel_eq. split; [discriminate|]. intros (j & Hj & _). exfalso. apply U in Hj.
      destruct Hj as [[_ E]|[NJ Hj]]; [congruence|]. apply NJ. eapply Rep_inj; eauto.
    + rewrite mget_mdel_ne by exact NO. rewrite (R k v). split; intros (j & Hj & ->); exists j; (split; [|reflexivity]).
      * apply U. right. split; [intro; subst; congruence|exact Hj].
      * apply U in Hj. destruct Hj as [[_ E]|[_ Hj]]; [congruence|exact Hj].
Qed.

Lemma Rep_remove : forall seen seen2 pre old post, Rep seen (pre ++ old :: post) ->
  (forall k, ~ In k post -> mget k seen2 = mget k (mdel old seen)) ->
  (forall j k, nth_error post j = Some k -> mget k seen2 = Some (Z.of_nat (length pre + j))) ->
  Rep seen2 (pre ++ post).
Proof.
  intros seen seen2 pre old post R HK HN k v.
  assert (ND := Rep_NoDup _ _ R). assert (ND' := NoDup_remove_1 _ _ _ ND). apply NoDup_remove_2 in ND.
  assert (Hpost : forall j, nth_error (pre ++ post) (length pre + j) = nth_error post j)
    by (intro j; rewrite nth_error_app2 by lia; f_equal; lia).
  destruct (in_dec str_eq_dec k post) as [Hin|Hnin].
  - apply In_nth_error in Hin. destruct Hin as (j & Hj). rewrite (HN j k Hj). split.
    + intro E; inversion E. exists (length pre + j)%nat. rewrite Hpost. auto.
    + intros (i & Hi & ->). f_equal. f_equal. rewrite <- Hpost in Hj.
      rewrite NoDup_nth_error in ND'. apply ND'; [eapply nth_error_valid; eauto|congruence].
  - rewrite (HK k Hnin). destruct (str_eq_dec k old) as [->|NO].
    + rewrite mget_mdel_eq. split; [discriminate|]. intros (i & Hi & _). exfalso. apply ND. eapply nth_error_In; eauto.
    + rewrite mget_mdel_ne by exact NO. rewrite (R k v).
      assert (Hpre : forall i, nth_error (pre ++ post) i = Some k <-> nth_error (pre ++ old :: post) i = Some k).
      { intro i. destruct (Nat.lt_ge_cases i (length pre)); [rewrite !nth_error_app1 by assumption; tauto|].
        rewrite !nth_error_app2 by assumption. split; intro H'; exfalso.
        - apply Hnin. eapply nth_error_In; eauto.
        - destruct (i - length pre)%nat; simpl in H'; [congruence|]. apply Hnin. eapply nth_error_In; eauto. }
      split; intros (i & Hi & ->); exists i; (split; [apply Hpre; exact Hi|reflexivity]).
Qed.

Section GenInv.
  Context {P : Type}.
  Notation store := (list (obj P)).

  (** the table [t] of header [h]: every listed handle names an object owned by
      [h] whose id is its index, and the name table maps exactly the names of
      the listed objects to their indices (so names are pairwise distinct) *)
  Record TInv (h : nat) (st : store) (t : tbl) : Prop := mkTInv {
    ti_obj : forall i r, nth_error (t_items t) i = Some r ->
             exists o, nth_error st r = Some o /\ o_owner o = Some h /\ o_id o = Z.of_nat i;
    ti_seen : forall k v, mget k (t_seen t) = Some v <->
             exists i r o, nth_error (t_items t) i = Some r /\ nth_error st r = Some o /\ o_name o = k /\ v = Z.of_nat i }.

  (** every object that has an owner is listed by that owner at its id *)
  Definition OInv (tbls : list tbl) (st : store) : Prop :=
    forall r o h, nth_error st r = Some o -> o_owner o = Some h ->
      exists t, nth_error tbls h = Some t /\ nth_error (t_items t) (Z.to_nat (o_id o)) = Some r /\ 0 <= o_id o.

  (** every table is sound and every owned object is listed *)
  Definition KInv (tbls : list tbl) (st : store) : Prop :=
    (forall h t, nth_error tbls h = Some t -> TInv h st t) /\ OInv tbls st.

  Lemma TInv_uniq : forall h st t a b x y ox oy,
    TInv h st t -> nth_error (t_items t) a = Some x -> nth_error (t_items t) b = Some y ->
    nth_error st x = Some ox -> nth_error st y = Some oy -> o_name ox = o_name oy -> a = b.
  Proof.
    intros h st t a b x y ox oy I Ha Hb Hx Hy E.
    assert (A : mget (o_name ox) (t_seen t) = Some (Z.of_nat a)) by (apply (ti_seen _ _ _ I); eauto 8).
    assert (B : mget (o_name ox) (t_seen t) = Some (Z.of_nat b)) by (apply (ti_seen _ _ _ I); exists b, y, oy; auto).
    rewrite A in B. inversion B. lia.
  Qed.

  Lemma TInv_inj : forall h st t a b x, TInv h st t ->
    nth_error (t_items t) a = Some x -> nth_error (t_items t) b = Some x -> a = b.
  Proof.
    intros h st t a b x I Ha Hb.
    destruct (ti_obj _ _ _ I _ _ Ha) as (o & Ho & _ & Ia).
    destruct (ti_obj _ _ _ I _ _ Hb) as (o' & Ho' & _ & Ib).
    rewrite Ho in Ho'. inversion Ho'; subst. lia.
  Qed.

  Lemma TInv_NoDup : forall h st t, TInv h st t -> NoDup (t_items t).
  Proof.
    intros. apply NoDup_nth_error. intros i j Hi E.
    destruct (nth_error (t_items t) i) eqn:Ei.
    - symmetry in E. eapply TInv_inj; eauto.
    - apply nth_error_None in Ei. lia.
  Qed.

  Lemma TInv_valid : forall h st t x, TInv h st t -> In x (t_items t) -> (x < length st)%nat.
  Proof.
    intros h st t x I Hx. apply In_nth_error in Hx. destruct Hx as (i & Hi).
    destruct (ti_obj _ _ _ I _ _ Hi) as (o & Ho & _). eapply nth_error_valid; eauto.
  Qed.
  Lemma TInv_objs : forall h st t, TInv h st t -> exists os, objs st (t_items t) = Some os.
  Proof. intros h st t I. apply objs_Some. intros x. apply (TInv_valid _ _ _ _ I). Qed.

  (** the table through the objects it lists: they are owned by [h] and numbered in order, and the
      name table represents their names *)
  Definition Owned (h : nat) (os : list (obj P)) : Prop :=
    forall i o, nth_error os i = Some o -> o_owner o = Some h /\ o_id o = Z.of_nat i.

  Lemma objs_names : forall (st : store) items os, objs st items = Some os -> forall k v,
    (exists i r o, nth_error items i = Some r /\ nth_error st r = Some o /\ o_name o = k /\ v = Z.of_nat i) <->
    (exists i, nth_error (map o_name os) i = Some k /\ v = Z.of_nat i).
  Proof.
    intros st items os Ho k v. split.
    - intros (i & r & o & Hi & Hr & <- & ->). exists i. split; [|reflexivity]. apply nth_error_map_Some. exists o. split; [|reflexivity].
      apply (objs_nth _ _ _ Ho). eauto.
    - intros (i & Hi & ->). apply nth_error_map_Some in Hi. destruct Hi as (o & Hi & <-).
      apply (objs_nth _ _ _ Ho) in Hi. destruct Hi as (r & Hi & Hr). eauto 8.
  Qed.

  Lemma TInv_intro : forall h (st : store) t os, objs st (t_items t) = Some os -> Owned h os -> Rep (t_seen t) (map o_name os) -> TInv h st t.
  Proof.
    intros h st t os Ho W R. split.
    - intros i r Hi. destruct (nth_error_lt st r (objs_valid _ _ _ Ho r (nth_error_In _ _ Hi))) as (o & Hr).
      exists o. split; [exact Hr|]. apply (W i). apply (objs_nth _ _ _ Ho). eauto.
    - intros k v. rewrite (R k v). symmetry. apply objs_names. exact Ho.
  Qed.

  Lemma TInv_view : forall h (st : store) t os, TInv h st t -> objs st (t_items t) = Some os -> Owned h os /\ Rep (t_seen t) (map o_name os).
  Proof.
    intros h st t os I Ho. split.
    - intros i o Hi. apply (objs_nth _ _ _ Ho) in Hi. destruct Hi as (r & Hi & Hr).
      destruct (ti_obj _ _ _ I _ _ Hi) as (o' & Hr' & W). rewrite Hr in Hr'. inversion Hr'; subst. exact W.
    - intros k v. rewrite (ti_seen _ _ _ I k v). apply objs_names. exact Ho.
  Qed.

  Lemma TInv_elim : forall h (st : store) t, TInv h st t ->
    exists os, objs st (t_items t) = Some os /\ Owned h os /\ Rep (t_seen t) (map o_name os).
  Proof. intros h st t I. destruct (TInv_objs _ _ _ I) as (os & Ho). exists os. split; [exact Ho|exact (TInv_view _ _ _ _ I Ho)]. Qed.

  Lemma names_nodup : forall h (st : store) t os, TInv h st t -> objs st (t_items t) = Some os -> NoDup (map o_name os).
  Proof. intros h st t os I Ho. exact (Rep_NoDup _ _ (proj2 (TInv_view _ _ _ _ I Ho))). Qed.

  Lemma fresh_name : forall h (st : store) t os n, TInv h st t -> objs st (t_items t) = Some os ->
    ~ In n (map o_name os) -> mget n (t_seen t) = None.
  Proof.
    intros h st t os n I Ho Hn. destruct (mget n (t_seen t)) eqn:M; [|reflexivity].
    apply (proj2 (TInv_view _ _ _ _ I Ho)) in M. destruct M as (i & Hi & _). exfalso. apply Hn. eapply nth_error_In; eauto.
  Qed.

  Lemma listed_at_id : forall h (st : store) t r o, TInv h st t -> nth_error st r = Some o -> In r (t_items t) ->
    nth_error (t_items t) (Z.to_nat (o_id o)) = Some r /\ 0 <= o_id o.
  Proof.
    intros h st t r o I Hr Hin. apply In_nth_error in Hin. destruct Hin as (j & Hj).
    destruct (ti_obj _ _ _ I _ _ Hj) as (o' & Ho' & _ & Hid). rewrite Hr in Ho'. inversion Ho'; subst o'.
    rewrite Hid, Nat2Z.id. split; [exact Hj|lia].
  Qed.

  Lemma unowned_unlisted : forall h (st : store) t r o, TInv h st t -> nth_error st r = Some o -> o_owner o = None -> ~ In r (t_items t).
  Proof.
    intros h st t r o I Hr Hn Hin. apply In_nth_error in Hin. destruct Hin as (i & Hi).
    destruct (ti_obj _ _ _ I _ _ Hi) as (o' & Ho' & Hw & _). congruence.
  Qed.

  Lemma TInv_frame : forall h st st' t, TInv h st t ->
    (forall r o, nth_error st r = Some o -> o_owner o = Some h -> nth_error st' r = Some o) ->
    TInv h st' t.
  Proof.
    intros h st st' t I F. split.
    - intros i r Hi. destruct (ti_obj _ _ _ I _ _ Hi) as (o & Ho & Hw & Hid). exists o. auto.
    - intros k v. rewrite (ti_seen _ _ _ I). split; intros (i & r & o & Hi & Ho & Hn & Hv).
      + exists i, r, o. destruct (ti_obj _ _ _ I _ _ Hi) as (o' & Ho' & Hw & _).
        rewrite Ho in Ho'. inversion Ho'; subst o'. auto.
      + destruct (ti_obj _ _ _ I _ _ Hi) as (o' & Ho' & Hw & _).
        rewrite (F _ _ Ho' Hw) in Ho. inversion Ho; subst o'. exists i, r, o. auto.
  Qed.

  (** the workhorse: header [h] gets table [t'], only objects that were unowned or owned by [h] change,
      and what [h] owns afterwards is listed in [t'] *)
  Lemma KInv_update : forall tbls st st' h t t',
    KInv tbls st -> nth_error tbls h = Some t ->
    TInv h st' t' ->
    (forall r o h', nth_error st r = Some o -> o_owner o = Some h' -> h' <> h -> nth_error st' r = Some o) ->
    (forall r o' h0, nth_error st' r = Some o' -> o_owner o' = Some h0 ->
       (h0 = h /\ In r (t_items t')) \/ (h0 <> h /\ nth_error st r = Some o')) ->
    KInv (upd tbls h t') st'.
  Proof.
    intros tbls st st' h t t' [KT KO] Ht I' F N. split.
    - intros h' t'' H'. apply nth_error_upd in H'. destruct H' as [[E1 E2]|[NE H']].
      + subst. exact I'.
      + eapply TInv_frame. apply KT; eassumption. intros r o Ho Hw. eapply F; eauto.
    - intros r o' h0 Ho Hw. destruct (N _ _ _ Ho Hw) as [(E & Hin)|(NE & Hold)].
      + subst h0. exists t'. split; [apply nth_error_upd_eq; eapply nth_error_valid; eauto|].
        destruct (listed_at_id _ _ _ _ _ I' Ho Hin). auto.
      + destruct (KO _ _ _ Hold Hw) as (t0 & Ht0 & Hl & Hp). exists t0. split; auto.
        rewrite nth_error_upd_ne by auto. exact Ht0.
  Qed.

  Lemma KInv_listed : forall tbls st h t r o, KInv tbls st -> nth_error tbls h = Some t ->
    nth_error st r = Some o -> o_owner o = Some h -> In r (t_items t).
  Proof.
    intros tbls st h t r o K Ht Hr Hw. destruct (proj2 K _ _ _ Hr Hw) as (t0 & Ht0 & Hl & _).
    rewrite Ht in Ht0. inversion Ht0; subst t0. eapply nth_error_In; eauto.
  Qed.

  Lemma KInv_app_tbl : forall tbls st st' t',
    KInv tbls st ->
    TInv (length tbls) st' t' ->
    (forall r o h', nth_error st r = Some o -> o_owner o = Some h' -> nth_error st' r = Some o) ->
    (forall r o' h0, nth_error st' r = Some o' -> o_owner o' = Some h0 ->
       (h0 = length tbls /\ In r (t_items t')) \/ (nth_error st r = Some o')) ->
    KInv (tbls ++ [t']) st'.
  Proof.
    intros tbls st st' t' [KT KO] I' F N. split.
    - intros h t H. apply nth_error_app_inv in H. destruct H as [[L H]|[E1 E2]].
      + eapply TInv_frame. apply KT; eassumption. intros; eapply F; eauto.
      + subst. exact I'.
    - intros r o' h0 Ho Hw. destruct (N _ _ _ Ho Hw) as [(E & Hin)|Hold].
      + subst h0. exists t'. split; [apply nth_error_app_last|]. destruct (listed_at_id _ _ _ _ _ I' Ho Hin). auto.
      + destruct (KO _ _ _ Hold Hw) as (t0 & Ht0 & Hl & Hp). exists t0. split; auto.
        rewrite nth_error_app1; auto. apply nth_error_Some. congruence.
  Qed.

  Lemma KInv_alloc : forall tbls st o, KInv tbls st -> o_owner o = None -> KInv tbls (st ++ [o]).
  Proof.
    intros tbls st o [KT KO] Hn. split.
    - intros h t H. eapply TInv_frame. apply KT; eassumption.
      intros r o' Ho _. rewrite nth_error_app1; auto. apply nth_error_Some. congruence.
    - intros r o' h0 Ho Hw. apply nth_error_app_inv in Ho. destruct Ho as [[L Ho]|[E1 E2]].
      + eapply KO; eauto.
      + subst. congruence.
  Qed.

  Lemma KInv_unowned_upd : forall tbls st r o o', KInv tbls st ->
    nth_error st r = Some o -> o_owner o = None -> o_owner o' = None -> KInv tbls (upd st r o').
  Proof.
    intros tbls st r o o' [KT KO] Hr Hn Hn'. split.
    - intros h t H. eapply TInv_frame. apply KT; eassumption.
      intros r0 o0 Ho Hw. rewrite nth_error_upd_ne; auto. intro; subst. congruence.
    - intros r0 o0 h0 Ho Hw. apply nth_error_upd in Ho. destruct Ho as [[E1 E2]|[NE Ho]].
      + subst. congruence.
      + eapply KO; eauto.
  Qed.

  Lemma TInv_add_fresh : forall h st t r o,
    TInv h st t -> nth_error st r = Some o -> o_owner o = None ->
    mget (o_name o) (t_seen t) = None ->
    TInv h (upd st r (with_ident o (Some h) (zlen (t_items t))))
         (mkTbl (t_items t ++ [r]) (mset (o_name o) (zlen (t_items t)) (t_seen t))).
  Proof.
    intros h st t r o I Hr Hn Hs. destruct (TInv_elim _ _ _ I) as (os & Ho & W & R).
    assert (L := objs_length _ _ _ Ho).
    apply TInv_intro with (os := os ++ [with_ident o (Some h) (zlen (t_items t))]); simpl.
    - apply objs_app; [rewrite objs_upd_other by (eapply unowned_unlisted; eauto); exact Ho|].
      simpl. rewrite nth_error_upd_eq by (eapply nth_error_valid; eauto). reflexivity.
    - intros i x Hi. apply nth_error_app_inv in Hi. destruct Hi as [[_ Hi]|[-> ->]]; [exact (W i x Hi)|].
      simpl. unfold zlen. rewrite L. auto.
    - rewrite map_app. simpl. replace (zlen (t_items t)) with (zlen (map o_name os)) by (unfold zlen; rewrite map_length, L; reflexivity).
      apply Rep_snoc; assumption.
  Qed.

  Lemma add_fresh_length : forall eused h (st : store) t r o st' t' e, add_fresh eused h st t r o = (st', t', e) -> length st' = length st.
  Proof.
    intros eused h st t r o st' t' e A. unfold add_fresh in A.
    destruct (owned o || (0 <=? o_id o)); inversion A; subst; auto. apply upd_length.
  Qed.

  Lemma KInv_add_fresh : forall eused tbls st h t r o st' t' e,
    KInv tbls st -> nth_error tbls h = Some t -> nth_error st r = Some o ->
    mget (o_name o) (t_seen t) = None ->
    add_fresh eused h st t r o = (st', t', e) ->
    KInv (upd tbls h t') st'.
  Proof.
    intros eused tbls st h t r o st' t' e K Ht Hr Hs A. unfold add_fresh in A.
    destruct (owned o || (0 <=? o_id o)) eqn:G.
    - inversion A; subst. rewrite upd_same by assumption. exact K.
    - inversion A; subst; clear A. apply orb_false_iff in G. destruct G as [G1 G2].
      assert (Hn : o_owner o = None) by (unfold owned in G1; destruct (o_owner o); congruence).
      eapply KInv_update; eauto.
      + apply TInv_add_fresh; auto. apply (proj1 K); assumption.
      + intros r0 o0 h' Ho Hw NE. rewrite nth_error_upd_ne; auto. intro; subst. congruence.
      + intros r0 o0 h0 Ho Hw. simpl. apply nth_error_upd in Ho. destruct Ho as [[E1 E2]|[NE Ho]].
        * subst. simpl in Hw. inversion Hw; subst. left. split; [reflexivity|apply in_or_app; right; left; reflexivity].
        * destruct (Nat.eq_dec h0 h) as [E|NE2]; [|right; auto].
          subst h0. left. split; [reflexivity|]. apply in_or_app. left. eapply KInv_listed; eauto.
  Qed.

  Lemma KInv_setname : forall tbls st h t r o n,
    KInv tbls st -> nth_error tbls h = Some t -> nth_error st r = Some o -> o_owner o = Some h ->
    mget n (t_seen t) = None ->
    KInv (upd tbls h (mkTbl (t_items t) (mset n (o_id o) (mdel (o_name o) (t_seen t))))) (upd st r (with_name o n)).
  Proof.
    intros tbls st h t r o n K Ht Hr Hw Hs.
    assert (I := proj1 K _ _ Ht). assert (Hin := KInv_listed _ _ _ _ _ _ K Ht Hr Hw).
    destruct (listed_at_id _ _ _ _ _ I Hr Hin) as (Hl & Hp).
    destruct (TInv_elim _ _ _ I) as (os & Ho & W & R).
    set (i := Z.to_nat (o_id o)) in *. assert (Hio : nth_error os i = Some o) by (apply (objs_nth _ _ _ Ho); eauto).
    eapply KInv_update; eauto.
    - apply TInv_intro with (os := upd os i (with_name o n)); simpl.
      + apply objs_upd_at; auto. eapply TInv_NoDup; eauto.
      + intros j x Hj. apply nth_error_upd in Hj. destruct Hj as [[<- ->]|[_ Hj]]; [exact (W i o Hio)|exact (W j x Hj)].
      + rewrite map_upd. replace (o_id o) with (Z.of_nat i) by (unfold i; lia). apply Rep_rename; auto.
        rewrite nth_error_map, Hio. reflexivity.
    - intros r0 o0 h' Ho0 Hw0 NE. rewrite nth_error_upd_ne; auto. intro; subst. rewrite Hr in Ho0. inversion Ho0; subst. congruence.
    - intros r0 o0 h0 Ho0 Hw0. simpl. apply nth_error_upd in Ho0. destruct Ho0 as [[E1 E2]|[NE Ho0]].
      + subst. simpl in Hw0. left. split; [congruence|exact Hin].
      + destruct (Nat.eq_dec h0 h) as [E|NE2]; [|right; auto]. subst h0. left. split; [reflexivity|eapply KInv_listed; eauto].
  Qed.

  Lemma KInv_install_over : forall tbls st h t d r o erh er o1,
    KInv tbls st -> nth_error tbls h = Some t ->
    nth_error st r = Some o -> o_owner o = None ->
    nth_error (t_items t) d = Some erh -> nth_error st erh = Some er -> o_name o1 = o_name er ->
    KInv (upd tbls h (mkTbl (upd (t_items t) d r) (t_seen t)))
         (upd (upd st r (with_ident o1 (Some h) (Z.of_nat d))) erh (with_ident er None (-1))).
  Proof.
    intros tbls st h t d r o erh er o1 K Ht Hr Hn Hi He Hnm.
    assert (I := proj1 K _ _ Ht). assert (ND := TInv_NoDup _ _ _ I). assert (NL := unowned_unlisted _ _ _ _ _ I Hr Hn).
    destruct (TInv_elim _ _ _ I) as (os & Ho & W & R).
    assert (Hde : nth_error os d = Some er) by (apply (objs_nth _ _ _ Ho); eauto).
    assert (Lr := nth_error_valid _ _ _ Hr). assert (Ld := nth_error_valid _ _ _ Hi).
    assert (Hwe : o_owner er = Some h) by apply (W d er Hde).
    eapply KInv_update; eauto.
    - apply TInv_intro with (os := upd os d (with_ident o1 (Some h) (Z.of_nat d))); simpl.
      + apply objs_install; auto.
      + intros j x Hj. apply nth_error_upd in Hj. destruct Hj as [[<- ->]|[_ Hj]]; [simpl; auto|exact (W j x Hj)].
      + rewrite map_upd, upd_same; [exact R|]. rewrite nth_error_map, Hde. simpl. congruence.
    - intros r0 o0 h' Ho0 Hw NE0.
      rewrite nth_error_upd_ne by (intro; subst; congruence). rewrite nth_error_upd_ne by (intro; subst; congruence). assumption.
    - intros r0 o0 h0 Ho0 Hw. simpl. apply nth_error_upd in Ho0. destruct Ho0 as [[E1 E2]|[NE1 Ho0]]; [subst; discriminate|].
      apply nth_error_upd in Ho0. destruct Ho0 as [[E1 E2]|[NE2 Ho0]].
      + subst. inversion Hw; subst h0. left. split; [reflexivity|]. apply nth_error_In with (n := d). apply nth_error_upd_eq. exact Ld.
      + destruct (Nat.eq_dec h0 h) as [E|NE3]; [|right; auto]. subst h0. left. split; [reflexivity|].
        destruct (In_nth_error _ _ (KInv_listed _ _ _ _ _ _ K Ht Ho0 Hw)) as (j & Hj).
        apply nth_error_In with (n := j). rewrite nth_error_upd_ne; [exact Hj|]. intro; subst j. congruence.
  Qed.

  Definition dec_id (o : obj P) : obj P := with_ident o (o_owner o) (o_id o - 1).
  Definition renum (osl : list (obj P)) (seen : smap) : smap := fold_left (fun s o => mset (o_name o) (o_id o - 1) s) osl seen.

  Lemma renum_other : forall osl seen k, ~ In k (map o_name osl) -> mget k (renum osl seen) = mget k seen.
  Proof.
    induction osl as [|o l IH]; intros seen k H; simpl; [reflexivity|].
    rewrite IH by (intro; apply H; right; assumption). apply mget_mset_ne. intro; subst. apply H. left; reflexivity.
  Qed.
  Lemma renum_in : forall osl seen j o, NoDup (map o_name osl) -> nth_error osl j = Some o ->
    mget (o_name o) (renum osl seen) = Some (o_id o - 1).
  Proof.
    induction osl as [|x l IH]; intros seen j o ND Hj; [destruct j; discriminate|]. inversion ND as [|? ? Nx ND']; subst.
    destruct j; simpl in *.
    - inversion Hj; subst x. rewrite renum_other by exact Nx. apply mget_mset_eq.
    - eapply IH; eauto.
  Qed.

  (** the loop of Remove*: the listed objects move down by one *)
  Lemma shift_ids_spec : forall (l : list nat) (st : store) (seen : smap) osl, NoDup l -> objs st l = Some osl ->
    exists st2, shift_ids st seen l = Ok (st2, renum osl seen) /\ length st2 = length st /\
      (forall x, ~ In x l -> nth_error st2 x = nth_error st x) /\ objs st2 l = Some (map dec_id osl).
  Proof.
    induction l as [|r l IH]; intros st seen osl ND Ho; simpl in *.
    - inversion Ho; subst. exists st. auto.
    - destruct (nth_error st r) as [o|] eqn:Hr; [|discriminate]. destruct (objs st l) as [os'|] eqn:Ho'; [|discriminate].
      inversion Ho; subst osl; clear Ho. inversion ND as [|? ? Nr ND']; subst.
      destruct (IH (upd st r (dec_id o)) (mset (o_name o) (o_id o - 1) seen) os' ND') as (st2 & R & L2 & U2 & O2).
      { rewrite objs_upd_other by exact Nr. exact Ho'. }
      exists st2. split; [exact R|]. rewrite upd_length in L2. split; [exact L2|]. split.
      + intros x Hx. rewrite U2 by (intro; apply Hx; right; assumption). apply nth_error_upd_ne. intro; subst. apply Hx. left; reflexivity.
      + rewrite (U2 r Nr), nth_error_upd_eq, O2 by (eapply nth_error_valid; eauto). reflexivity.
  Qed.

  Lemma KInv_remove : forall einv tbls (st : store) h t r,
    KInv tbls st -> nth_error tbls h = Some t -> (r < length st)%nat ->
    exists st' t' e, remove_gen einv st t r = Ok (st', t', e) /\ KInv (upd tbls h t') st' /\ length st' = length st.
  Proof.
    intros einv tbls st h t r K Ht Lr. unfold remove_gen.
    destruct (nth_error st r) as [o|] eqn:Hr; [|apply nth_error_None in Hr; lia].
    destruct (listed_at (t_items t) (o_id o) r) eqn:LA; cbn [negb].
    2:{ exists st, t, einv. split; auto. rewrite upd_same by assumption. auto. }
    unfold listed_at in LA. destruct (idx (t_items t) (o_id o)) as [r'|] eqn:Hidx; [|discriminate].
    apply Nat.eqb_eq in LA. subst r'. apply idx_Some in Hidx. destruct Hidx as [Hp Hi].
    assert (I := proj1 K _ _ Ht). set (i := Z.to_nat (o_id o)) in *.
    rewrite skipn_cut by (apply Nat.lt_le_incl; eapply nth_error_valid; eauto).
    (* the list is [l1 ++ r :: l2] and names [os1 ++ o :: os2]; it becomes [l1 ++ l2], naming [os1] and the renumbered [os2] *)
    assert (Es := nth_error_split_at _ _ _ Hi). set (l1 := firstn i (t_items t)) in *. set (l2 := skipn (S i) (t_items t)) in *.
    assert (ND := TInv_NoDup _ _ _ I). rewrite Es in ND. assert (Nr := NoDup_remove_2 _ _ _ ND). apply NoDup_remove_1 in ND.
    destruct (TInv_elim _ _ _ I) as (os & Ho & W & R). rewrite Es in Ho.
    destruct (objs_app_inv _ _ _ _ Ho) as (os1 & osr & Ho1 & Hor & ->). simpl in Hor. rewrite Hr in Hor.
    destruct (objs st l2) as [os2|] eqn:Ho2; [|discriminate]. inversion Hor; subst osr; clear Hor.
    assert (N2 : ~ In r l2) by (intro; apply Nr; apply in_or_app; right; assumption).
    destruct (NoDup_app_inv _ _ ND) as (_ & ND2 & D12).
    destruct (shift_ids_spec l2 st (mdel (o_name o) (t_seen t)) os2 ND2 Ho2) as (st2 & RS & L2 & U2 & O2).
    rewrite RS, (U2 r N2), Hr. eexists _, _, 0. split; [reflexivity|]. split; [|rewrite upd_length; exact L2].
    assert (W2 : forall j o', nth_error os2 j = Some o' -> o_owner o' = Some h /\ o_id o' = Z.of_nat (S (length os1 + j))).
    { intros j o' Hj. replace (S (length os1 + j)) with (length os1 + S j)%nat by lia. apply W. rewrite nth_error_app2 by lia.
      replace (length os1 + S j - length os1)%nat with (S j) by lia. exact Hj. }
    assert (In2 : forall x, In x l2 -> exists o', nth_error st2 x = Some (dec_id o') /\ o_owner o' = Some h).
    { intros x Hx. apply In_nth_error in Hx. destruct Hx as (j & Hj).
      destruct (nth_error_lt os2 j) as (o' & Ho'); [rewrite (objs_length _ _ _ Ho2); eapply nth_error_valid; eauto|].
      exists o'. split; [|apply (W2 j o' Ho')]. assert (E : nth_error (map dec_id os2) j = Some (dec_id o')) by (rewrite nth_error_map, Ho'; reflexivity).
      apply (objs_nth _ _ _ O2) in E. destruct E as (x' & Hx' & E). congruence. }
    assert (Wo : o_owner o = Some h) by (apply (W (length os1) o); rewrite nth_error_app2, Nat.sub_diag by lia; reflexivity).
    eapply KInv_update; eauto.
    - apply TInv_intro with (os := os1 ++ map dec_id os2); simpl.
      + rewrite objs_upd_other by exact Nr. apply objs_app; [|exact O2]. rewrite <- Ho1. apply objs_frame. intros y Hy. apply U2.
        exact (D12 y Hy).
      + intros j x Hj. destruct (Nat.lt_ge_cases j (length os1)) as [L|L].
        * rewrite nth_error_app1 in Hj by exact L. apply W. rewrite nth_error_app1; assumption.
        * rewrite nth_error_app2 in Hj by exact L. apply nth_error_map_Some in Hj. destruct Hj as (o' & Hj & <-).
          destruct (W2 _ _ Hj) as (a & b). simpl. split; [exact a|]. rewrite b. lia.
      + rewrite map_app, map_map. rewrite map_app in R. apply (Rep_remove _ _ _ (o_name o) _ R).
        * intros k Hk. apply renum_other. exact Hk.
        * intros j k Hj. apply nth_error_map_Some in Hj. destruct Hj as (o' & Hj & <-).
          rewrite (renum_in os2 _ j o'); [|apply Rep_NoDup in R; apply NoDup_remove_1 in R; exact (proj1 (proj2 (NoDup_app_inv _ _ R)))|exact Hj].
          rewrite (proj2 (W2 _ _ Hj)), map_length. f_equal. lia.
    - intros r0 o0 h' Ho0 Hw0 NE. rewrite nth_error_upd_ne by (intro; subst; congruence). rewrite U2; [exact Ho0|].
      intro Hin. assert (Hin' : In r0 (t_items t)) by (rewrite Es; apply in_or_app; right; right; exact Hin).
      apply In_nth_error in Hin'. destruct Hin' as (j & Hj). destruct (ti_obj _ _ _ I _ _ Hj) as (ox & Hox & Hwx & _). congruence.
    - intros r0 o0 h0 Ho0 Hw0. simpl. apply nth_error_upd in Ho0. destruct Ho0 as [[E1 E2]|[NE Ho0]]; [subst; discriminate|].
      destruct (in_dec Nat.eq_dec r0 l2) as [Hin|Hnin].
      + destruct (In2 r0 Hin) as (o' & Hs & Hwo'). rewrite Hs in Ho0. inversion Ho0; subst o0. simpl in Hw0.
        left. split; [congruence|apply in_or_app; right; exact Hin].
      + rewrite U2 in Ho0 by exact Hnin. destruct (Nat.eq_dec h0 h) as [->|NE2]; [|right; auto]. left. split; [reflexivity|].
        assert (Hl := KInv_listed _ _ _ _ _ _ K Ht Ho0 Hw0). rewrite Es in Hl. apply in_app_or in Hl.
        destruct Hl as [Hl|[Hl|Hl]]; [apply in_or_app; left; exact Hl|congruence|contradiction].
  Qed.
  Definition copy_of (hn : nat) (o : obj P) : obj P := mkObj (Some hn) (o_id o) (o_name o) (o_pay o).

  (** Header.Clone for one list: the copies are appended to the store in order *)
  Lemma clone_items_spec : forall (items : list nat) (hn : nat) (st : store) os, objs st items = Some os ->
    clone_items hn st items = Ok (st ++ map (copy_of hn) os, seq (length st) (length os)).
  Proof.
    induction items as [|r l IH]; intros hn st os Ho; simpl in *.
    - inversion Ho; subst. simpl. rewrite app_nil_r. reflexivity.
    - destruct (nth_error st r) as [o|]; [|discriminate]. destruct (objs st l) as [os'|] eqn:Ho'; [|discriminate]. inversion Ho; subst os.
      rewrite (IH hn _ os' (objs_app_st _ _ _ _ Ho')), app_length, Nat.add_1_r, <- app_assoc. reflexivity.
  Qed.

  Lemma KInv_clone : forall tbls (st : store) h t os,
    KInv tbls st -> nth_error tbls h = Some t -> objs st (t_items t) = Some os ->
    KInv (tbls ++ [mkTbl (seq (length st) (length os)) (t_seen t)]) (st ++ map (copy_of (length tbls)) os).
  Proof.
    intros tbls st h t os K Ht Ho. destruct (TInv_view _ _ _ _ (proj1 K _ _ Ht) Ho) as (W & R).
    set (cs := map (copy_of (length tbls)) os). assert (Lc : length cs = length os) by apply map_length. rewrite <- Lc.
    apply KInv_app_tbl with (st := st); auto.
    - apply TInv_intro with (os := cs); simpl.
      + apply objs_seq.
      + intros i x Hi. apply nth_error_map_Some in Hi. destruct Hi as (o & Hi & <-). simpl. split; [reflexivity|apply (W i o Hi)].
      + unfold cs. rewrite map_map. exact R.
    - intros r o h' Hr _. rewrite nth_error_app1; [exact Hr|eapply nth_error_valid; eauto].
    - intros r o' h0 Hr Hw. simpl. destruct (Nat.lt_ge_cases r (length st)) as [L|L]; [right; rewrite nth_error_app1 in Hr; assumption|].
      left. assert (Lr := nth_error_valid _ _ _ Hr). rewrite app_length in Lr.
      rewrite nth_error_app2 in Hr by exact L. apply nth_error_map_Some in Hr. destruct Hr as (o & _ & <-). simpl in Hw.
      split; [congruence|]. apply in_seq. lia.
  Qed.

  Lemma KInv_empty_tbl : forall tbls (st : store), KInv tbls st -> KInv (tbls ++ [tbl0]) st.
  Proof.
    intros tbls st K. apply KInv_app_tbl with (st := st); auto.
    apply TInv_intro with (os := []); [reflexivity|intros i o H; destruct i; discriminate|].
    intros k v. unfold mget. simpl. split; [discriminate|]. intros (i & H & _). destruct i; discriminate.
  Qed.
End GenInv.
