(** C18 — NewMerger followed by Read until the end, in terms of the inputs:
    in both modes [outs ++ rest] is an interleaving of the re-linked inputs,
    which is what [merge_result] says; in sorted mode, for any queue that
    meets the contract, the output is ordered when the inputs are. *)
From Coq Require Import ZArith List Bool Lia Permutation Sorted.
From Hts Require Import Base.Prim Model.Merger Proofs.MergeRun Proofs.Merger.
Import ListNotations.
Open Scope Z_scope.

Section Top.
  Variable links : option (list (list Z)).

  Lemma proj_tagged_lt : forall ins i x, x < i -> proj x (tagged links i ins) = [].
  Proof.
    induction ins as [| inp t IH]; intros i x Hlt; simpl; [reflexivity |].
    rewrite proj_app, proj_pair, IH by lia.
    destruct (i =? x) eqn:E; [apply Z.eqb_eq in E; lia | reflexivity].
  Qed.

  Lemma proj_tagged : forall ins i j inp,
      nth_error ins j = Some inp ->
      proj (i + Z.of_nat j) (tagged links i ins) = map (relink links (i + Z.of_nat j)) (i_recs inp).
  Proof.
    induction ins as [| a t IH]; intros i j inp Hn; [destruct j; discriminate |].
    destruct j as [| j]; simpl in Hn.
    - inversion Hn; subst. simpl. rewrite Z.add_0_r.
      rewrite proj_app, proj_pair, Z.eqb_refl, proj_tagged_lt by lia. now rewrite app_nil_r.
    - replace (i + Z.of_nat (S j)) with ((i + 1) + Z.of_nat j) by lia. cbn [tagged].
      rewrite proj_app, proj_pair, (IH _ _ _ Hn).
      destruct (i =? i + 1 + Z.of_nat j) eqn:E; [apply Z.eqb_eq in E; lia | reflexivity].
  Qed.

  Definition stable_for (ins : list input) (outs : list (Z * rec)) (e : Z) : Prop :=
    forall j inp, nth_error ins j = Some inp ->
      exists k, proj (Z.of_nat j) outs = firstn k (map (relink links (Z.of_nat j)) (i_recs inp))
                /\ (e = 0 -> proj (Z.of_nat j) outs = map (relink links (Z.of_nat j)) (i_recs inp)).

  Definition merge_result (ins : list input) (outs : list (Z * rec)) (e : Z) : Prop :=
    e = (if existsb i_fail ins then 1 else 0) /\
    (exists rest, Permutation (tagged links 0 ins) (outs ++ rest) /\ (e = 0 -> rest = [])) /\
    stable_for ins outs e.

  Lemma interleaved_result : forall ins outs rest e,
      e = (if existsb i_fail ins then 1 else 0) ->
      Permutation (tagged links 0 ins) (outs ++ rest) ->
      (forall j, proj j (tagged links 0 ins) = proj j outs ++ proj j rest) ->
      (e = 0 -> rest = []) ->
      merge_result ins outs e.
  Proof.
    intros ins outs rest e He HP Hproj Hrest. split; [exact He |]. split; [eauto |].
    intros j inp Hn. pose proof (proj_tagged ins 0 j inp Hn) as Hp. cbn [Z.add] in Hp.
    rewrite <- Hp, Hproj. exists (length (proj (Z.of_nat j) outs)). split.
    - now rewrite firstn_app, Nat.sub_diag, firstn_all, app_nil_r.
    - intros E. rewrite (Hrest E). simpl. now rewrite app_nil_r.
  Qed.

  Lemma tagged_in : forall ins k i r,
      ins_ok links k ins -> In (i, r) (tagged links k ins) ->
      exists j inp r0, i = k + Z.of_nat j /\ nth_error ins j = Some inp /\ In r0 (i_recs inp) /\
                       reassign links i r0 = Ok r.
  Proof.
    induction ins as [| a t IH]; intros k i r Hok Hin; simpl in Hin; [contradiction |].
    destruct Hok as [Ha Ht]. apply in_app_or in Hin. destruct Hin as [Hin | Hin].
    - apply in_map_iff in Hin. destruct Hin as [r1 [Heq Hin]]. inversion Heq; subst.
      apply in_map_iff in Hin. destruct Hin as [r0 [<- Hin]].
      exists O, a, r0. split; [simpl; lia |]. split; [reflexivity |]. split; [exact Hin |].
      apply reassign_relink. rewrite Forall_forall in Ha. now apply Ha.
    - destruct (IH (k + 1) i r Ht Hin) as [j [inp [r0 [H1 [H2 [H3 H4]]]]]].
      exists (S j), inp, r0. split; [lia |]. split; [exact H2 |]. split; assumption.
  Qed.

  Lemma result_relinked : forall ins outs e,
      ins_ok links 0 ins -> merge_result ins outs e ->
      forall i r, In (i, r) outs ->
        exists j inp r0, i = Z.of_nat j /\ nth_error ins j = Some inp /\ In r0 (i_recs inp) /\
                         reassign links i r0 = Ok r.
  Proof.
    intros ins outs e Hok (_ & (rest & HP & _) & _) i r Hin.
    apply (tagged_in ins 0 i r Hok).
    eapply Permutation_in; [apply Permutation_sym; exact HP |]. apply in_or_app. now left.
  Qed.

  Lemma cat_merge : forall pq ins,
      ins_ok links 0 ins ->
      exists outs e mf rest,
        run_merge pq links None ins = Ok (outs, e, mf) /\
        tagged links 0 ins = outs ++ rest /\ (e = 0 -> rest = []) /\
        merge_result ins outs e /\ final_ok e mf.
  Proof.
    intros pq ins Hok.
    destruct (drain_cat links pq (S (total_recs ins)) ins 0 Hok (Nat.lt_succ_diag_r _))
      as (outs & e & mf & rest & Hd & Hfl & He & Hrest & Hfin).
    exists outs, e, mf, rest. unfold run_merge, new_merger, new_cat. cbn [obind]. rewrite Hd.
    split; [reflexivity |]. split; [exact Hfl |]. split; [exact Hrest |]. split; [| exact Hfin].
    apply (interleaved_result ins outs rest); auto; rewrite Hfl; [reflexivity | intros; apply proj_app].
  Qed.
End Top.

Section SortedOut.
  Variable links : option (list (list Z)).
  Variable le : rec -> rec -> Prop.
  Hypothesis le_trans : forall a b c, le a b -> le b c -> le a c.

  Definition leR (a b : rdr) : Prop :=
    match d_head a, d_head b with Some x, Some y => le x y | _, _ => True end.

  Fixpoint ins_sorted (i : Z) (ins : list input) : Prop :=
    match ins with
    | [] => True
    | inp :: t => StronglySorted le (map (relink links i) (i_recs inp)) /\ ins_sorted (i + 1) t
    end.

  Lemma astreams_sorted : forall ins i, ins_sorted i ins -> streams_sorted le (astreams links i ins).
  Proof.
    induction ins as [| inp t IH]; intros i H; simpl; [constructor |].
    destruct H as [H1 H2]. destruct (i_recs inp) eqn:E; [now apply IH |].
    constructor; [exact H1 | now apply IH].
  Qed.

  Lemma ids_astreams_ge : forall ins i x, In x (ids (astreams links i ins)) -> i <= x.
  Proof.
    induction ins as [| inp t IH]; intros i x Hin; simpl in Hin; [contradiction |].
    destruct (i_recs inp).
    - apply IH in Hin. lia.
    - simpl in Hin. destruct Hin as [<- | Hin]; [unfold s_id; simpl; lia | apply IH in Hin; lia].
  Qed.

  Lemma ids_astreams_nodup : forall ins i, NoDup (ids (astreams links i ins)).
  Proof.
    induction ins as [| inp t IH]; intros i; simpl; [constructor |].
    destruct (i_recs inp); [apply IH |].
    simpl. constructor; [| apply IH].
    intros Hin. apply ids_astreams_ge in Hin. unfold s_id in Hin; simpl in Hin. lia.
  Qed.

  Lemma min_head_min : forall rd q0 h,
      Forall (leR rd) q0 -> d_head rd = Some h -> head_min le h (abs links q0).
  Proof.
    intros rd q0 h HF Hh. unfold head_min, abs. rewrite Forall_map.
    eapply Forall_impl; [| exact HF]. intros r Hr. unfold leR in Hr. rewrite Hh in Hr.
    unfold abs1, s_recs, pend. simpl. destruct (d_head r); [exact Hr | exact I].
  Qed.

  (** For any priority queue that meets the container/heap contract with
      respect to bySortOrderAndID.Less, Pop returning an element [le]-below
      all that remain: NewMerger and Read until the end is a run of the
      abstract merge that always takes a least head. *)
  Theorem sorted_merge : forall less pq wf ins,
      pq_spec (rless less) (pq_init_of pq (rless less)) (pq_push_of pq (rless less))
              (pq_pop_of pq (rless less)) wf (fun x q' => Forall (leR x) q') ->
      ins_ok links 0 ins ->
      exists outs e mf,
        run_merge pq links (Some less) ins = Ok (outs, e, mf) /\
        merge_result links ins outs e /\ final_ok e mf /\
        (ins_sorted 0 ins -> StronglySorted le (map snd outs)).
  Proof.
    intros less pq wf ins PQ Hok.
    destruct (init_heads_spec links ins 0 false Hok) as [rs [Hinit [Hrs Habs]]].
    pose proof (rless_total links less _ Hrs) as Htot.
    destruct (ok_init _ _ _ _ _ _ PQ _ Htot) as [q Hq].
    pose proof (bag_init _ _ _ _ _ _ PQ _ _ Hq) as Hperm.
    pose proof (abs_perm links _ _ Hperm) as Hpa. rewrite Habs in Hpa.
    destruct (drain_sorted links less pq wf _ (head_min le) PQ min_head_min (S (total_recs ins)) q (efail ins))
      as (outs & e & mf & Hd & Hrun & Hf).
    { eapply Permutation_Forall; eauto. }
    { eapply (wf_init _ _ _ _ _ _ PQ); eauto. }
    { rewrite <- (Permutation_length (aflat_perm _ _ Hpa)), aflat_astreams, tagged_length. lia. }
    apply (mrun_perm _ _ _ _ _ _ (Permutation_sym Hpa)) in Hrun.
    exists outs, e, mf. split; [| split; [| split; [exact Hf |]]].
    - unfold run_merge, new_merger, new_sorted. rewrite Hinit. cbn [obind orb]. rewrite Hq. cbn [obind].
      now rewrite Hd.
    - destruct (mrun_spec _ _ _ _ _ Hrun) as [He [rest [H1 [H2 H3]]]]. specialize (H2 (ids_astreams_nodup ins 0)).
      rewrite aflat_astreams in H1, H2. rewrite fail_split in He. eapply interleaved_result; eauto.
    - intros Hs. eapply mrun_sorted; eauto. now apply astreams_sorted.
  Qed.
End SortedOut.
