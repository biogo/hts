(** C02 — the reader on block values refines the flat reader. *)
From Coq Require Import ZArith List Bool Lia.
From Hts Require Import Base.Prim Model.Flat Model.Reader Proofs.FlatLemmas.
Import ListNotations.
Open Scope Z_scope.

Lemma split_length {F pre m post} : split_at F pre m post -> (length post < length F)%nat.
Proof. intros [-> _]. rewrite app_length. simpl. lia. Qed.

Lemma split_total {F pre m post} : split_at F pre m post -> total F = total pre + m_len m + total post.
Proof. intros [-> _]. rewrite total_app, total_cons. lia. Qed.

Lemma find_member_split (pre : file) (m : member) (post : file) (off : Z) :
  Forall (fun x => m_base x <> off) pre -> m_base m = off ->
  find_member (pre ++ m :: post) off = Some m.
Proof.
  intros Hp Hm. unfold find_member. induction Hp as [|x pre Hx _ IH]; simpl.
  - destruct (Z.eqb_spec (m_base m) off); [reflexivity|contradiction].
  - destruct (Z.eqb_spec (m_base x) off); [contradiction|exact IH].
Qed.

Lemma find_member_none (F : file) (off : Z) :
  Forall (fun x => m_base x <> off) F -> find_member F off = None.
Proof.
  unfold find_member. induction 1 as [|x F Hx _ IH]; simpl; [reflexivity|].
  destruct (Z.eqb_spec (m_base x) off); [contradiction|exact IH].
Qed.

Lemma fetch_at {F pre m post} : split_at F pre m post -> fetch F (m_base m) = FOk m.
Proof.
  intros S. unfold fetch. pose proof (split_base_nonneg S).
  destruct (Z.ltb_spec (m_base m) 0); [lia|].
  pose proof (split_pre_lt S) as P. destruct S as [-> _].
  rewrite find_member_split; [reflexivity| |reflexivity].
  eapply Forall_impl; [|exact P]. simpl. intros; lia.
Qed.

Lemma fetch_end (F : file) (off : Z) : wf_file F = true -> fsize F <= off -> fetch F off = FEOF.
Proof.
  intros W H. unfold fetch.
  assert (0 <= fsize F) by (apply (fsize_from_ge 0 F W)).
  destruct (Z.ltb_spec off 0); [lia|].
  rewrite find_member_none.
  - destruct (Z.leb_spec (fsize F) off); [reflexivity|lia].
  - apply wf_from_bases_lt in W. eapply Forall_impl; [|exact W]. simpl. unfold fsize in H. intros; lia.
Qed.

Lemma fetch_ok (F : file) (o : Z) (m : member) :
  wf_file F = true -> fetch F o = FOk m -> exists pre post, split_at F pre m post /\ m_base m = o.
Proof.
  intros W. unfold fetch. destruct (o <? 0); [discriminate|].
  destruct (find_member F o) as [m'|] eqn:E; [|destruct (fsize F <=? o); discriminate].
  intros H; inversion H; subst m'. apply find_some in E. destruct E as [Hin Hb].
  apply Z.eqb_eq in Hb. apply in_split in Hin. destruct Hin as (pre & post & ->).
  exists pre, post. split; [split; [reflexivity|exact W]|exact Hb].
Qed.

Definition blk_of (m : member) (p : Z) (used : bool) : block :=
  mkB (m_base m) (m_size m) (m_data m) p (u16 p) true used.

Definition blk_eof (off : Z) : block := mkB off (-1) [] 0 0 false false.

Lemma fill_at {F pre m post} (b : block) :
  split_at F pre m post -> b_fill F b (m_base m) = (blk_of m 0 (b_used b), eNil).
Proof. intros S. unfold b_fill. rewrite (fetch_at S). reflexivity. Qed.

Lemma fill_end (F : file) (b : block) (off : Z) :
  wf_file F = true -> fsize F <= off -> b_fill F b off = (blk_eof off, eEOF).
Proof. intros W H. unfold b_fill. rewrite (fetch_end F off W H). reflexivity. Qed.

Definition on_member (b : block) (m : member) : Prop :=
  b_base b = m_base m /\ b_hsize b = m_size m /\ b_data b = m_data m /\ b_has b = true /\
  0 <= b_pos b <= m_len m /\ b_oblk b = u16 (b_pos b).

Lemma on_member_blk_of (m : member) (p : Z) (u : bool) : 0 <= p <= m_len m -> on_member (blk_of m p u) m.
Proof. intros. unfold on_member, blk_of; simpl. auto 10. Qed.

Lemma on_member_len {b m} : on_member b m -> b_len b = m_len m - b_pos b.
Proof.
  intros (_ & _ & Hd & Hh & Hp & _). unfold b_len. rewrite Hh, Hd. fold (m_len m).
  destruct (Z.leb_spec (m_len m) (b_pos b)); lia.
Qed.

Lemma on_member_next {F pre m post b} : split_at F pre m post -> on_member b m -> b_next b = m_base m + m_size m.
Proof.
  intros S (Hb & Hs & _). unfold b_next. rewrite Hs, Hb. pose proof (split_size_pos S).
  destruct (Z.eqb_spec (m_size m) (-1)); [lia|reflexivity].
Qed.

Lemma b_read_end {b m} (r : Z) : on_member b m -> b_pos b = m_len m -> b_read b r = (b, [], eEOF).
Proof.
  intros (_ & _ & Hd & _ & Hp & _) E. unfold b_read. rewrite Hd. fold (m_len m).
  destruct (Z.leb_spec (m_len m) (b_pos b)); [reflexivity|lia].
Qed.

Lemma b_read_some {b m} (r : Z) :
  on_member b m -> b_pos b < m_len m -> 0 < r ->
  let k := Z.min r (m_len m - b_pos b) in
  exists b', b_read b r = (b', ztake k (zdrop (b_pos b) (m_data m)), eNil) /\
             on_member b' m /\ b_pos b' = b_pos b + k.
Proof.
  intros (Hb & Hs & Hd & Hh & Hp & Ho) Hlt Hr k. unfold b_read. rewrite Hd. fold (m_len m).
  destruct (Z.leb_spec (m_len m) (b_pos b)); [lia|].
  fold k. eexists. split; [reflexivity|]. split; [|reflexivity].
  unfold on_member; simpl. repeat split; try assumption; try lia.
  rewrite Ho. apply u16_add_u16.
Qed.

Lemma b_readbyte_read (b : block) : b_readbyte b = b_read b 1.
Proof.
  unfold b_readbyte, b_read. destruct (Z.leb_spec (zlen (b_data b)) (b_pos b)); [reflexivity|].
  rewrite Z.min_l by lia. reflexivity.
Qed.

Lemma b_readbyte_some {b m} :
  on_member b m -> b_pos b < m_len m ->
  exists b', b_readbyte b = (b', ztake 1 (zdrop (b_pos b) (m_data m)), eNil) /\
             on_member b' m /\ b_pos b' = b_pos b + 1.
Proof.
  intros On Hlt. rewrite b_readbyte_read.
  destruct (b_read_some 1 On Hlt ltac:(lia)) as (b' & H). rewrite Z.min_l in H by lia. eauto.
Qed.

Lemma v_nextBlock_next {F pre m m' post} (s : vstate) :
  split_at F pre m (m' :: post) -> on_member (v_cur s) m ->
  v_nextBlock F s = (set_cur s (blk_of m' 0 (b_used (v_cur s))), eNil).
Proof.
  intros S On. unfold v_nextBlock. rewrite (on_member_next S On).
  rewrite <- (split_next_base S). rewrite (fill_at _ (split_next S)). reflexivity.
Qed.

Lemma v_nextBlock_end {F pre m} (s : vstate) :
  split_at F pre m [] -> on_member (v_cur s) m ->
  v_nextBlock F s = (set_cur s (blk_eof (fsize F)), eEOF).
Proof.
  intros S On. unfold v_nextBlock. rewrite (on_member_next S On).
  assert (E : fsize F = m_base m + m_size m) by (rewrite (split_fsize S); reflexivity).
  rewrite <- E. rewrite fill_end; [reflexivity|apply S|lia].
Qed.

(** [s] is on some member at flat position [q], with error state nil. *)
Definition at_pos (F : file) (s : vstate) (q : Z) : Prop :=
  v_err s = eNil /\ exists pre m post, split_at F pre m post /\ on_member (v_cur s) m /\ q = total pre + b_pos (v_cur s).

Definition at_eof (F : file) (s : vstate) : Prop :=
  v_err s = eEOF /\ v_cur s = blk_eof (fsize F).

Definition same_misc (s s' : vstate) : Prop := v_lc s' = v_lc s /\ v_blocked s' = v_blocked s.

(* The clauses after the position equation are for the Blocked reads of Proofs/ChunkReaderProof.v. *)
Lemma skip_spec (F : file) : forall post pre m s fuel,
  split_at F pre m post -> on_member (v_cur s) m -> v_err s = eNil -> (length post < fuel)%nat ->
  exists s' e, v_skip F fuel s = Ok (s', e) /\ same_misc s s' /\
    ((e = eNil /\ v_err s' = eNil /\ exists pre' m' post', split_at F pre' m' post' /\ on_member (v_cur s') m' /\
        b_pos (v_cur s') < m_len m' /\ total pre' + b_pos (v_cur s') = total pre + b_pos (v_cur s) /\
        (m_base m <= m_base m' /\ (b_pos (v_cur s) < m_len m -> s' = s) /\
         (b_pos (v_cur s) = m_len m -> m_base m < m_base m' /\ b_pos (v_cur s') = 0 /\ fst (v_lc s') = fst (v_lc s))))
     \/ (e = eEOF /\ at_eof F s' /\ total pre + b_pos (v_cur s) = total F)).
Proof.
  induction post as [|m' post IH]; intros pre m s fuel S On He Hf;
    (destruct fuel as [|fuel]; [simpl in Hf; lia|]);
    pose proof (on_member_len On) as HL; pose proof On as (_ & _ & _ & _ & Hp & _);
    simpl; destruct (Z.eqb_spec (b_len (v_cur s)) 0) as [E0|E0].
  2,4: (* the block is not exhausted *)
    eexists _, _; (split; [reflexivity|]); (split; [split; reflexivity|]); left;
    (split; [reflexivity|]); (split; [assumption|]); eexists pre, m, _; (split; [exact S|]); (split; [exact On|]); (split; [lia|]);
    (split; [reflexivity|]); (split; [lia|]); split; [reflexivity|lia].
  - rewrite (v_nextBlock_end s S On). simpl.
    eexists _, _. split; [reflexivity|]. split; [split; reflexivity|]. right.
    split; [reflexivity|]. split; [split; reflexivity|].
    rewrite (split_total S), total_nil. lia.
  - rewrite (v_nextBlock_next s S On). simpl.
    pose proof (m_len_nonneg m') as Hn'. pose proof (split_next_base S) as Hnb. pose proof (split_size_pos S) as Hsp.
    destruct (IH (pre ++ [m]) m' (set_cur s (blk_of m' 0 (b_used (v_cur s)))) fuel (split_next S))
      as (s' & e & Hr & Hm & Hcase); [apply on_member_blk_of; lia|exact He|simpl in Hf; lia|].
    exists s', e. split; [exact Hr|]. split; [exact Hm|].
    simpl in Hcase. rewrite total_app, total_cons, total_nil in Hcase.
    destruct Hcase as [(H1 & H2 & pre' & m'' & post' & H3 & H4 & H5 & H6 & H7 & H8 & H9)|(H1 & H2 & H3)];
      [left|right; split; [assumption|]; split; [assumption|lia]].
    split; [assumption|]. split; [assumption|]. exists pre', m'', post'.
    split; [exact H3|]. split; [exact H4|]. split; [exact H5|].
    split; [lia|]. split; [lia|]. split; [lia|]. intros _. split; [lia|].
    destruct (Z.eq_dec (m_len m') 0) as [Hz|Hz].
    + destruct (H9 (eq_sym Hz)) as (_ & Hp0 & Hlc0). split; assumption.
    + rewrite (H8 ltac:(lia)). split; reflexivity.
Qed.

Definition copy_post (F : file) (s s' : vstate) (q : Z) (short : bool) : Prop :=
  v_blocked s' = v_blocked s /\ fst (v_lc s') = fst (v_lc s) /\ snd (v_lc s') = b_tx (v_cur s') /\
  (if short then at_eof F s' /\ q = total F else at_pos F s' q).

Lemma zlen_zdrop_data (m : member) (p : Z) : 0 <= p <= m_len m -> zlen (zdrop p (m_data m)) = m_len m - p.
Proof. intros. unfold m_len in *. apply zlen_zdrop. lia. Qed.

Lemma flat_in_member {F pre m post} (p k : Z) : split_at F pre m post -> 0 <= p <= m_len m -> k <= m_len m - p ->
  ztake k (zdrop (total pre + p) (flat_data F)) = ztake k (zdrop p (m_data m)).
Proof.
  intros [-> _] Hp Hk. rewrite zdrop_flat_split by lia. apply ztake_app_le.
  rewrite zlen_zdrop_data by lia. lia.
Qed.

(** The copy loop delivers the bytes that follow the cursor, as many as are wanted and there are: the rest
    of the block and, unless Blocked, the members after it.  By induction on the fuel, one iteration per
    step: a block read appends a piece of the block; on an exhausted block nextBlock moves to the next
    member.  A member costs at most two iterations.  The bytes [out] returned in the end and the final
    flat position [q'] are variables tied by equations: they are the same for every iteration, so the
    induction hypothesis is the goal. *)
Lemma copy_spec (F : file) (n : Z) : forall fuel post pre m s acc out q',
  split_at F pre m post -> on_member (v_cur s) m -> zlen acc <= n ->
  (zlen acc < n ->
   ((if v_blocked s then 0 else 2 * length post) + (if (b_pos (v_cur s) <? m_len m)%Z then 2 else 1) <= fuel)%nat) ->
  out = acc ++ ztake (n - zlen acc) (zdrop (b_pos (v_cur s)) (m_data m) ++ (if v_blocked s then [] else flat_data post)) ->
  q' = total pre + b_pos (v_cur s) + (zlen out - zlen acc) ->
  exists s', v_copy F fuel s n acc = Ok (s', out, if zlen out <? n then eEOF else eNil) /\
             copy_post F s s' q' ((zlen out <? n) && negb (v_blocked s)) /\
             (v_blocked s = true -> on_member (v_cur s') m /\ total pre + b_pos (v_cur s') = q').
Proof.
  induction fuel as [|fuel IH]; intros post pre m s acc out q' S On Hacc Hf Hout Hq;
    simpl v_copy; (destruct (Z.ltb_spec (zlen acc) n) as [Hr|Hr];
     [specialize (Hf Hr)
     |(* nothing is wanted any more *)
      replace (n - zlen acc) with 0 in Hout by lia; rewrite ztake_0, app_nil_r in Hout; subst out;
      rewrite Z.sub_diag, Z.add_0_r in Hq; subst q';
      destruct (Z.ltb_spec (zlen acc) n); [lia|]; eexists; (split; [reflexivity|]); split;
      [unfold copy_post; simpl; repeat split; exists pre, m, post; auto|intros _; split; [exact On|reflexivity]]]).
  { exfalso. revert Hf. destruct (v_blocked s), (b_pos (v_cur s) <? m_len m); lia. }
  pose proof On as (_ & _ & _ & _ & Hp & _). set (p := b_pos (v_cur s)) in *.
  revert Hf. unfold p at 1. destruct (Z.ltb_spec (b_pos (v_cur s)) (m_len m)) as [Hlt|Hge]; intros Hf.
  - (* a read from the block: the induction hypothesis for what is still wanted *)
    destruct (b_read_some (n - zlen acc) On Hlt ltac:(lia)) as (b' & -> & On' & Hp').
    fold p in Hp', Hlt |- *. set (k1 := Z.min (n - zlen acc) (m_len m - p)) in *.
    pose proof (zlen_zdrop_data m p Hp) as Hzd.
    assert (Hz1 : zlen (acc ++ ztake k1 (zdrop p (m_data m))) = zlen acc + k1) by (rewrite zlen_app, ztake_zlen; lia).
    apply (IH post pre m (set_cur s b') _ out q' S On'); simpl v_cur; simpl v_blocked; rewrite ?Hp', ?Hz1.
    + lia.
    + intros Hm. destruct (Z.ltb_spec (p + k1) (m_len m)); [lia|]. revert Hf. destruct (v_blocked s); lia.
    + rewrite Hout, <- app_assoc, <- zdrop_zdrop by lia. f_equal.
      replace (n - (zlen acc + k1)) with (n - zlen acc - k1) by lia. apply ztake_split; lia.
    + lia.
  - (* the block is exhausted *)
    assert (Hal : p = m_len m) by lia.
    rewrite zdrop_all in Hout by (fold (m_len m); lia). simpl app in Hout.
    (* nothing is delivered if nothing follows *)
    assert (Hshort : (if v_blocked s then [] else flat_data post) = [] ->
              out = acc /\ (zlen out <? n) = true /\ q' = total pre + p).
    { intros E. rewrite E, ztake_nil, app_nil_r in Hout. split; [exact Hout|]. rewrite Hq, Hout. split; [apply Z.ltb_lt; lia|lia]. }
    rewrite (b_read_end (n - zlen acc) On Hal). cbv beta iota zeta.
    rewrite app_nil_r. change (eEOF =? eEOF) with true. cbv iota.
    destruct (Z.eqb_spec (zlen acc) n); [lia|].
    change (v_blocked (set_cur s (v_cur s))) with (v_blocked s).
    assert (On1 : on_member (v_cur (set_cur s (v_cur s))) m) by exact On.
    revert Hshort Hout. destruct (v_blocked s) eqn:Hbl; intros Hshort Hout.
    + (* Blocked: the read stops here *)
      destruct (Hshort eq_refl) as (-> & -> & ->).
      eexists. split; [reflexivity|]. split; [|intros _; split; [exact On|reflexivity]].
      unfold copy_post; simpl. rewrite Hbl. repeat split. exists pre, m, post. auto.
    + destruct post as [|m' post].
      * (* the last member: end of the data *)
        destruct (Hshort eq_refl) as (-> & -> & ->).
        rewrite (v_nextBlock_end _ S On1). simpl.
        eexists. split; [reflexivity|]. split; [|discriminate].
        unfold copy_post; simpl. rewrite Hbl. repeat split. rewrite (split_total S), total_nil. lia.
      * rewrite (v_nextBlock_next _ S On1). change (eNil =? eNil) with true. cbv iota.
        set (s2 := set_cur (set_cur s (v_cur s)) (blk_of m' 0 (b_used (v_cur (set_cur s (v_cur s)))))).
        pose proof (m_len_nonneg m') as Hn'.
        destruct (IH post (pre ++ [m]) m' s2 acc out q' (split_next S) ltac:(apply on_member_blk_of; lia) Hacc)
          as (s' & Hc & Hpost & _).
        { intros _. simpl v_blocked. rewrite Hbl. simpl in Hf |- *. destruct (0 <? m_len m'); lia. }
        { simpl v_blocked. rewrite Hbl. exact Hout. }
        { simpl. rewrite total_app, total_cons, total_nil. lia. }
        exists s'. simpl v_blocked in Hpost. rewrite Hbl in Hpost. split; [exact Hc|]. split; [exact Hpost|discriminate].
Qed.

Lemma copy_unblocked (F : file) (n : Z) (pre : file) (m : member) (post : file) (s : vstate) (fuel : nat) :
  split_at F pre m post -> on_member (v_cur s) m -> v_blocked s = false ->
  (2 * length post + 2 <= fuel)%nat -> 0 <= n ->
  let p := b_pos (v_cur s) in
  let rest := zdrop p (m_data m) ++ flat_data post in
  let k := Z.min n (zlen rest) in
  exists s', v_copy F fuel s n [] = Ok (s', ztake k rest, if k <? n then eEOF else eNil) /\
             copy_post F s s' (total pre + p + k) (k <? n).
Proof.
  intros S On Hbl Hf Hn p rest k.
  assert (Hz : zlen (ztake k rest) = k) by (apply ztake_zlen; pose proof (zlen_nonneg rest); lia).
  destruct (copy_spec F n fuel post pre m s [] (ztake k rest) (total pre + p + k) S On) as (s' & Hc & Hpost & _).
  - rewrite zlen_nil. exact Hn.
  - intros _. rewrite Hbl. destruct (b_pos (v_cur s) <? m_len m); lia.
  - rewrite Hbl, zlen_nil, Z.sub_0_r. apply ztake_min.
  - rewrite Hz, zlen_nil. lia.
  - rewrite Hz, Hbl, andb_true_r in *. exists s'. split; assumption.
Qed.

Lemma copy_blocked (F : file) (n : Z) (pre : file) (m : member) (post : file) (s : vstate) (fuel : nat) :
  split_at F pre m post -> on_member (v_cur s) m -> v_blocked s = true -> b_pos (v_cur s) < m_len m ->
  (2 <= fuel)%nat -> 0 <= n ->
  let p := b_pos (v_cur s) in
  let k := Z.min n (m_len m - p) in
  exists s', v_copy F fuel s n [] = Ok (s', ztake k (zdrop p (m_data m)), if k <? n then eEOF else eNil) /\
             copy_post F s s' (total pre + p + k) false /\ on_member (v_cur s') m /\ b_pos (v_cur s') = p + k.
Proof.
  intros S On Hbl Hlt Hf Hn p k.
  pose proof On as (_ & _ & _ & _ & Hp & _). fold p in Hp. pose proof (zlen_zdrop_data m p Hp) as Hzd.
  assert (Hz : zlen (ztake k (zdrop p (m_data m))) = k) by (apply ztake_zlen; lia).
  destruct (copy_spec F n fuel post pre m s [] (ztake k (zdrop p (m_data m))) (total pre + p + k) S On) as (s' & Hc & Hpost & Hon).
  - rewrite zlen_nil. exact Hn.
  - intros _. rewrite Hbl. destruct (b_pos (v_cur s) <? m_len m); lia.
  - unfold k. rewrite Hbl, zlen_nil, Z.sub_0_r, app_nil_r, <- Hzd. apply ztake_min.
  - rewrite Hz, zlen_nil. lia.
  - rewrite Hz, Hbl, andb_false_r in *. exists s'. destruct (Hon eq_refl) as [H1 H2]. split; [exact Hc|]. split; [exact Hpost|]. split; [exact H1|lia].
Qed.

Lemma addressable_len {F pre m post} : split_at F pre m post -> addressable F = true -> m_len m <= 65535.
Proof.
  intros [-> _] H. unfold addressable in H. rewrite forallb_forall in H.
  specialize (H m ltac:(apply in_or_app; right; left; reflexivity)). lia.
Qed.

Lemma tr_on_member {F pre m post b} :
  split_at F pre m post -> on_member b m -> b_pos b <= 65535 -> tr F (b_tx b) = total pre + b_pos b.
Proof.
  intros S (Hb & _ & _ & _ & Hp & Ho) Hle. unfold tr, b_tx. simpl. rewrite Hb, Ho, (split_before S).
  rewrite u16_small by lia. reflexivity.
Qed.

Lemma valid_on_member {F pre m post b} :
  split_at F pre m post -> on_member b m -> b_pos b <= 65535 -> valid_off F (fst (b_tx b)) (snd (b_tx b)) = true.
Proof.
  intros S (Hb & _ & _ & _ & Hp & Ho) Hle. unfold valid_off, b_tx. simpl. apply existsb_exists.
  exists m. split; [destruct S as [-> _]; apply in_or_app; right; left; reflexivity|].
  rewrite Hb, Ho, u16_small by lia. rewrite Z.eqb_refl. simpl.
  repeat rewrite andb_true_iff. repeat split; apply Z.leb_le; lia.
Qed.

Lemma tr_eof (F : file) : wf_file F = true -> tr F (b_tx (blk_eof (fsize F))) = total F.
Proof. intros W. unfold tr, b_tx, blk_eof. simpl. rewrite (before_fsize F W). lia. Qed.

Record sim (F : file) (s : vstate) (f : fstate) : Prop := {
  sim_blocked : v_blocked s = f_blocked f;
  sim_begin : tr F (fst (v_lc s)) = fst (f_chunk f);
  sim_begin_valid : valid_off F (fst (fst (v_lc s))) (snd (fst (v_lc s))) = true;
  sim_end : addressable F = true -> tr F (snd (v_lc s)) = snd (f_chunk f);
  sim_state : (f_eof f = false /\ at_pos F s (f_pos f)) \/ (f_eof f = true /\ at_eof F s) }.

Lemma at_pos_has {F s q} : at_pos F s q -> b_has (v_cur s) = true.
Proof. intros (_ & pre & m & post & _ & On & _). apply On. Qed.

Lemma sim_nil_has {F v f} : sim F v f -> v_err v = eNil -> b_has (v_cur v) = true.
Proof.
  intros [_ _ _ _ [[_ H]|[_ [H _]]]] He; [exact (at_pos_has H)|]. rewrite He in H. discriminate.
Qed.

(** Read and ReadByte begin alike: with the sticky end flag set they return at once; otherwise the
    exhausted blocks are discarded, which ends at the end of the data or on a block with bytes left. *)
Lemma sim_skip (F : file) (s : vstate) (f : fstate) :
  wf_file F = true -> sim F s f ->
  (f_eof f = true /\ v_err s = eEOF) \/
  (f_eof f = false /\ v_err s = eNil /\ exists s1 e, v_skip F (S (length F)) s = Ok (s1, e) /\
     ((e = eEOF /\ f_pos f = total F /\ sim F s1 (mkF (f_pos f) true (f_blocked f) (f_chunk f))) \/
      (e = eNil /\ v_err s1 = eNil /\ same_misc s s1 /\ exists pre m post, split_at F pre m post /\
         on_member (v_cur s1) m /\ b_pos (v_cur s1) < m_len m /\ f_pos f = total pre + b_pos (v_cur s1)))).
Proof.
  intros W [Hbl Hbg Hbv Hen [[Hfe (He & pre & m & post & S & On & Hq)]|[Hfe [He Hc]]]]; [right|left; auto].
  split; [exact Hfe|]. split; [exact He|].
  destruct (skip_spec F post pre m s (Datatypes.S (length F)) S On He ltac:(pose proof (split_length S); lia))
    as (s1 & e1 & Hsk & [Hlc1 Hbl1] & Hcase).
  exists s1, e1. split; [exact Hsk|].
  destruct Hcase as [(-> & He1 & pre' & m' & post' & S' & On' & Hlt' & Hq' & _)|(-> & Heof & Hq')]; [right|left].
  - split; [reflexivity|]. split; [exact He1|]. split; [split; assumption|]. exists pre', m', post'. split; [exact S'|]. split; [exact On'|]. split; [exact Hlt'|lia].
  - split; [reflexivity|]. split; [lia|]. constructor; simpl; try rewrite Hlc1; auto. congruence.
Qed.

Lemma sim_after_copy (F : file) (s1 s' : vstate) (f : fstate) (pre : file) (m : member) (post : file) (q' : Z) (short : bool) :
  wf_file F = true ->
  split_at F pre m post -> on_member (v_cur s1) m -> b_pos (v_cur s1) < m_len m ->
  v_blocked s1 = f_blocked f -> f_pos f = total pre + b_pos (v_cur s1) ->
  copy_post F (set_begin s1 (b_tx (v_cur s1))) s' q' short ->
  sim F s' (mkF q' short (f_blocked f) (f_pos f, q')).
Proof.
  intros W S On Hlt Hbl Hq (Hb & Hfst & Hsnd & Hst).
  pose proof (split_len_le S) as Hle.
  simpl in Hb, Hfst.
  constructor; simpl.
  - rewrite Hb. exact Hbl.
  - rewrite Hfst, Hq. simpl. apply (tr_on_member S On). lia.
  - rewrite Hfst. simpl. apply (valid_on_member S On). lia.
  - intros Ha. rewrite Hsnd. destruct short.
    + destruct Hst as [[_ Hc] Hq']. rewrite Hc, (tr_eof F W). lia.
    + destruct Hst as (_ & pre' & m' & post' & S' & On' & Hq').
      rewrite (tr_on_member S' On'); [lia|].
      pose proof (addressable_len S' Ha). pose proof On' as (_ & _ & _ & _ & Hp' & _). lia.
  - destruct short; [right|left]; split; try reflexivity; tauto.
Qed.

Lemma read_sim (F : file) (s : vstate) (f : fstate) (n : Z) :
  wf_file F = true -> sim F s f -> 0 <= n ->
  exists s' f' bs e, v_read F s n = Ok (s', bs, e) /\ flat_read F f n = (f', (bs, e)) /\ sim F s' f'.
Proof.
  intros W Hs Hn. unfold v_read, flat_read.
  destruct (sim_skip F s f W Hs) as [[Hfe He]|(Hfe & He & s1 & e & Hsk & Hcase)]; rewrite He, Hfe.
  { exists s, f, [], eEOF. auto. }
  simpl negb. cbv iota. rewrite Hsk.
  destruct Hcase as [(-> & Hq & Hs1)|(-> & He1 & [Hlc1 Hbl1] & pre & m & post & S & On & Hlt & Hq)].
  { replace (total F - f_pos f) with 0 by lia. simpl. eexists _, _, _, _. auto. }
  simpl negb. cbv iota.
  pose proof (split_total S) as Htot. pose proof (total_nonneg post) as Hpn.
  pose proof On as (_ & _ & _ & _ & Hp & _).
  replace (total F - f_pos f =? 0) with false by (symmetry; apply Z.eqb_neq; lia).
  set (s1b := set_begin s1 (b_tx (v_cur s1))).
  assert (Hbl : v_blocked s1b = f_blocked f) by (rewrite <- (sim_blocked _ _ _ Hs); exact Hbl1).
  assert (Hfu : (2 * length post + 2 <= fuel_of F)%nat) by (unfold fuel_of; pose proof (split_length S); lia).
  assert (Hfin : forall s' k short, copy_post F s1b s' (f_pos f + k) short ->
            sim F s' (mkF (f_pos f + k) short (f_blocked f) (f_pos f, f_pos f + k)))
    by (intros s' k short; apply (sim_after_copy F s1 s' f pre m post _ _ W S On Hlt); [rewrite Hbl1; apply Hs|exact Hq]).
  destruct (f_blocked f) eqn:Hfb.
  - (* the end of the block holding the cursor *)
    replace (block_end F 0 (f_pos f) - f_pos f) with (m_len m - b_pos (v_cur s1))
      by (rewrite Hq; destruct S as [-> _]; rewrite <- (Z.add_0_l (total pre)), block_end_split by lia; lia).
    destruct (copy_blocked F n pre m post s1b (fuel_of F) S On Hbl Hlt ltac:(lia) Hn) as (s' & -> & Hpost & _).
    simpl in Hpost |- *. rewrite Hq, flat_in_member by (exact S || lia). rewrite <- Hq in *.
    eexists _, _, _, _. split; [reflexivity|]. split; [reflexivity|]. rewrite andb_false_r. exact (Hfin _ _ _ Hpost).
  - destruct (copy_unblocked F n pre m post s1b (fuel_of F) S On Hbl Hfu Hn) as (s' & Hcp & Hpost).
    simpl in Hcp, Hpost. revert Hcp Hpost.
    replace (zdrop (b_pos (v_cur s1)) (m_data m) ++ flat_data post) with (zdrop (f_pos f) (flat_data F))
      by (rewrite Hq; destruct S as [-> _]; apply zdrop_flat_split; exact Hp).
    rewrite zlen_zdrop by (pose proof (total_nonneg pre); unfold total in *; lia). fold (total F). rewrite <- Hq. intros -> Hpost.
    eexists _, _, _, _. split; [reflexivity|]. split; [reflexivity|]. rewrite andb_true_r. exact (Hfin _ _ _ Hpost).
Qed.

Lemma byte_sim (F : file) (s : vstate) (f : fstate) :
  wf_file F = true -> sim F s f ->
  exists s' f' bs e, v_readbyte F s = Ok (s', bs, e) /\ flat_byte F f = (f', (bs, e)) /\ sim F s' f'.
Proof.
  intros W Hs. unfold v_readbyte, flat_byte.
  destruct (sim_skip F s f W Hs) as [[Hfe He]|(Hfe & He & s1 & e & Hsk & Hcase)]; rewrite He, Hfe.
  { exists s, f, [], eEOF. auto. }
  simpl negb. cbv iota. rewrite Hsk.
  destruct Hcase as [(-> & Hq & Hs1)|(-> & He1 & [Hlc1 Hbl1] & pre & m & post & S & On & Hlt & Hq)].
  { replace (total F - f_pos f) with 0 by lia. simpl. eexists _, _, _, _. auto. }
  simpl negb. cbv iota.
  pose proof (split_total S) as Htot. pose proof (total_nonneg post) as Hpn.
  pose proof On as (_ & _ & _ & _ & Hp & _).
  replace (total F - f_pos f =? 0) with false by (symmetry; apply Z.eqb_neq; lia).
  cbv zeta. change (v_cur (set_begin s1 (b_tx (v_cur s1)))) with (v_cur s1).
  destruct (b_readbyte_some On Hlt) as (b' & Hrb & On' & Hp').
  rewrite <- (flat_in_member _ 1 S), <- Hq in Hrb by lia.
  rewrite Hrb. cbv beta iota zeta. change (eNil =? eEOF) with false. cbv iota.
  eexists _, _, _, _. split; [reflexivity|]. split; [reflexivity|].
  apply (sim_after_copy F s1 _ f pre m post _ false W S On Hlt); [rewrite Hbl1; apply Hs|exact Hq|].
  unfold copy_post; simpl. repeat split. exists pre, m, post. split; [exact S|]. split; [exact On'|simpl; lia].
Qed.

Lemma seek_sim (F : file) (s : vstate) (f : fstate) (fo bo : Z) :
  wf_file F = true -> sim F s f -> valid_off F fo bo = true ->
  exists s', v_seek F s fo bo = (s', eNil) /\ sim F s' (fst (flat_seek f (tr F (fo, bo)))).
Proof.
  intros W [Hbl _ _ _ Hst] Hv.
  destruct (valid_off_split F fo bo W Hv) as (pre & m & post & S & <- & Hbo & Hbo').
  assert (Hfin : forall b : block, on_member b m ->
            sim F (set_lc (set_err (set_cur s (b_seek b bo)) eNil) ((m_base m, bo), (m_base m, bo)))
                  (fst (flat_seek f (tr F (m_base m, bo))))).
  { intros b (B1 & B2 & B3 & B4 & _).
    constructor; simpl; auto.
    left. split; [reflexivity|]. split; [reflexivity|]. exists pre, m, post. split; [exact S|].
    split; [unfold on_member, b_seek; simpl; auto 10|]. unfold tr. simpl. rewrite (split_before S). reflexivity. }
  unfold v_seek.
  destruct (negb (m_base m =? b_base (v_cur s)) || negb (b_has (v_cur s))) eqn:Hre.
  - rewrite (fill_at (v_cur s) S). simpl.
    eexists. split; [reflexivity|]. apply Hfin. apply on_member_blk_of. lia.
  - apply orb_false_iff in Hre. destruct Hre as [H1 H2].
    apply negb_false_iff in H1, H2. apply Z.eqb_eq in H1.
    destruct Hst as [[_ (_ & pre0 & m0 & post0 & S0 & On0 & _)]|[_ [_ Hc]]]; [|rewrite Hc in H2; discriminate].
    destruct (split_unique S S0 ltac:(rewrite H1; apply On0)) as (_ & -> & _).
    simpl. eexists. split; [reflexivity|]. apply Hfin. exact On0.
Qed.

Definition valid_op (F : file) (o : rop) : Prop :=
  match o with
  | OSeek f b => valid_off F f b = true
  | ORead n => 0 <= n
  | _ => True
  end.

Lemma step_sim (F : file) (s : vstate) (f : fstate) (o : rop) :
  wf_file F = true -> sim F s f -> valid_op F o ->
  exists s' r, v_step F s o = Ok (s', r) /\ snd (flat_step F f o) = r /\ sim F s' (fst (flat_step F f o)).
Proof.
  intros W Hs Hv. destruct o as [fo bo|n| |b| |k cap]; simpl in *.
  - destruct (seek_sim F s f fo bo W Hs Hv) as (s' & Hk & Hs'). rewrite Hk. eauto.
  - destruct (read_sim F s f n W Hs Hv) as (s' & f' & bs & e & Hr & Hf & Hs'). rewrite Hr, Hf. eauto.
  - destruct (byte_sim F s f W Hs) as (s' & f' & bs & e & Hr & Hf & Hs'). rewrite Hr, Hf. eauto.
  - eexists _, _. split; [reflexivity|]. split; [reflexivity|].
    destruct Hs as [Hbl Hbg Hbv Hen Hst]. constructor; simpl; auto.
  - pose proof (sim_begin_valid _ _ _ Hs) as Hbv. pose proof (sim_begin _ _ _ Hs) as Hbg.
    destruct (fst (v_lc s)) as [fo bo]. simpl in Hbv.
    destruct (seek_sim F s f fo bo W Hs Hbv) as (s' & Hk & Hs'). rewrite Hk, <- Hbg. eauto.
  - eauto.
Qed.

Lemma init_sim (F : file) : wf_file F = true -> F <> [] -> sim F (fst (v_init F)) f_init /\ snd (v_init F) = eNil.
Proof.
  intros W Hne. destruct F as [|m0 F']; [congruence|].
  assert (S : split_at (m0 :: F') [] m0 F') by (split; [reflexivity|exact W]).
  assert (Hb0 : m_base m0 = 0) by (rewrite (split_base S); reflexivity).
  pose proof (m_len_nonneg m0) as Hl0.
  assert (Htr : tr (m0 :: F') (0, 0) = 0).
  { unfold tr. cbn [fst snd]. rewrite before_none; [reflexivity|apply (wf_from_bases_ge 0 _ W)]. }
  assert (Hfill : b_fill (m0 :: F') b_new 0 = (blk_of m0 0 false, eNil)) by (rewrite <- Hb0 at 1; apply (fill_at b_new S)).
  unfold v_init. rewrite Hfill. simpl.
  split; [|reflexivity].
  constructor; simpl; auto.
  - unfold valid_off. simpl. rewrite Hb0. simpl. destruct (Z.leb_spec 0 (m_len m0)); [reflexivity|lia].
  - left. split; [reflexivity|]. split; [reflexivity|]. exists [], m0, F'.
    split; [exact S|]. split; [apply on_member_blk_of; lia|reflexivity].
Qed.

Definition rets (l : list robs) : list fret := map (fun x => fst (fst x)) l.
Definition begins (F : file) (l : list robs) : list Z := map (fun x => tr F (fst (snd (fst x)))) l.
Definition ends (F : file) (l : list robs) : list Z := map (fun x => tr F (snd (snd (fst x)))) l.

Lemma run_sim (F : file) : wf_file F = true -> forall ops s f,
  sim F s f -> Forall (valid_op F) ops ->
  exists l, v_run F s ops = Ok l /\
    rets l = map fst (flat_run F f ops) /\
    begins F l = map (fun y => fst (snd y)) (flat_run F f ops) /\
    (addressable F = true -> ends F l = map (fun y => snd (snd y)) (flat_run F f ops)).
Proof.
  intros W. induction ops as [|o ops IH]; intros s f Hs Hv.
  - exists []. simpl. auto.
  - inversion Hv as [|? ? Hvo Hvr]; subst.
    destruct (step_sim F s f o W Hs Hvo) as (s' & r & Hst & Hr & Hs').
    destruct (IH s' (fst (flat_step F f o)) Hs' Hvr) as (l & Hl & H1 & H2 & H3).
    simpl. rewrite Hst, Hl.
    destruct (flat_step F f o) as [f' r'] eqn:Hfs. simpl in *. subst r'.
    eexists. split; [reflexivity|]. unfold rets, begins, ends in *. simpl.
    split; [f_equal; exact H1|]. split.
    + f_equal; [|exact H2]. apply (sim_begin _ _ _ Hs').
    + intros Ha. f_equal; [|exact (H3 Ha)]. apply (sim_end _ _ _ Hs' Ha).
Qed.

(** C02, main statement, for the reader on block values. *)
Theorem v_refines_flat (F : file) (ops : list rop) :
  wf_file F = true -> F <> [] -> Forall (valid_op F) ops ->
  snd (v_init F) = eNil /\
  exists l, v_run F (fst (v_init F)) ops = Ok l /\
    rets l = map fst (flat_run F f_init ops) /\
    begins F l = map (fun y => fst (snd y)) (flat_run F f_init ops) /\
    (addressable F = true -> ends F l = map (fun y => snd (snd y)) (flat_run F f_init ops)).
Proof.
  intros W Hne Hv. destruct (init_sim F W Hne) as [Hs He]. split; [exact He|].
  apply (run_sim F W ops _ _ Hs Hv).
Qed.
