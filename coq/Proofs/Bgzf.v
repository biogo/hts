(** Framing: what writeBlock emits and when it refuses; a member is read back
    by both specification readers; concatenations of members are walked
    correctly; data members never end in the EOF marker. *)
From Coq Require Import ZArith Lia List Bool.
From Hts Require Import Base.Prim Base.WrList Generated Model.Bgzf.
Import ListNotations.
Open Scope Z_scope.

Ltac Zify.zify_post_hook ::= Z.div_mod_to_equations.

Lemma le16_val x : 0 <= x < 65536 -> x mod 256 + 256 * ((x / 256) mod 256) = x.
Proof. lia. Qed.

Lemma zeqb_refl l : zeqb l l = true.
Proof. induction l; cbn; [reflexivity|]. rewrite Z.eqb_refl. assumption. Qed.

Lemma zeqb_eq a b : zeqb a b = true -> a = b.
Proof.
  revert b; induction a as [|x a IH]; destruct b as [|y b]; cbn; try discriminate; [reflexivity|].
  intros H. apply andb_prop in H. destruct H as [H1 H2]. apply Z.eqb_eq in H1. subst. f_equal. auto.
Qed.

Lemma prefixb_app p l : prefixb p (p ++ l) = true.
Proof. induction p; cbn; [reflexivity|]. rewrite Z.eqb_refl. assumption. Qed.

Definition gz_header_bs (lvl : Z) (h : gzhdr) (s0 s1 : Z) : list Z :=
  [31; 139; 8; gz_flg h] ++ le32 (gz_mtime h) ++ [gz_xfl lvl; h_os h mod 256]
  ++ le16 (zlen (gz_extra h)) ++ ([66; 67; 2; 0; s0; s1] ++ h_extra h) ++ zstr (h_name h) ++ zstr (h_comment h).

Lemma gz_header_is_bs lvl h : gz_header lvl h = gz_header_bs lvl h 0 0.
Proof. reflexivity. Qed.

Definition hdr_len (h : gzhdr) : Z := 18 + zlen (h_extra h) + zlen (zstr (h_name h)) + zlen (zstr (h_comment h)).

Lemma zlen_gz_header_bs lvl h s0 s1 : zlen (gz_header_bs lvl h s0 s1) = hdr_len h.
Proof.
  unfold gz_header_bs, hdr_len, zlen. rewrite !app_length. cbn [length le32 le16]. lia.
Qed.

Lemma zlen_gz_extra h : zlen (gz_extra h) = 6 + zlen (h_extra h).
Proof. unfold gz_extra. rewrite zlen_app'. reflexivity. Qed.

Lemma zlen_le32 x : zlen (le32 x) = 4.
Proof. reflexivity. Qed.

Lemma take_app n a b : n = zlen a -> take n (a ++ b) = Some (a, b).
Proof.
  intros ->. unfold take. pose proof (zlen_nonneg a). pose proof (zlen_nonneg b).
  rewrite zlen_app'.
  replace ((0 <=? zlen a) && (zlen a <=? zlen a + zlen b)) with true
    by (symmetry; apply andb_true_intro; split; apply Z.leb_le; lia).
  rewrite firstn_zlen_app, skipn_zlen_app. reflexivity.
Qed.

Lemma take_zstr_app s r : s <> [] -> latin1_ok s = true -> take_zstr (zstr s ++ r) = Some (s, r).
Proof.
  intros Hne Hok. unfold zstr. destruct s as [|x s]; [congruence|]. cbn [isnil]. clear Hne.
  revert Hok. generalize (x :: s). clear x s. intros s.
  induction s as [|y s IH]; intros Hok.
  - cbn. reflexivity.
  - cbn [latin1_ok forallb] in Hok. apply andb_prop in Hok. destruct Hok as [Hy Hs].
    apply andb_prop in Hy. destruct Hy as [Hy _]. apply Z.ltb_lt in Hy.
    cbn [app take_zstr]. replace (y =? 0) with false by (symmetry; apply Z.eqb_neq; lia).
    unfold latin1_ok in IH. rewrite (IH Hs). reflexivity.
Qed.

Definition hdr_legal (h : gzhdr) : Prop := hdr_err h = false.

Lemma hdr_legal_parts h : hdr_legal h ->
  zlen (gz_extra h) <= 65535 /\ latin1_ok (h_name h) = true /\ latin1_ok (h_comment h) = true.
Proof.
  unfold hdr_legal, hdr_err. intros H.
  apply orb_false_elim in H. destruct H as [H H3]. apply orb_false_elim in H. destruct H as [H1 H2].
  apply Z.ltb_ge in H1. apply negb_false_iff in H2. apply negb_false_iff in H3. auto.
Qed.

Lemma parse_zstr_flag (s r : list Z) (flag : bool) :
  latin1_ok s = true -> flag = negb (isnil s) ->
  (if flag then take_zstr (zstr s ++ r) else Some ([], zstr s ++ r)) = Some (s, r).
Proof.
  intros Hok ->. destruct s as [|x s]; [reflexivity|].
  cbn [isnil negb]. apply take_zstr_app; [discriminate|assumption].
Qed.

Lemma parse_gz_header_ok lvl h s0 s1 body :
  hdr_legal h ->
  parse_gz_header (gz_header_bs lvl h s0 s1 ++ body)
  = Some (gz_flg h, [66; 67; 2; 0; s0; s1] ++ h_extra h, body).
Proof.
  intros Hl. destruct (hdr_legal_parts h Hl) as (Hx & Hn & Hc).
  pose proof (zlen_nonneg (h_extra h)) as Hnn. rewrite zlen_gz_extra in Hx.
  set (E := [66; 67; 2; 0; s0; s1] ++ h_extra h).
  set (L := zlen (gz_extra h)).
  assert (HL : L mod 256 + 256 * ((L / 256) mod 256) = zlen E).
  { rewrite le16_val by (subst L; rewrite zlen_gz_extra; lia).
    subst L E. rewrite zlen_gz_extra, zlen_app'. reflexivity. }
  assert (Hshape : gz_header_bs lvl h s0 s1 ++ body =
     31 :: 139 :: 8 :: gz_flg h :: gz_mtime h mod 256 :: (gz_mtime h / 256) mod 256
     :: (gz_mtime h / 65536) mod 256 :: (gz_mtime h / 16777216) mod 256 :: gz_xfl lvl :: h_os h mod 256
     :: L mod 256 :: (L / 256) mod 256 :: E ++ (zstr (h_name h) ++ (zstr (h_comment h) ++ body))).
  { unfold gz_header_bs, le32, le16. fold E. fold L. cbn [app]. rewrite <- !app_assoc. reflexivity. }
  rewrite Hshape. unfold parse_gz_header.
  assert (Hflg : gz_flg h < 32 /\ testbit (gz_flg h) 4 = true /\ testbit (gz_flg h) 2 = false
                 /\ testbit (gz_flg h) 8 = negb (isnil (h_name h))
                 /\ testbit (gz_flg h) 16 = negb (isnil (h_comment h))).
  { unfold gz_flg, testbit. destruct (isnil (h_name h)), (isnil (h_comment h)); cbn; repeat split; lia. }
  destruct Hflg as (F1 & F2 & F3 & F4 & F5).
  replace ((31 =? 31) && (139 =? 139) && (8 =? 8) && (gz_flg h <? 32)) with true
    by (symmetry; cbn; apply Z.ltb_lt; assumption).
  rewrite F2.
  rewrite (take_app _ E _ HL).
  rewrite F4.
  rewrite (parse_zstr_flag (h_name h) _ _ Hn eq_refl).
  rewrite F5.
  rewrite (parse_zstr_flag (h_comment h) _ _ Hc eq_refl).
  rewrite F3. reflexivity.
Qed.

(* 217 = 65536 - 8 (trailer) - 65311, the value of [deflate_bound] at BlockSize (65280 + 15 + 3 + 0 + 13):
   with such a header the member of a full block has at most 65536 bytes ([bsize_small]). *)
Definition hdr_small (h : gzhdr) : Prop := hdr_len h <= 217.

Definition patch_at_12 (pm : wr_patch) (guard : bool) : Prop :=
  forall pre x0 x1 rest, zlen pre = 12 ->
    patch_pos pm guard (pre ++ [66; 67; 2; 0; x0; x1] ++ rest) = Some 12.

Definition pre12 (lvl : Z) (h : gzhdr) : list Z :=
  [31; 139; 8; gz_flg h] ++ le32 (gz_mtime h) ++ [gz_xfl lvl; h_os h mod 256] ++ le16 (zlen (gz_extra h)).

Lemma patch_16_17 (pre rest : list Z) (v0 v1 : Z) :
  zlen pre = 12 ->
  updz (updz (pre ++ [66; 67; 2; 0; 0; 0] ++ rest) (12 + 4) v0) (12 + 5) v1
  = pre ++ [66; 67; 2; 0; v0; v1] ++ rest.
Proof.
  intros H. unfold zlen in H.
  destruct pre as [|a0 [|a1 [|a2 [|a3 [|a4 [|a5 [|a6 [|a7 [|a8 [|a9 [|a10 [|a11 [|a12 pre]]]]]]]]]]]]];
    cbn [length] in H; try lia.
  reflexivity.
Qed.

Lemma zlen_gz_trailer crc32 p : zlen (gz_trailer crc32 p) = 8.
Proof. reflexivity. Qed.

Definition framed (crc32 : list Z -> Z) (lvl : Z) (h : gzhdr) (s0 s1 : Z) (z p : list Z) : list Z :=
  gz_header_bs lvl h s0 s1 ++ z ++ gz_trailer crc32 p.

Lemma zlen_framed crc32 lvl h s0 s1 z p : zlen (framed crc32 lvl h s0 s1 z p) = hdr_len h + zlen z + 8.
Proof. unfold framed. rewrite !zlen_app', zlen_gz_header_bs, zlen_gz_trailer. lia. Qed.

Section Member.
  Variable deflate : Z -> list Z -> list Z.
  Variable crc32 : list Z -> Z.

  Definition member_bs (lvl : Z) (h : gzhdr) (s0 s1 : Z) (p : list Z) : list Z :=
    gz_header_bs lvl h s0 s1 ++ deflate lvl p ++ gz_trailer crc32 p.

  Lemma raw_member_bs lvl h p : raw_member deflate crc32 lvl h p = member_bs lvl h 0 0 p.
  Proof. reflexivity. Qed.

  Lemma member_bs_shape lvl h s0 s1 p :
    member_bs lvl h s0 s1 p
    = pre12 lvl h ++ [66; 67; 2; 0; s0; s1]
      ++ (h_extra h ++ zstr (h_name h) ++ zstr (h_comment h)) ++ deflate lvl p ++ gz_trailer crc32 p.
  Proof.
    unfold member_bs, gz_header_bs, pre12. rewrite <- !app_assoc. reflexivity.
  Qed.

  Definition bsize_of (lvl : Z) (h : gzhdr) (p : list Z) : Z := hdr_len h + zlen (deflate lvl p) + 8 - 1.

  Definition member_of (lvl : Z) (h : gzhdr) (p : list Z) : list Z :=
    member_bs lvl h (bsize_of lvl h p mod 256) ((bsize_of lvl h p / 256) mod 256) p.

  Lemma zlen_member_bs lvl h s0 s1 p : zlen (member_bs lvl h s0 s1 p) = bsize_of lvl h p + 1.
  Proof. unfold bsize_of. rewrite Z.sub_add. apply (zlen_framed crc32). Qed.

  Lemma zlen_member_of lvl h p : zlen (member_of lvl h p) = bsize_of lvl h p + 1.
  Proof. apply zlen_member_bs. Qed.

  Lemma member_bs_fields lvl h s0 s1 p :
    firstn 4 (skipn 12 (member_bs lvl h s0 s1 p)) = [66; 67; 2; 0]
    /\ getz (member_bs lvl h s0 s1 p) 16 = s0 /\ getz (member_bs lvl h s0 s1 p) 17 = s1.
  Proof.
    rewrite member_bs_shape. unfold pre12, le32, le16. cbn [app]. unfold getz.
    change (Z.to_nat 16) with 16%nat. change (Z.to_nat 17) with 17%nat. cbn [nth skipn firstn]. auto.
  Qed.

  (** writeBlock for any header and any block: what the size check does. *)
  Lemma write_block_spec pm guard ovf lvl h p :
    patch_at_12 pm guard -> hdr_err h = false ->
    write_block deflate crc32 pm guard ovf lvl h [] p =
      if ovf && (bgzf_MaxBlockSize <=? bsize_of lvl h p) then Err 5 else Ok (member_of lvl h p).
  Proof.
    intros Hpa Hl. unfold write_block, finish_block. rewrite Hl. cbn [app]. cbv zeta.
    rewrite raw_member_bs, zlen_member_bs, Z.add_simpl_r, member_bs_shape, (Hpa (pre12 lvl h) 0 0 _ eq_refl).
    destruct (ovf && (bgzf_MaxBlockSize <=? bsize_of lvl h p)); [reflexivity|].
    rewrite patch_16_17 by reflexivity. unfold member_of. rewrite member_bs_shape. reflexivity.
  Qed.

  Lemma bsize_nonneg lvl h p : 0 <= bsize_of lvl h p.
  Proof.
    clear crc32. unfold bsize_of, hdr_len. pose proof (zlen_nonneg (h_extra h)). pose proof (zlen_nonneg (zstr (h_name h))).
    pose proof (zlen_nonneg (zstr (h_comment h))). pose proof (zlen_nonneg (deflate lvl p)). lia.
  Qed.

  Lemma member_of_nonempty lvl h p : member_of lvl h p <> [].
  Proof.
    intros H. pose proof (zlen_member_of lvl h p) as Hz. rewrite H in Hz. pose proof (bsize_nonneg lvl h p). cbn in Hz. lia.
  Qed.

  Lemma member_of_bsize lvl h p :
    bsize_of lvl h p < 65536 ->
    firstn 4 (skipn 12 (member_of lvl h p)) = [66; 67; 2; 0]
    /\ getz (member_of lvl h p) 16 + 256 * getz (member_of lvl h p) 17 = zlen (member_of lvl h p) - 1.
  Proof.
    intros Hb. pose proof (bsize_nonneg lvl h p). rewrite zlen_member_of. unfold member_of.
    destruct (member_bs_fields lvl h (bsize_of lvl h p mod 256) ((bsize_of lvl h p / 256) mod 256) p) as (F1 & -> & ->).
    split; [exact F1|]. rewrite le16_val; lia.
  Qed.

  (** With the size check on (`size >= MaxBlockSize` refuses), whatever
      writeBlock emits is at most MaxBlockSize bytes long, has the BC subfield at
      12 and BSIZE = length - 1: the 16-bit field never wraps.  For every
      header, also one too large for a full block to fit. *)
  Lemma write_block_fits pm guard lvl h p m :
    patch_at_12 pm guard ->
    write_block deflate crc32 pm guard true lvl h [] p = Ok m ->
    zlen m <= bgzf_MaxBlockSize /\ zlen m <= 65536
    /\ firstn 4 (skipn 12 m) = [66; 67; 2; 0]
    /\ getz m 16 + 256 * getz m 17 = zlen m - 1.
  Proof.
    intros Hpa. destruct (hdr_err h) eqn:He; [unfold write_block; rewrite He; discriminate|].
    rewrite (write_block_spec _ _ _ lvl h p Hpa He). cbn [andb].
    destruct (bgzf_MaxBlockSize <=? bsize_of lvl h p) eqn:E; [discriminate|]. apply Z.leb_gt in E.
    intros Hm. injection Hm as <-. unfold bgzf_MaxBlockSize in *.
    destruct (member_of_bsize lvl h p E) as [F1 F2]. rewrite zlen_member_of in *. repeat split; try assumption; lia.
  Qed.

  Lemma write_block_overflow pm guard lvl h p :
    patch_at_12 pm guard -> hdr_err h = false ->
    bgzf_MaxBlockSize < zlen (raw_member deflate crc32 lvl h p) ->
    write_block deflate crc32 pm guard true lvl h [] p = Err 5.
  Proof.
    intros Hpa He Hbig. rewrite (write_block_spec _ _ _ lvl h p Hpa He). cbn [andb].
    rewrite raw_member_bs, zlen_member_bs in Hbig.
    replace (bgzf_MaxBlockSize <=? bsize_of lvl h p) with true by (symmetry; apply Z.leb_le; lia).
    reflexivity.
  Qed.

End Member.

(** Under the size law a block of at most BlockSize bytes with a small header
    stays below 64 KiB, so writeBlock succeeds on it.  The law is the formula
    of bgzf.compressBound without its 26 bytes of frame, assumed of the
    compressor and not read off [Generated.bgzf_compressBound]. *)
Section Bound.
  Variable deflate : Z -> list Z -> list Z.
  Variable crc32 : list Z -> Z.
  Hypothesis deflate_bound : forall l d,
    zlen (deflate l d) <= zlen d + zlen d / 2^12 + zlen d / 2^14 + zlen d / 2^25 + 13.
  Local Notation bsize_of := (bsize_of deflate).
  Local Notation member_of := (member_of deflate crc32).

  Lemma bsize_small lvl h p :
    hdr_small h -> zlen p <= bgzf_BlockSize -> 0 <= bsize_of lvl h p < 65536.
  Proof.
    intros Hs Hp. split; [apply bsize_nonneg|]. unfold bsize_of, hdr_small in *.
    pose proof (deflate_bound lvl p) as Hb.
    change (2 ^ 12) with 4096 in Hb. change (2 ^ 14) with 16384 in Hb. change (2 ^ 25) with 33554432 in Hb.
    unfold bgzf_BlockSize in Hp. pose proof (zlen_nonneg p). lia.
  Qed.

  Lemma write_block_ok pm guard ovf lvl h p :
    patch_at_12 pm guard -> hdr_legal h -> hdr_small h -> zlen p <= bgzf_BlockSize ->
    write_block deflate crc32 pm guard ovf lvl h [] p = Ok (member_of lvl h p).
  Proof.
    intros Hpa Hl Hs Hp. rewrite (write_block_spec deflate crc32 _ _ _ lvl h p Hpa Hl).
    pose proof (bsize_small lvl h p Hs Hp).
    replace (bgzf_MaxBlockSize <=? bsize_of lvl h p) with false
      by (symmetry; apply Z.leb_gt; unfold bgzf_MaxBlockSize; lia).
    rewrite andb_false_r. reflexivity.
  Qed.

  Lemma member_of_fields lvl h p :
    hdr_small h -> zlen p <= bgzf_BlockSize ->
    firstn 4 (skipn 12 (member_of lvl h p)) = [66; 67; 2; 0]
    /\ getz (member_of lvl h p) 16 + 256 * getz (member_of lvl h p) 17 = zlen (member_of lvl h p) - 1
    /\ zlen (member_of lvl h p) <= 65536.
  Proof.
    intros Hs Hp. destruct (bsize_small lvl h p Hs Hp) as [_ Hb].
    destruct (member_of_bsize deflate crc32 lvl h p Hb) as [F1 F2]. rewrite zlen_member_of in *. repeat split; try assumption; lia.
  Qed.
End Bound.

(** Both readers see a member as header, compressed stream, trailer; all they
    need of the compressed stream [z] is that it inflates to the payload.  So
    the data members (z = deflate lvl p) and the EOF marker (z = 03 00, p
    empty) are read by the same two lemmas. *)
Section Readers.
  Variable inflate : list Z -> option (list Z * list Z).
  Variable crc32 : list Z -> Z.

  Local Notation framed := (framed crc32).

  Lemma gunzip_framed lvl h s0 s1 z p rest :
    hdr_legal h -> (forall r, inflate (z ++ r) = Some (p, r)) ->
    gunzip_member inflate crc32 (framed lvl h s0 s1 z p ++ rest) = Some (p, rest).
  Proof.
    intros Hl Hz. unfold gunzip_member, framed.
    rewrite <- !app_assoc, (parse_gz_header_ok lvl h s0 s1 _ Hl), Hz.
    rewrite (take_app 8 (gz_trailer crc32 p) rest) by reflexivity.
    rewrite zeqb_refl. reflexivity.
  Qed.

  Lemma bgzf_framed lvl h s0 s1 z p rest :
    hdr_legal h -> (forall r, inflate (z ++ r) = Some (p, r)) ->
    s0 + 256 * s1 = zlen (framed lvl h s0 s1 z p) - 1 ->
    bgzf_member inflate crc32 (framed lvl h s0 s1 z p ++ rest) = Some (p, rest).
  Proof.
    intros Hl Hz Hs. unfold bgzf_member.
    assert (Hp : parse_gz_header (framed lvl h s0 s1 z p ++ rest)
                 = Some (gz_flg h, [66; 67; 2; 0; s0; s1] ++ h_extra h, z ++ gz_trailer crc32 p ++ rest)).
    { unfold framed. rewrite <- !app_assoc. apply parse_gz_header_ok. assumption. }
    rewrite Hp.
    assert (Hf : find_bc (length ([66; 67; 2; 0; s0; s1] ++ h_extra h)) ([66; 67; 2; 0; s0; s1] ++ h_extra h)
                 = Some (s0 + 256 * s1)).
    { cbn [app length find_bc]. change (2 + 256 * 0) with 2.
      change (s0 :: s1 :: h_extra h) with ([s0; s1] ++ h_extra h).
      rewrite (take_app 2 [s0; s1] (h_extra h)) by reflexivity.
      reflexivity. }
    rewrite Hf.
    rewrite (take_app (s0 + 256 * s1 + 1) (framed lvl h s0 s1 z p) rest) by lia.
    rewrite <- (app_nil_r (framed lvl h s0 s1 z p)) at 1.
    rewrite gunzip_framed by assumption. reflexivity.
  Qed.

  Section Data.
    Variable deflate : Z -> list Z -> list Z.
    Hypothesis inflate_deflate : forall l d rest, inflate (deflate l d ++ rest) = Some (d, rest).
    Local Notation member_of := (member_of deflate crc32).

    Lemma member_of_gunzip lvl h p rest :
      hdr_legal h -> gunzip_member inflate crc32 (member_of lvl h p ++ rest) = Some (p, rest).
    Proof. intros Hl. apply gunzip_framed; [assumption|]. intros r. apply inflate_deflate. Qed.

    Hypothesis deflate_bound : forall l d,
      zlen (deflate l d) <= zlen d + zlen d / 2^12 + zlen d / 2^14 + zlen d / 2^25 + 13.

    Lemma member_of_bgzf lvl h p rest :
      hdr_legal h -> hdr_small h -> zlen p <= bgzf_BlockSize ->
      bgzf_member inflate crc32 (member_of lvl h p ++ rest) = Some (p, rest).
    Proof.
      intros Hl Hs Hp. assert (Hb : 0 <= bsize_of deflate lvl h p < 65536) by (eapply bsize_small; eassumption).
      apply bgzf_framed; [assumption|intros r; apply inflate_deflate|].
      rewrite le16_val, zlen_framed by assumption. unfold bsize_of. lia.
    Qed.
  End Data.

  Section Marker.
    Hypothesis inflate_empty : forall rest, inflate (3 :: 0 :: rest) = Some ([], rest).
    Hypothesis crc32_nil : crc32 [] = 0.

    Lemma magic_framed : bgzf_magicBlock = framed 0 default_hdr 27 0 [3; 0] [].
    Proof. unfold framed, gz_trailer. rewrite crc32_nil. reflexivity. Qed.

    Lemma gunzip_magic rest : gunzip_member inflate crc32 (bgzf_magicBlock ++ rest) = Some ([], rest).
    Proof. rewrite magic_framed. apply gunzip_framed; [reflexivity|exact inflate_empty]. Qed.

    Lemma bgzf_magic rest : bgzf_member inflate crc32 (bgzf_magicBlock ++ rest) = Some ([], rest).
    Proof. rewrite magic_framed. apply bgzf_framed; [reflexivity|exact inflate_empty|reflexivity]. Qed.
  End Marker.
End Readers.

Lemma walk_concat (one : list Z -> option (list Z * list Z)) :
  forall ms ps fuel tail dt,
    Forall2 (fun m p => m <> [] /\ forall r, one (m ++ r) = Some (p, r)) ms ps ->
    (length ms < fuel)%nat ->
    walk one (fuel - length ms) tail = Some dt ->
    walk one fuel (concat ms ++ tail) = Some (concat ps ++ dt).
Proof.
  intros ms ps fuel tail dt HF. revert fuel.
  induction HF as [|m p ms ps [Hne Hone] HF IH]; intros fuel Hlt Ht.
  - cbn in *. rewrite Nat.sub_0_r in Ht. assumption.
  - cbn [length] in Hlt, Ht. destruct fuel as [|fuel]; [lia|].
    cbn [concat walk]. rewrite <- app_assoc.
    replace (isnil (m ++ concat ms ++ tail)) with false by (destruct m; [congruence|reflexivity]).
    rewrite Hone. rewrite (IH fuel); [|lia|].
    + rewrite <- app_assoc. reflexivity.
    + replace (fuel - length ms)%nat with (S fuel - S (length ms))%nat by lia. assumption.
Qed.

Lemma walk_nil one fuel : (0 < fuel)%nat -> walk one fuel [] = Some [].
Proof. destruct fuel; [lia|reflexivity]. Qed.

Lemma length_concat_ge (ms : list (list Z)) :
  Forall (fun m => m <> []) ms -> (length ms <= length (concat ms))%nat.
Proof.
  induction 1 as [|m ms Hm _ IH]; cbn; [lia|]. rewrite app_length.
  destruct m; [congruence|]. cbn. lia.
Qed.

Lemma app_inj_len_l {A} (l1 l2 t t' : list A) :
  length l1 = length l2 -> l1 ++ t = l2 ++ t' -> l1 = l2 /\ t = t'.
Proof.
  revert l2. induction l1 as [|x l1 IH]; destruct l2 as [|y l2]; cbn; intros Hl H; try discriminate; [auto|].
  injection H as -> H. injection Hl as Hl. destruct (IH l2 Hl H). subst. auto.
Qed.

Lemma app_inj_len_r {A} (l1 l2 t t' : list A) :
  length t = length t' -> l1 ++ t = l2 ++ t' -> l1 = l2 /\ t = t'.
Proof.
  intros Hl H. apply app_inj_len_l; [|assumption].
  apply (f_equal (@length A)) in H. rewrite !app_length in H. lia.
Qed.

Lemma le32_zero x : 0 <= x < 4294967296 -> le32 x = [0; 0; 0; 0] -> x = 0.
Proof. unfold le32. intros Hx H. injection H as H0 H1 H2 H3. lia. Qed.

(** The converse of "Close writes the marker": a stream that is only data
    members does not end in the 28 bytes of the EOF marker.  Needs two more
    facts about the compressor, both true of compress/flate and validated at
    run time (harness mode "laws"):
      deflate_min        every DEFLATE stream has at least 2 bytes,
      deflate_empty_tail the encoding of the empty payload does not end in 03 00
                         (compress/flate emits the stored block 01 00 00 ff ff). *)
Section NoMarker.
  Variable deflate : Z -> list Z -> list Z.
  Variable crc32 : list Z -> Z.
  Hypothesis deflate_min : forall l d, 2 <= zlen (deflate l d).
  Hypothesis deflate_empty_tail : forall l, skipn (length (deflate l []) - 2) (deflate l []) <> [3; 0].
  Variables (lvl : Z) (h : gzhdr).
  Local Notation Mb := (member_of deflate crc32 lvl h).

  Lemma member_not_marker_tail p pre :
    zlen p <= bgzf_BlockSize -> Mb p <> pre ++ bgzf_magicBlock.
  Proof.
    intros Hp H. unfold member_of, member_bs in H.
    set (hd := gz_header_bs lvl h _ _) in H. set (dfl := deflate lvl p) in *.
    pose proof (deflate_min lvl p) as Hmin. fold dfl in Hmin.
    assert (Hsplit : dfl = firstn (length dfl - 2) dfl ++ skipn (length dfl - 2) dfl) by (symmetry; apply firstn_skipn).
    assert (Hl2 : length (skipn (length dfl - 2) dfl) = 2%nat) by (rewrite skipn_length; unfold zlen in Hmin; lia).
    rewrite Hsplit in H.
    change bgzf_magicBlock with (firstn 18 bgzf_magicBlock ++ ([3; 0] ++ [0; 0; 0; 0] ++ [0; 0; 0; 0])) in H.
    rewrite <- !app_assoc in H. rewrite (app_assoc hd) in H. rewrite (app_assoc pre) in H.
    apply app_inj_len_r in H; [|rewrite !app_length, Hl2; reflexivity].
    destruct H as [_ H].
    apply app_inj_len_l in H; [|assumption]. destruct H as [Htail H].
    unfold gz_trailer in H. apply app_inj_len_l in H; [|reflexivity]. destruct H as [_ Hisz].
    assert (Hp0 : zlen p = 0).
    { apply le32_zero; [|assumption]. unfold bgzf_BlockSize in Hp. pose proof (zlen_nonneg p). lia. }
    apply zlen_0_nil in Hp0. subst p. unfold dfl in Htail. exact (deflate_empty_tail lvl Htail).
  Qed.

  Lemma zlen_Mb_ge p : 28 <= zlen (Mb p).
  Proof.
    rewrite zlen_member_of. unfold bsize_of, hdr_len. pose proof (deflate_min lvl p).
    pose proof (zlen_nonneg (h_extra h)). pose proof (zlen_nonneg (zstr (h_name h))).
    pose proof (zlen_nonneg (zstr (h_comment h))). lia.
  Qed.

  Lemma members_no_eof l : Forall (fun p => zlen p <= bgzf_BlockSize) l -> has_eof (concat (map Mb l)) = false.
  Proof.
    intros Hsm. destruct (has_eof (concat (map Mb l))) eqn:E; [exfalso|reflexivity].
    unfold has_eof in E. apply andb_prop in E. destruct E as [E1 E2]. apply Z.leb_le in E1. apply zeqb_eq in E2.
    destruct (exists_last (l := l)) as (l' & p & ->).
    { intros ->. cbn in E1. change (zlen bgzf_magicBlock) with 28 in E1. lia. }
    rewrite map_app, concat_app in *. cbn [map concat] in *. rewrite app_nil_r in *.
    apply Forall_app in Hsm. destruct Hsm as [_ Hp]. inversion Hp as [|? ? Hp' _]; subst.
    set (X := concat (map Mb l')) in *. pose proof (zlen_Mb_ge p) as Hge.
    assert (Hsk : skipn (length (Mb p) - 28) (Mb p) = bgzf_magicBlock).
    { rewrite <- E2. change (length bgzf_magicBlock) with 28%nat.
      rewrite app_length. unfold zlen in Hge.
      replace (length X + length (Mb p) - 28)%nat with (length X + (length (Mb p) - 28))%nat by lia.
      rewrite skipn_app. rewrite (skipn_all2 X) by lia. cbn [app].
      replace (length X + (length (Mb p) - 28) - length X)%nat with (length (Mb p) - 28)%nat by lia.
      reflexivity. }
    assert (Hm : Mb p = firstn (length (Mb p) - 28) (Mb p) ++ bgzf_magicBlock).
    { rewrite <- Hsk. symmetry. apply firstn_skipn. }
    exact (member_not_marker_tail p _ Hp' Hm).
  Qed.
End NoMarker.

Ltac Zify.zify_post_hook ::= idtac.
