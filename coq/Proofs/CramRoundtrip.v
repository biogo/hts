(** Writing numbers with the codecs and reading them back with the stream
    readers of cram.go (C20). *)
From Coq Require Import ZArith Lia List Bool.
From Hts Require Import Base.Prim Base.Bits Generated Model.Itf8Spec Model.CramStream
  Proofs.Varint Proofs.Itf8 Proofs.Ltf8 Proofs.CramStream.
Open Scope Z_scope.

Lemma stream_itf8_roundtrip v rest tail :
  int32 v -> all_bytes rest = true -> tail <> 0 ->
  er_itf8 (mkER (itf8_wire v ++ rest) tail 0) = Ok (v, mkER rest tail 0).
Proof.
  intros Hv Hr Ht. destruct (itf8_wire_props v) as (Hl & Hb & Hc).
  rewrite er_itf8_is_item. apply (er_item_roundtrip itf8_Decode itf8_spec_n itf8_val 5 _ itf8_Decode_item itf8_spec_n_range);
    [apply all_bytes_app; assumption|assumption|].
  rewrite Hl. apply itf8_Decode_accepts; assumption.
Qed.

Lemma stream_ltf8_roundtrip v rest tail :
  int64 v -> all_bytes rest = true -> tail <> 0 ->
  er_ltf8 (mkER (ltf8_spec_encode v ++ rest) tail 0) = Ok (v, mkER rest tail 0).
Proof.
  intros Hv Hr Ht. destruct (ltf8_spec_encode_props v) as (Hl & Hb).
  rewrite er_ltf8_is_item. apply (er_item_roundtrip ltf8_Decode ltf8_spec_n ltf8_val 9 _ ltf8_Decode_item ltf8_spec_n_range);
    [apply all_bytes_app; assumption|assumption|].
  rewrite Hl. apply ltf8_Decode_encoded; assumption.
Qed.

(** An ITF-8 array: the count, then the elements. *)
Definition itf8_array (vs : list Z) : list Z := itf8_wire (zlen vs) ++ flat_map itf8_wire vs.

Lemma flat_map_wire_bytes vs rest :
  Forall int32 vs -> all_bytes rest = true -> all_bytes (flat_map itf8_wire vs ++ rest) = true.
Proof.
  intros Hvs Hr. induction Hvs as [|v vs Hv _ IH]; [exact Hr|]. cbn [flat_map]. rewrite <- app_assoc.
  apply all_bytes_app; [apply itf8_wire_props|exact IH].
Qed.

Lemma er_slice_loop_roundtrip vs : forall fuel i n acc rest tail,
  Forall int32 vs -> all_bytes rest = true -> tail <> 0 ->
  n - i = zlen vs -> (length (flat_map itf8_wire vs ++ rest) < fuel)%nat ->
  er_slice_loop fuel i n (mkER (flat_map itf8_wire vs ++ rest) tail 0) acc = Ok (rev acc ++ vs, mkER rest tail 0).
Proof.
  induction vs as [|v vs IH]; intros fuel i n acc rest tail Hvs Hr Ht Hn Hf.
  - destruct fuel; [lia|]. cbn [er_slice_loop]. unfold zlen in Hn. simpl in Hn.
    destruct (Z.leb_spec n i); [|lia]. rewrite app_nil_r. reflexivity.
  - destruct fuel as [|f]; [lia|]. cbn [er_slice_loop]. rewrite zlen_cons in Hn. pose proof (zlen_nonneg vs).
    destruct (Z.leb_spec n i); [lia|].
    inversion Hvs as [|? ? Hv Hvs']; subst.
    cbn [flat_map]. rewrite <- app_assoc.
    rewrite stream_itf8_roundtrip by (assumption || apply flat_map_wire_bytes; assumption). cbn [obind]. rewrite er_failed_0.
    rewrite IH; try assumption; try lia.
    + cbn [rev]. rewrite <- app_assoc. reflexivity.
    + cbn [flat_map] in Hf. rewrite <- app_assoc, app_length in Hf.
      destruct (itf8_wire_props v) as (Hl & _). pose proof (itf8_spec_len_range (v mod 2^32)) as Hrg.
      unfold zlen in Hl. lia.
Qed.

Lemma stream_itf8slice_roundtrip vs rest tail :
  Forall int32 vs -> zlen vs < 2^31 -> all_bytes rest = true -> tail <> 0 ->
  er_itf8slice (mkER (itf8_array vs ++ rest) tail 0) = Ok (vs, mkER rest tail 0).
Proof.
  intros Hvs Hlen Hr Ht. unfold itf8_array, er_itf8slice. rewrite <- app_assoc.
  assert (Hc : int32 (zlen vs)) by (unfold int32; pose proof (zlen_nonneg vs); lia).
  rewrite stream_itf8_roundtrip by (assumption || apply flat_map_wire_bytes; assumption). cbn [obind]. rewrite er_failed_0.
  destruct (Z.eqb_spec (zlen vs) 0) as [Hz|Hnz].
  { apply zlen_nil_inv in Hz. subst vs. reflexivity. }
  pose proof (zlen_nonneg vs). destruct (Z.ltb_spec (zlen vs) 0); [lia|].
  cbn [er_rest]. rewrite er_slice_loop_roundtrip; try assumption; try lia. reflexivity.
Qed.
