(** C15 for tabix at byte level: reading what WriteTo wrote gives the header,
    the names, the name map 0..n-1 and the sorted core; writing that again
    gives the same bytes. *)
From Coq Require Import ZArith Lia List Bool.
From Hts Require Import Base.Prim Base.Bits Model.Index Model.Tabix Model.IndexIO
  Proofs.IndexSort Proofs.IndexStats Proofs.IndexIO Proofs.IndexIOFull Proofs.TabixIdx.
Open Scope Z_scope.

Definition name_ok (nm : tname) : Prop := forall b, In b nm -> b <> 0.

Lemma split0_name nm : forall cur rest, name_ok nm -> io_split0 cur (nm ++ rest) = io_split0 (rev nm ++ cur) rest.
Proof.
  induction nm as [|b t IH]; intros cur rest H; [reflexivity|].
  simpl. destruct (b =? 0) eqn:E; [apply Z.eqb_eq in E; exfalso; apply (H b); [left; reflexivity|exact E]|].
  rewrite IH by (intros x Hx; apply H; right; exact Hx). rewrite <- app_assoc. reflexivity.
Qed.

Fixpoint join0 (names : list tname) : list Z :=
  match names with
  | [] => []
  | [nm] => nm
  | nm :: t => nm ++ 0 :: join0 t
  end.

Lemma split0_join names : names <> [] -> Forall name_ok names -> io_split0 [] (join0 names) = names.
Proof.
  induction names as [|nm t IH]; intros Hne Hok; [congruence|]. inversion Hok; subst.
  destruct t as [|nm2 t'].
  - simpl. rewrite <- (app_nil_r nm) at 1. rewrite split0_name by assumption. simpl.
    rewrite app_nil_r, rev_involutive. reflexivity.
  - change (join0 (nm :: nm2 :: t')) with (nm ++ 0 :: join0 (nm2 :: t')).
    rewrite split0_name by assumption. simpl. rewrite app_nil_r, rev_involutive. f_equal.
    apply IH; [discriminate|assumption].
Qed.

Lemma block_join names : names <> [] -> flat_map (fun nm : list Z => nm ++ [0]) names = join0 names ++ [0].
Proof.
  induction names as [|nm t IH]; intros Hne; [congruence|]. destruct t as [|nm2 t'].
  - simpl. rewrite app_nil_r. reflexivity.
  - change (flat_map (fun nm : list Z => nm ++ [0]) (nm :: nm2 :: t'))
      with ((nm ++ [0]) ++ flat_map (fun nm : list Z => nm ++ [0]) (nm2 :: t')).
    rewrite IH by discriminate. change (join0 (nm :: nm2 :: t')) with (nm ++ 0 :: join0 (nm2 :: t')).
    rewrite <- !app_assoc. reflexivity.
Qed.

Lemma names_len_fold names : forall a,
  0 <= a -> a + zlen (flat_map (fun nm : list Z => nm ++ [0]) names) < 2 ^ 31 ->
  fold_left (fun n nm => s32 (n + s32 (zlen nm + 1))) names a = a + zlen (flat_map (fun nm : list Z => nm ++ [0]) names).
Proof.
  induction names as [|nm t IH]; intros a Ha Hb; cbn [fold_left flat_map] in *.
  - unfold zlen; simpl; lia.
  - rewrite !zlen_app in Hb. change (zlen [0]) with 1 in Hb.
    pose proof (zlen_nonneg nm). pose proof (zlen_nonneg (flat_map (fun nm : list Z => nm ++ [0]) t)).
    rewrite (s32_small (zlen nm + 1)), (s32_small (a + (zlen nm + 1))) by lia. rewrite IH by lia. rewrite !zlen_app. change (zlen [0]) with 1. lia.
Qed.

Lemma name_eqb_eq a : forall b, tb_name_eqb a b = true <-> a = b.
Proof.
  induction a as [|x a IH]; intros [|y b]; simpl; split; intros H; try reflexivity; try discriminate.
  - apply andb_true_iff in H. destruct H as [H1 H2]. apply Z.eqb_eq in H1. apply IH in H2. congruence.
  - inversion H; subst. rewrite Z.eqb_refl. simpl. apply IH. reflexivity.
Qed.

Lemma map_set_new m k v : (forall k' v', In (k', v') m -> k' <> k) -> io_map_set m k v = m ++ [(k, v)].
Proof.
  induction m as [|[k' v'] t IH]; intros H; simpl; [reflexivity|].
  destruct (tb_name_eqb k' k) eqn:E.
  - apply name_eqb_eq in E. exfalso. apply (H k' v'); [left; reflexivity|exact E].
  - rewrite IH; [reflexivity|]. intros k2 v2 Hin. apply (H k2 v2). right; exact Hin.
Qed.

Lemma name_map_numbered names : forall i m,
  NoDup names -> (forall k v, In (k, v) m -> ~ In k names) ->
  io_name_map names i m = m ++ numbered names i.
Proof.
  induction names as [|nm t IH]; intros i m Hnd Hm; simpl; [rewrite app_nil_r; reflexivity|].
  inversion Hnd as [|? ? Hni Hnd']; subst.
  rewrite map_set_new.
  2:{ intros k' v' Hin Heq. subst. apply (Hm nm v' Hin). left; reflexivity. }
  rewrite IH; [rewrite <- app_assoc; reflexivity|exact Hnd'|].
  intros k v Hin Hk. apply in_app_or in Hin. destruct Hin as [Hin|[Heq|[]]].
  - apply (Hm k v Hin). right; exact Hk.
  - inversion Heq; subst. exact (Hni Hk).
Qed.

(** The format word of the header: the format byte, and bit 16 for "zero
    based"; the two do not overlap. *)
Lemma format_field f z :
  0 <= f < 256 -> (z = 0 \/ z = 1) ->
  let v := Z.lor (u8 f) (if z =? 0 then 0 else 65536) in
  0 <= v < 2 ^ 31 /\ u8 v = f /\ (if Z.land v 65536 =? 0 then 0 else 1) = z.
Proof.
  intros Hf Hz. assert (Hu : u8 f = f) by (apply Z.mod_small; exact Hf).
  assert (Hl : Z.land f 65536 = 0) by (apply (land_low_high f 1 16); lia).
  cbv zeta. rewrite Hu. destruct Hz as [-> | ->]; cbn [Z.eqb].
  - rewrite Z.lor_0_r, Hu, Hl. repeat split; lia.
  - rewrite Z.land_lor_distr_l, Hl.
    replace (Z.lor f 65536) with (f + 256 * 2 ^ 8) by (symmetry; apply (lor_low_high f 1 16); lia).
    split; [lia|]. split; [|reflexivity]. unfold u8, wrapu. rewrite Z.mod_add by lia. apply Z.mod_small. exact Hf.
Qed.

Definition tbx_hdr_ok (h : list Z) : Prop :=
  exists f z nc bc ec meta skip, h = [f; z; nc; bc; ec; meta; skip] /\
    0 <= f < 256 /\ (z = 0 \/ z = 1) /\
    0 <= nc < 2 ^ 31 /\ 0 <= bc < 2 ^ 31 /\ 0 <= ec < 2 ^ 31 /\ 0 <= meta < 2 ^ 31 /\ 0 <= skip < 2 ^ 31.

Definition tbx_fits (t : tbx) : Prop :=
  tbx_hdr_ok (t_hdr t) /\ NoDup (t_names t) /\ Forall name_ok (t_names t) /\
  zlen (t_names t) = zlen (irefs (t_idx t)) /\
  zlen (flat_map (fun nm : list Z => nm ++ [0]) (t_names t)) < 2 ^ 31 /\
  idx_fits (ix_sort (t_idx t)).

Definition tbx_reread (t : tbx) : tbx :=
  mkTbx (t_names t) (numbered (t_names t) 0) (t_hdr t)
        (mkIdx (irefs (ix_sort (t_idx t))) (iunm (t_idx t)) true io_maxint).

Theorem tbx_read_write t :
  tbx_fits t -> tbx_read (fst (tbx_write t)) = Ok (Some (tbx_reread t)).
Proof.
  intros ((f & z & nc & bc & ec & meta & skip & Hh & Hf & Hz & Hnc & Hbc & Hec & Hme & Hsk) & Hnd & Hok & Hlen & Hblk & Hfit).
  destruct (format_field f z Hf Hz) as (V1 & V2 & V3).
  unfold tbx_reread. unfold tbx_write, wr_core. rewrite Hh.
  cbn [hdr_get nth fst]. set (v := Z.lor (u8 f) (if z =? 0 then 0 else 65536)) in *.
  pose proof (zlen_nonneg (flat_map (fun nm : list Z => nm ++ [0]) (t_names t))) as Hb0.
  rewrite names_len_fold by lia. rewrite Z.add_0_l.
  set (blk := flat_map (fun nm : list Z => nm ++ [0]) (t_names t)) in *.
  rewrite s32_small by lia.
  destruct Hfit as (Hr & Hl & Hu).
  rewrite <- ix_sort_zlen. rewrite <- ix_sort_zlen in Hlen.
  set (refs := irefs (ix_sort (t_idx t))) in *.
  pose proof (zlen_nonneg refs) as Hr0.
  unfold tbx_read.
  erewrite rd_bind_ok by (exact (rd_bytes_wr tbi_magic _)).
  change (negb (io_bytes_eqb tbi_magic tbi_magic)) with false. cbv iota.
  do 8 (erewrite rd_bind_ok by (apply rd_i32_wr; lia)).
  erewrite rd_bind_ok by (apply rd_count_ok; lia).
  replace (Z.to_nat (zlen blk)) with (length blk) by (unfold zlen; lia).
  erewrite rd_bind_ok by (exact (rd_bytes_wr blk _)).
  assert (Hnames : (match rev blk with
                    | [] => rd_ret []
                    | lastb :: pre => if negb (lastb =? 0) then rd_fail 1 else rd_ret (io_split0 [] (rev pre))
                    end) = rd_ret (t_names t)).
  { destruct (t_names t) as [|n0 nt] eqn:En.
    - reflexivity.
    - unfold blk. rewrite block_join by discriminate. rewrite rev_app_distr. cbn [rev app].
      change (negb (0 =? 0)) with false. cbv iota.
      rewrite rev_involutive. rewrite split0_join; [reflexivity|discriminate|exact Hok]. }
  rewrite Hnames. erewrite rd_bind_ok by (unfold rd_ret; reflexivity).
  match goal with |- context [negb (?a =? ?b)] =>
    replace (a =? b) with true by (symmetry; apply Z.eqb_eq; exact Hlen) end. cbn [negb].
  erewrite rd_bind_ok by (apply rd_core_wr; assumption).
  unfold rd_ret. clearbody v. rewrite V2, V3.
  rewrite name_map_numbered; [|exact Hnd|intros ? ? []]. rewrite ix_sort_unm. reflexivity.
Qed.

Theorem tbx_write_read_write t :
  fst (tbx_write (tbx_reread t)) = fst (tbx_write t).
Proof.
  unfold tbx_reread.
  set (c := mkIdx (irefs (ix_sort (t_idx t))) (iunm (t_idx t)) true io_maxint).
  assert (Hc : ix_sort c = c) by reflexivity.
  unfold tbx_write, wr_core. cbn [t_idx t_hdr t_names]. rewrite Hc. cbn [fst]. subst c. cbn [irefs iunm].
  rewrite ix_sort_zlen, ix_sort_unm. reflexivity.
Qed.

Lemma tbx_reread_chunks t nm beg end_ :
  TInv t -> fst (tb_chunks (tbx_reread t) nm beg end_) = fst (tb_chunks t nm beg end_).
Proof.
  intros I. rewrite !tb_chunks_fst. unfold tbx_reread. cbn [t_map t_idx]. rewrite I.
  destruct (tb_lookup _ nm); [|reflexivity]. apply chunks_of_sorted_copy; reflexivity.
Qed.
