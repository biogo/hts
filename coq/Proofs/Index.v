(** C04 for the BAI/tabix core: Add never fails on a well-formed list and
    Chunks is complete.  The invariant carried through the fold ([Inv]) keeps
    every placed record inside a chunk of its bin that the linear index does
    not prune; [QInv] is the part of it a query needs, and is also kept by
    sort and by covering merge strategies. *)
From Coq Require Import ZArith Lia List Bool.
From Hts Require Import Base.Prim Base.Bits Generated Model.Index Model.IndexSpec Model.Bins Proofs.Bins Proofs.IndexSort.
Open Scope Z_scope.

(** C16's bin containment, transported: [ix_overlapping_bins] computes what [overlapping_bins_for] does. *)
Lemma zrange_ix lo n : Bins.zrange lo n = map (fun i => lo + Z.of_nat i) (seq 0 n).
Proof.
  revert lo. induction n as [|n IH]; intros lo; simpl; [reflexivity|].
  rewrite IH. f_equal; [lia|]. rewrite <- seq_shift, map_map. apply map_ext. intros i. lia.
Qed.

Lemma obf_loop_ix ls beg e : forall acc l,
  obf_loop ls beg e acc = Ok l ->
  l = acc ++ flat_map (fun os => ix_zrange (u32 (fst os + u32 (Z.shiftr beg (snd os))))
                                           (u32 (fst os + u32 (Z.shiftr e (snd os))))) ls.
Proof.
  induction ls as [|[off sh] tl IH]; intros acc l H; simpl in H.
  - inversion H. simpl. rewrite app_nil_r. reflexivity.
  - unfold loop_u32 in H. destruct (_ =? 2 ^ 32 - 1); [discriminate|]. simpl in H.
    apply IH in H. rewrite H. simpl. rewrite <- app_assoc. f_equal. f_equal.
    unfold ix_zrange. apply zrange_ix.
Qed.

Theorem bai_bin_containment_holds : bai_bin_containment.
Proof.
  intros b1 e1 b2 e2 bn H1 H1' H2 H2' Ha Hb Hbin.
  destruct (bai_bin_in_bins_gen b1 e1 b2 e2 (proj1 H1) (proj1 H2) (conj (proj2 H1) H1') (conj (proj2 H2) H2') Ha Hb)
    as (k & l & Hk & Hl & Hin).
  rewrite Hbin in Hk. injection Hk as <-. apply obf_loop_ix in Hl. subst l. exact Hin.
Qed.

(** [ix_wf_from] threads the reference id, start and chunk end of the last
    placed record; [ghost_step] is that update, so that well-formedness of a
    list can be cut at any point ([wf_at_app]). *)
Definition ghost_step (g : Z * Z * Z) (r : irec) : Z * Z * Z :=
  if q_placed r then (q_rid r, q_start r, q_ce r) else g.
Definition wf_at (lim : Z) (g : Z * Z * Z) (rs : list irec) : Prop :=
  let '(a, b, c) := g in ix_wf_from lim a b c rs.

Lemma wf_at_app lim rs1 : forall g rs2,
  wf_at lim g (rs1 ++ rs2) <-> wf_at lim g rs1 /\ wf_at lim (fold_left ghost_step rs1 g) rs2.
Proof.
  induction rs1 as [|r t IH]; intros [[a b] c] rs2; [simpl; tauto|].
  cbn [app fold_left wf_at ix_wf_from]. unfold ghost_step at 2.
  destruct (q_placed r); [specialize (IH (q_rid r, q_start r, q_ce r) rs2)|specialize (IH (a, b, c) rs2)];
    cbn [wf_at] in IH; tauto.
Qed.

Definition rec_shape (lim : Z) (R : irec) : Prop :=
  0 <= q_rid R /\ 0 <= q_start R < q_end R /\ q_end R <= lim + 1 /\ q_cb R < q_ce R.

Lemma wf_shape lim rs : forall a b c R,
  ix_wf_from lim a b c rs -> In R rs -> q_placed R = true -> rec_shape lim R.
Proof.
  induction rs as [|r t IH]; intros a b c R W Hin Hp; [destruct Hin|]. simpl in W. destruct Hin as [<-|Hin].
  - rewrite Hp in W. unfold rec_shape. tauto.
  - destruct (q_placed r); [apply (IH (q_rid r) (q_start r) (q_ce r))|apply (IH a b c)]; tauto.
Qed.

Definition folds {X} (add : X -> irec -> outcome X) (fold : X -> list irec -> outcome X) : Prop :=
  forall x rs, fold x rs = match rs with [] => Ok x | r :: t => obind (add x r) (fun x' => fold x' t) end.

Lemma ix_folds : folds ix_add ix_fold_add.
Proof. intros x [|r t]; reflexivity. Qed.

Section Run.
  Context {X : Type} (add : X -> irec -> outcome X) (fold : X -> list irec -> outcome X) (lim : Z).
  Variable I : X -> list irec -> Z * Z * Z -> Prop.
  Hypothesis Hfold : folds add fold.
  Hypothesis I_add : forall x done g r,
    I x done g -> wf_at lim g [r] -> exists x', add x r = Ok x' /\ I x' (done ++ [r]) (ghost_step g r).

  Lemma I_fold rs : forall x done g,
    I x done g -> wf_at lim g rs ->
    exists x', fold x rs = Ok x' /\ I x' (done ++ rs) (fold_left ghost_step rs g).
  Proof.
    induction rs as [|r t IH]; intros x done g Hi W; rewrite Hfold.
    - exists x. rewrite app_nil_r. auto.
    - apply (wf_at_app lim [r]) in W. destruct W as (W1 & W2).
      destruct (I_add x done g r Hi W1) as (x1 & E & Hi1).
      destruct (IH x1 _ _ Hi1 W2) as (x' & F & Hi').
      exists x'. rewrite E, <- app_assoc in *. auto.
  Qed.
End Run.

Lemma fold_keeps {X} (add : X -> irec -> outcome X) (fold : X -> list irec -> outcome X) (P : list irec -> X -> Prop) :
  folds add fold -> (forall done x r x', P done x -> add x r = Ok x' -> P (done ++ [r]) x') ->
  forall rs done x x', P done x -> fold x rs = Ok x' -> P (done ++ rs) x'.
Proof.
  intros Hfold Hadd. induction rs as [|r t IH]; intros done x x' Hx H; rewrite Hfold in H.
  - injection H as <-. rewrite app_nil_r. exact Hx.
  - destruct (add x r) as [x1| | |] eqn:E; try discriminate.
    change (r :: t) with ([r] ++ t). rewrite app_assoc. exact (IH _ x1 x' (Hadd done x r x1 Hx E) H).
Qed.

Lemma ix_upd_chunks_append cs c :
  (forall ch, In ch cs -> snd ch <= fst c) -> ix_upd_chunks cs c = cs ++ [c].
Proof.
  induction cs as [|h t IH]; simpl; intros H; [reflexivity|].
  destruct (snd h >? fst c) eqn:E.
  - apply Z.gtb_lt in E. specialize (H h (or_introl eq_refl)). lia.
  - rewrite IH; [reflexivity|]. intros ch Hc. apply H. right; exact Hc.
Qed.

Definition ibin_add (c : chunk) (x : ibin) : ibin := mkBin (bnum x) (ix_upd_chunks (bchunks x) c).
Definition filed (bs : list ibin) (b : Z) (c : chunk) : list ibin := file bnum (ibin_add c) (mkBin b [c]) bs b.

Lemma ix_upd_bins_upd bs b c : ix_upd_bins bs b c = upd_bin bnum (ibin_add c) bs b.
Proof. induction bs as [|x t IH]; simpl; [reflexivity|]. rewrite IH. reflexivity. Qed.

Lemma ix_upd_bins_none bs b c : ix_upd_bins bs b c = None -> ~ In b (map bnum bs).
Proof. rewrite ix_upd_bins_upd. intros H. apply (find_bin_None bnum), (upd_bin_found bnum (ibin_add c)), H. Qed.

Lemma ix_fill_repeat m k v :
  (k <= m)%nat -> ix_fill (repeat 0 m) k v = Ok (repeat 0 k ++ repeat v (m - k)).
Proof.
  revert k. induction m as [|m IH]; intros [|k] Hk; simpl; try lia; try reflexivity.
  - rewrite (IH O) by lia. simpl. rewrite Nat.sub_0_r. reflexivity.
  - rewrite (IH k) by lia. reflexivity.
Qed.

Lemma skipn_repeat_app {A} (x : A) n k l :
  (n <= k)%nat -> skipn n (repeat x k ++ l) = repeat x (k - n) ++ l.
Proof.
  revert k. induction n as [|n IH]; intros k Hk; simpl.
  - rewrite Nat.sub_0_r. reflexivity.
  - destruct k as [|k]; [lia|]. simpl. apply IH. lia.
Qed.

Lemma ix_linear_ok intv start end_ cb :
  0 <= start < end_ ->
  exists tail, ix_linear intv start end_ cb = Ok (intv ++ tail) /\
               (forall x, In x tail -> x = 0 \/ x = cb) /\
               (end_ - 1) / 16384 < zlen (intv ++ tail).
Proof.
  intros Hr. unfold ix_linear. change ix_TW with 16384.
  rewrite !Z.quot_div_nonneg by lia.
  set (biv := start / 16384). set (eiv := (end_ - 1) / 16384).
  assert (Hbe : biv <= eiv) by (apply Z.div_le_mono; lia).
  assert (Hb0 : 0 <= biv) by (apply Z.div_pos; lia).
  destruct (eiv <? biv) eqn:E1; [apply Z.ltb_lt in E1; lia|].
  pose proof (zlen_nonneg intv) as Hn.
  destruct (eiv >=? zlen intv) eqn:E2.
  - assert (E2' : zlen intv <= eiv) by lia.
    set (b' := if zlen intv >? biv then zlen intv else biv).
    assert (Hb' : zlen intv <= b' <= eiv /\ 0 <= b').
    { unfold b'. destruct (zlen intv >? biv) eqn:E3; lia. }
    replace ((0 <=? b') && (b' <=? eiv + 1)) with true
      by (symmetry; apply andb_true_intro; split; [apply Z.leb_le|apply Z.leb_le]; lia).
    unfold chk. rewrite ix_fill_repeat by lia. simpl.
    unfold ix_copy. rewrite firstn_all2.
    2:{ rewrite app_length, !repeat_length. unfold zlen in *. lia. }
    replace (length intv) with (Z.to_nat (zlen intv)) by (unfold zlen; lia).
    rewrite skipn_repeat_app by lia.
    eexists. split; [reflexivity|]. split.
    + intros x Hx. apply in_app_or in Hx. destruct Hx as [Hx|Hx]; apply repeat_spec in Hx; auto.
    + rewrite !zlen_app, !zlen_repeat. lia.
  - exists []. rewrite app_nil_r. split; [reflexivity|]. split; [intros ? []|]. lia.
Qed.

Lemma valid_pos_iff x : ix_valid_pos x = true <-> -1 <= x <= ix_bai_limit.
Proof.
  unfold ix_valid_pos, internal_IsValidIndexPos, ix_bai_limit. change (2 ^ internal_indexWordBits - 2) with 536870910.
  rewrite andb_true_iff, Z.leb_le, Z.leb_le. tauto.
Qed.

Definition um_of (ix : index) : Z := match iunm ix with Some u => u | None => 0 end.

Lemma ix_add_Ok ix r ix' :
  ix_add ix r = Ok ix' ->
  if q_placed r then
    let ref := nth (Z.to_nat (q_rid r)) (irefs ix) ix_empty_ref in
    let c := (q_cb r, q_ce r) in
    0 <= q_rid r /\
    exists intv sorted,
      ix_linear (rintv ref) (q_start r) (q_end r) (q_cb r) = Ok intv /\
      (sorted = true -> isorted ix = true /\ find_bin bnum (rbins ref) (q_bin r) <> None /\ zlen intv <= zlen (rintv ref)) /\
      ix' = mkIdx (put ix_empty_ref (irefs ix) (q_rid r)
                     (mkRef (filed (rbins ref) (q_bin r) c) (Some (ix_upd_stats (rstats ref) c (q_mapped r))) intv))
                  (Some (um_of ix)) sorted (q_start r)
  else ix' = mkIdx (irefs ix) (Some (um_of ix + 1)) (isorted ix) (ilast ix).
Proof.
  unfold ix_add. intros H.
  destruct (negb _ || negb _); [discriminate|].
  destruct (q_placed r); cbn [negb] in H; [|injection H as <-; reflexivity].
  destruct (Z.ltb_spec (q_rid r) 0); [discriminate|].
  destruct (Z.ltb_spec (q_rid r) (zlen (irefs ix) - 1)); [discriminate|].
  change ix_grow_refs with (grow ix_empty_ref) in H.
  rewrite grow_if, inb_grow, nth_grow, ix_upd_bins_upd in H by assumption. unfold chk in H.
  split; [assumption|].
  destruct (upd_bin _ _ _ _) eqn:Eb; destruct (_ <? _); try discriminate;
    destruct (ix_linear _ _ _ _) as [intv| | |]; try discriminate; injection H as <-;
    eexists intv, _; (split; [reflexivity|]); (split; [|unfold filed, file; rewrite Eb; reflexivity]).
  - destruct (Z.gtb_spec (zlen intv) (zlen (rintv (nth (Z.to_nat (q_rid r)) (irefs ix) ix_empty_ref)))); [discriminate|].
    intros Hs. split; [exact Hs|]. split; [|assumption]. intros Hn. apply (upd_bin_found bnum (ibin_add (q_cb r, q_ce r))) in Hn. congruence.
  - destruct (_ >? _); discriminate.
Qed.

Lemma ix_add_accepts ix r :
  ix_valid_pos (q_start r) = true -> ix_valid_pos (q_end r - 1) = true ->
  (q_placed r = true ->
     0 <= q_rid r /\ zlen (irefs ix) - 1 <= q_rid r /\
     (q_rid r < zlen (irefs ix) -> ilast ix <= q_start r) /\ 0 <= q_start r < q_end r) ->
  exists ix', ix_add ix r = Ok ix'.
Proof.
  intros V1 V2 Hp. unfold ix_add. rewrite V1, V2. cbn [negb orb].
  destruct (q_placed r); cbn [negb]; [|eexists; reflexivity]. destruct (Hp eq_refl) as (H0 & Hn & Hl & Hse).
  destruct (Z.ltb_spec (q_rid r) 0); [lia|]. destruct (Z.ltb_spec (q_rid r) (zlen (irefs ix) - 1)); [lia|].
  change ix_grow_refs with (grow ix_empty_ref).
  rewrite grow_if, inb_grow, nth_grow by assumption. unfold chk.
  destruct (ix_linear_ok (rintv (nth (Z.to_nat (q_rid r)) (irefs ix) ix_empty_ref)) _ _ (q_cb r) Hse) as (tail & L & _).
  assert (El : (q_start r <? (if q_rid r >=? zlen (irefs ix) then 0 else ilast ix)) = false)
    by (destruct (q_rid r >=? zlen (irefs ix)) eqn:E; lia).
  destruct (ix_upd_bins _ _ _); rewrite El, L; eexists; reflexivity.
Qed.

Lemma fold_add_unsorted rs ix ix' : isorted ix = false -> ix_fold_add ix rs = Ok ix' -> isorted ix' = false.
Proof.
  refine (fold_keeps ix_add ix_fold_add (fun _ ix => isorted ix = false) ix_folds _ rs [] ix ix').
  clear. intros _ ix r ix' Hs H. apply ix_add_Ok in H. destruct (q_placed r); [|subst ix'; exact Hs].
  destruct H as (_ & intv & [|] & _ & Hf & ->); [|reflexivity]. destruct (Hf eq_refl). congruence.
Qed.

Definition etile (r : irec) : Z := (q_end r - 1) / 16384.

(** The record can be found again: its chunk lies inside a chunk of its bin,
    and the linear index does not prune that chunk. *)
Definition rec_in_ref (ref : iref) (R : irec) : Prop :=
  (exists x, find_bin bnum (rbins ref) (q_bin R) = Some x /\ ix_covers (bchunks x) R)
  /\ etile R < zlen (rintv ref)
  /\ prefix_le (q_cb R) (Z.to_nat (etile R + 1)) (rintv ref).

Definition bin_bounded (lend : Z) (x : ibin) : Prop :=
  forall c, In c (bchunks x) -> fst c <= lend /\ snd c <= lend.

Definition ref_bounded (lend : Z) (ref : iref) : Prop :=
  Forall (bin_bounded lend) (rbins ref) /\ Forall (fun x => x <= lend) (rintv ref) /\
  NoDup (map bnum (rbins ref)).

(** The order [Index.sort] leaves a reference in. *)
Definition ref_sorted (ref : iref) : Prop :=
  key_sorted bnum (rbins ref) /\ Forall (fun b => key_sorted fst (bchunks b)) (rbins ref) /\
  key_sorted (fun x => x) (rintv ref).

(** [done]: the records added so far, in order; [lrid], [lstart], [lend]: the accumulators after them. *)
Record Inv (ix : index) (done : list irec) (lrid lstart lend : Z) : Prop := mkInv {
  inv_len : zlen (irefs ix) = lrid + 1;
  inv_lend : 0 <= lend;
  inv_last : ilast ix <= lstart;
  inv_sorted : isorted ix = true -> Forall ref_sorted (irefs ix);
  inv_refs : Forall (ref_bounded lend) (irefs ix);
  inv_seen : seen ix_empty_ref rec_in_ref (irefs ix) done
}.

Lemma ref_bounded_empty lend : ref_bounded lend ix_empty_ref.
Proof. repeat split; constructor. Qed.

Lemma ref_bounded_mono l1 l2 ref : l1 <= l2 -> ref_bounded l1 ref -> ref_bounded l2 ref.
Proof.
  intros H (A & B & C). split; [|split; [|exact C]]; (eapply Forall_impl; [|eassumption]).
  - intros x Hx c Hc. specialize (Hx c Hc). lia.
  - simpl. lia.
Qed.

Lemma ref_sorted_empty : ref_sorted ix_empty_ref.
Proof. repeat split; constructor. Qed.

(** Below the monotone layout bound the new chunk is appended to its bin. *)
Lemma ibin_add_append lend c x :
  bin_bounded lend x -> lend <= fst c -> ibin_add c x = mkBin (bnum x) (bchunks x ++ [c]).
Proof.
  intros H Hl. unfold ibin_add. rewrite ix_upd_chunks_append; [reflexivity|].
  intros ch Hc. destruct (H ch Hc). lia.
Qed.

Section RefAdd.
  Variables (lend : Z) (ref : iref) (r : irec) (tail : list Z) (st : option istats).
  Let c : chunk := (q_cb r, q_ce r).
  Let ref' : iref := mkRef (filed (rbins ref) (q_bin r) c) st (rintv ref ++ tail).
  Hypothesis Hb : ref_bounded lend ref.
  Hypothesis Hl : 0 <= lend <= q_cb r.
  Hypothesis Hc : q_cb r < q_ce r.

  Lemma filed_find n :
    find_bin bnum (filed (rbins ref) (q_bin r) c) n
    = if n =? q_bin r then Some (match find_bin bnum (rbins ref) (q_bin r) with
                                 | Some x => mkBin (bnum x) (bchunks x ++ [c])
                                 | None => mkBin (q_bin r) [c]
                                 end)
      else find_bin bnum (rbins ref) n.
  Proof.
    unfold filed. rewrite find_file by reflexivity. destruct (n =? q_bin r); [|reflexivity].
    destruct (find_bin bnum (rbins ref) (q_bin r)) as [x|] eqn:E; [|reflexivity].
    rewrite (ibin_add_append lend); [reflexivity| |apply Hl].
    destruct Hb as (B1 & _). rewrite Forall_forall in B1. apply B1. apply (find_bin_In _ _ _ _ E).
  Qed.

  Lemma ref_add_old R : rec_in_ref ref R -> rec_in_ref ref' R.
  Proof.
    intros ((x & Hx & Hcov) & C2 & C3). split; [|split]; simpl.
    - rewrite filed_find. destruct (Z.eqb_spec (q_bin R) (q_bin r)) as [E|E]; [|exists x; auto].
      rewrite <- E, Hx. eexists. split; [reflexivity|]. simpl. eapply ix_covers_incl; [apply incl_appl, incl_refl|exact Hcov].
    - rewrite zlen_app. pose proof (zlen_nonneg tail). lia.
    - intros i Hi. rewrite app_nth1; [apply C3; exact Hi|]. unfold zlen in C2. lia.
  Qed.

  Hypothesis Ht : forall x, In x tail -> x = 0 \/ x = q_cb r.
  Hypothesis He : etile r < zlen (rintv ref ++ tail).

  Lemma ref_add_new : rec_in_ref ref' r.
  Proof.
    destruct Hb as (_ & B2 & _). split; [|split]; simpl.
    - rewrite filed_find, Z.eqb_refl. eexists. split; [reflexivity|]. exists c. split; [|simpl; lia].
      destruct (find_bin _ _ _); simpl; [apply in_or_app; right|]; left; reflexivity.
    - exact He.
    - intros i _. destruct (nth_in_or_default i (rintv ref ++ tail) 0) as [Hin| ->]; [|lia].
      apply in_app_or in Hin. destruct Hin as [Hin|Hin].
      + rewrite Forall_forall in B2. specialize (B2 _ Hin). lia.
      + destruct (Ht _ Hin) as [-> | ->]; lia.
  Qed.

  Lemma ref_add_bounded : ref_bounded (q_ce r) ref'.
  Proof.
    destruct Hb as (B1 & B2 & B3). split; [|split]; simpl.
    - apply (file_Forall bnum _ _ _ (bin_bounded lend) (bin_bounded (q_ce r))); [exact B1| | |].
      + intros x Hx ch Hch. specialize (Hx ch Hch). lia.
      + intros x Hx _. rewrite (ibin_add_append lend) by (assumption || apply Hl). simpl.
        intros ch Hch. apply in_app_or in Hch. destruct Hch as [Hch|[<-|[]]]; [specialize (Hx ch Hch)|simpl]; lia.
      + intros ch [<-|[]]. simpl. lia.
    - apply Forall_app. split; [eapply Forall_impl; [|exact B2]; simpl; lia|].
      apply Forall_forall. intros x Hx. destruct (Ht x Hx); lia.
    - apply file_NoDup; auto.
  Qed.
End RefAdd.

Lemma ref_add_sorted lend ref b c st :
  Forall (bin_bounded lend) (rbins ref) -> lend <= fst c -> ref_sorted ref -> find_bin bnum (rbins ref) b <> None ->
  ref_sorted (mkRef (filed (rbins ref) b c) st (rintv ref)).
Proof.
  intros B1 Hl (S1 & S2 & S3) Hf. split; [|split; [|exact S3]]; simpl.
  - apply (key_sorted_ext bnum bnum (rbins ref)); [|exact S1]. unfold filed. rewrite file_nums by reflexivity.
    destruct (find_bin _ _ _); [rewrite app_nil_r; reflexivity|congruence].
  - apply (file_Forall bnum _ _ _ (fun x => bin_bounded lend x /\ key_sorted fst (bchunks x)) (fun x => key_sorted fst (bchunks x))).
    + apply Forall_and; assumption.
    + tauto.
    + intros x (Hx & Hs) _. rewrite (ibin_add_append lend) by assumption. simpl.
      apply key_sorted_snoc; [exact Hs|]. intros ch Hch. specialize (Hx ch Hch). lia.
    + repeat constructor.
Qed.

Lemma Inv_init : Inv ix_empty [] (-1) 0 0.
Proof. constructor; simpl; try lia; try reflexivity; try (intros ? []); try discriminate; constructor. Qed.

Lemma Inv_add ix done g r :
  (let '(a, b, c) := g in Inv ix done a b c) -> wf_at ix_bai_limit g [r] ->
  exists ix', ix_add ix r = Ok ix' /\ let '(a, b, c) := ghost_step g r in Inv ix' (done ++ [r]) a b c.
Proof.
  destruct g as [[lrid lstart] lend]. intros [Ilen Ilend Ilast Isrt Irefs Iseen] W.
  unfold ghost_step. cbn [wf_at ix_wf_from] in W. destruct (q_placed r) eqn:Hp.
  - destruct W as (W1 & W2 & W3 & W4 & W5 & W6 & _).
    destruct (ix_add_accepts ix r) as (ix' & E); [apply valid_pos_iff; lia..|rewrite Hp; intros _; lia|].
    exists ix'. split; [exact E|]. apply ix_add_Ok in E. rewrite Hp in E. cbv zeta in E.
    set (ref := nth (Z.to_nat (q_rid r)) (irefs ix) ix_empty_ref) in *.
    destruct E as (_ & intv & sorted & L & Hs & ->).
    destruct (ix_linear_ok (rintv ref) (q_start r) (q_end r) (q_cb r) W4) as (tail & L1 & L2 & L3).
    rewrite L1 in L. injection L as <-.
    assert (Hb : ref_bounded lend ref) by (apply Forall_nth_d; [exact Irefs|apply ref_bounded_empty]).
    constructor; simpl; try lia.
    + rewrite zlen_put. lia.
    + intros Es. destruct (Hs Es) as (Eix & Hf & Hlen).
      assert (tail = []) as -> by (destruct tail; [reflexivity|rewrite zlen_app in Hlen; unfold zlen in Hlen; simpl in Hlen; lia]).
      rewrite app_nil_r. specialize (Isrt Eix).
      apply Forall_put; [exact Isrt|apply ref_sorted_empty|].
      apply (ref_add_sorted lend); [apply Hb|simpl; lia|apply Forall_nth_d; [exact Isrt|apply ref_sorted_empty]|exact Hf].
    + apply Forall_put; [|apply ref_bounded_empty|apply (ref_add_bounded lend); auto; lia].
      eapply Forall_impl; [|exact Irefs]. intros a. apply ref_bounded_mono. lia.
    + apply seen_put; [exact Iseen|lia|intros R; apply (ref_add_old lend)|apply (ref_add_new lend)]; auto; lia.
  - destruct W as (W1 & W2 & _).
    destruct (ix_add_accepts ix r) as (ix' & E); [apply valid_pos_iff; lia..|congruence|].
    exists ix'. split; [exact E|]. apply ix_add_Ok in E. rewrite Hp in E. subst ix'.
    constructor; simpl; try assumption. apply seen_unplaced; assumption.
Qed.

(** What a query needs of the state; kept by sort and by a covering merge strategy. *)
Record QInv (ix : index) (done : list irec) : Prop := mkQInv {
  q_sorted : isorted ix = true -> Forall (fun ref => key_sorted bnum (rbins ref)) (irefs ix);
  q_nodup : Forall (fun ref => NoDup (map bnum (rbins ref))) (irefs ix);
  q_seen : seen ix_empty_ref rec_in_ref (irefs ix) done
}.

Lemma Inv_QInv ix done a b c : Inv ix done a b c -> QInv ix done.
Proof.
  intros [_ _ _ Isrt Irefs Iseen]. constructor; [| |exact Iseen].
  - intros E. eapply Forall_impl; [|exact (Isrt E)]. intros r (H & _). exact H.
  - eapply Forall_impl; [|exact Irefs]. intros r (_ & _ & H). exact H.
Qed.

Lemma bai_built rs : ix_wf rs -> exists ix, ix_fold_add ix_empty rs = Ok ix /\ QInv ix rs.
Proof.
  intros W.
  destruct (I_fold ix_add ix_fold_add ix_bai_limit (fun ix done '(a, b, c) => Inv ix done a b c)
              ix_folds Inv_add rs ix_empty [] (-1, 0, 0) Inv_init W) as (ix & F & I).
  exists ix. split; [exact F|]. destruct (fold_left _ _ _) as [[a b] c]. exact (Inv_QInv _ _ _ _ _ I).
Qed.

Lemma map_bnum_sort_bin l : map bnum (map ix_sort_bin l) = map bnum l.
Proof. rewrite map_map. reflexivity. Qed.

Lemma rec_in_ref_sort ref R : NoDup (map bnum (rbins ref)) -> rec_in_ref ref R -> rec_in_ref (ix_sort_ref ref) R.
Proof.
  intros Hnd ((x & Hx & Hcov) & H2 & H3). unfold ix_sort_ref. split; [|split]; simpl.
  - exists (ix_sort_bin x). rewrite find_bin_isort by (rewrite map_bnum_sort_bin; exact Hnd).
    rewrite (find_bin_map bnum ix_sort_bin) by reflexivity. rewrite Hx. split; [reflexivity|].
    eapply ix_covers_incl; [|exact Hcov]. intros c Hc. apply ix_isort_in. exact Hc.
  - rewrite ix_sort_intv_eq. unfold zlen in *. rewrite ix_isort_length. exact H2.
  - rewrite ix_sort_intv_eq. apply ix_isort_prefix; [|exact H3].
    unfold zlen in H2. lia.
Qed.

Lemma QInv_sort ix done : QInv ix done -> QInv (ix_sort ix) done /\ isorted (ix_sort ix) = true.
Proof.
  intros Q. unfold ix_sort. destruct (isorted ix) eqn:E; [split; [exact Q|exact E]|].
  split; [|reflexivity]. destruct Q as [Q1 Q2 Q3]. constructor; simpl.
  - intros _. apply Forall_map, Forall_forall. intros r _. apply ix_isort_sorted.
  - apply Forall_map. eapply Forall_impl; [|exact Q2]. intros r Hnd.
    apply ix_isort_NoDup. rewrite map_bnum_sort_bin. exact Hnd.
  - apply seen_map; [reflexivity| |exact Q3]. intros i R. apply rec_in_ref_sort.
    apply (Forall_nth_d (fun ref => NoDup (map bnum (rbins ref)))); [exact Q2|constructor].
Qed.

Lemma QInv_merge s ix done : ix_strategy_covers s -> QInv ix done -> QInv (ix_merge s ix) done.
Proof.
  intros Hs [Q1 Q2 Q3].
  set (mb := fun b => mkBin (bnum b) (s (ix_isort fst (bchunks b)))).
  constructor; simpl.
  - intros E. apply Forall_map. eapply Forall_impl; [|exact (Q1 E)]. intros r. apply (key_sorted_map bnum mb). reflexivity.
  - apply Forall_map. eapply Forall_impl; [|exact Q2]. intros r Hnd. simpl. rewrite map_map. exact Hnd.
  - apply seen_map; [reflexivity| |exact Q3]. intros i R ((x & Hx & c & Hc & Hcov) & C23). split; [|exact C23]. simpl.
    destruct (Hs (ix_isort fst (bchunks x)) c) as (c' & Hc' & Hl & Hr').
    + apply key_sorted_begin, ix_isort_sorted.
    + apply ix_isort_in. exact Hc.
    + exists (mb x). rewrite (find_bin_map bnum mb) by reflexivity. rewrite Hx. split; [reflexivity|].
      exists c'. split; [exact Hc'|lia].
Qed.

Lemma tile_loop_first intv n iv beg end_ cend :
  0 <= beg < end_ -> iv = beg / 16384 -> (n < length intv)%nat -> nth n intv 0 < cend ->
  ix_tile_loop (skipn n intv) 0 false iv beg end_ cend = true.
Proof.
  intros Hq Hiv. revert n. induction intv as [|tile rest IH]; intros [|n] Hn Hhd; simpl in Hn; try lia; [|apply IH; [lia|exact Hhd]].
  simpl in Hhd. simpl. change ix_TW with 16384. pose proof (Z.mul_div_le beg 16384 eq_refl). pose proof (Z.mul_succ_div_gt beg 16384 eq_refl).
  replace (iv * 16384 + 16384 >=? beg) with true by (symmetry; apply Z.geb_le; lia).
  replace (iv * 16384 <=? end_) with true by (symmetry; apply Z.leb_le; lia).
  replace (cend >? tile) with true by (symmetry; apply Z.gtb_lt; lia). reflexivity.
Qed.

Lemma query_sorted ix done R rid beg end_ :
  QInv ix done -> isorted ix = true -> In R done -> rec_shape ix_bai_limit R ->
  internal_BinFor (q_start R) (q_end R) = Ok (q_bin R) ->
  ix_overlaps R rid beg end_ -> 0 <= beg < end_ -> end_ <= 2 ^ 29 ->
  exists cs, ix_chunks_of ix rid beg end_ = Ok cs /\ ix_covers cs R.
Proof.
  intros [Q1 Q2 Q3] Es HR (_ & S2 & S3 & S4) Hbin (Op & Orid & O1 & O2) Hq Hq2.
  destruct (Q3 R HR Op) as (A & ((x & Hx & c & Hc & Hcov) & C2 & C3)).
  subst rid. unfold ix_chunks_of. set (ref := nth (Z.to_nat (q_rid R)) (irefs ix) ix_empty_ref) in *.
  change ix_TW with 16384. rewrite Z.quot_div_nonneg by lia.
  set (iv := beg / 16384).
  assert (Hiv : 0 <= iv <= etile R) by (unfold iv, etile; split; [apply Z.div_pos; lia|apply Z.div_le_mono; lia]).
  destruct (iv >=? zlen (rintv ref)) eqn:E; [lia|].
  replace (0 <=? iv) with true by (symmetry; apply Z.leb_le; lia). unfold chk.
  eexists. split; [reflexivity|]. exists c. split; [|exact Hcov].
  apply ix_isort_in. unfold ix_candidates. apply in_flat_map. exists (q_bin R). split.
  - apply (bai_bin_containment_holds (q_start R) (q_end R) beg end_); try lia; try assumption.
    unfold ix_bai_limit in S3. change (2 ^ internal_indexWordBits) with (2 ^ 29) in S3. lia.
  - assert (Href : In ref (irefs ix)) by (apply nth_In; unfold zlen in A; lia).
    rewrite Forall_forall in Q2. specialize (Q2 ref Href).
    specialize (Q1 Es). rewrite Forall_forall in Q1. specialize (Q1 ref Href).
    rewrite (ix_search_found _ _ x Q1 Q2 Hx).
    apply filter_In. split; [exact Hc|].
    apply tile_loop_first; try assumption; try reflexivity; [unfold zlen in E; lia|].
    specialize (C3 (Z.to_nat iv) ltac:(lia)). lia.
Qed.

(** Completeness of [Chunks] in any state that satisfies the query invariant for the records [rs]. *)
Theorem complete_in rs ix :
  ix_wf rs -> ix_bins_ok rs -> QInv ix rs ->
  forall rid beg end_ r, 0 <= beg < end_ -> end_ <= 2 ^ 29 ->
    In r rs -> ix_overlaps r rid beg end_ ->
    exists cs, fst (ix_chunks ix rid beg end_) = Ok cs /\ ix_covers cs r.
Proof.
  intros W B Q rid beg end_ r Hq Hq2 Hr Ho. pose proof Ho as (Op & Orid & O12).
  destruct (q_seen _ _ Q r Hr Op) as (A & _). subst rid. unfold ix_chunks.
  destruct (q_rid r <? 0) eqn:E1; [lia|].
  destruct (q_rid r >=? zlen (irefs ix)) eqn:E2; [lia|]. cbn [orb].
  destruct (beg <? 0) eqn:E3; [lia|]. destruct (end_ <? beg) eqn:E4; [lia|]. cbn [orb fst].
  assert (Ec : ix_clip_end end_ = end_).
  { unfold ix_clip_end. change (2 ^ internal_indexWordBits) with (2 ^ 29). destruct (end_ >? 2 ^ 29) eqn:E5; [lia|reflexivity]. }
  rewrite Ec. destruct (QInv_sort _ _ Q) as (Q' & Es).
  apply (query_sorted _ rs); try assumption.
  - exact (wf_shape _ _ _ _ _ _ W Hr Op).
  - unfold ix_bins_ok in B. rewrite Forall_forall in B. exact (B r Hr Op).
Qed.

(** Every later state reached by sorting (Chunks, WriteIndex) or by a
    covering merge strategy still answers completely. *)
Inductive reach (rs : list irec) : index -> Prop :=
| reach_built ix : ix_fold_add ix_empty rs = Ok ix -> reach rs ix
| reach_sort ix : reach rs ix -> reach rs (ix_sort ix)
| reach_query ix rid beg end_ : reach rs ix -> reach rs (snd (ix_chunks ix rid beg end_))
| reach_merge ix s : ix_strategy_covers s -> reach rs ix -> reach rs (ix_merge s ix).

Lemma ix_chunks_state ix rid beg end_ :
  snd (ix_chunks ix rid beg end_) = ix \/ snd (ix_chunks ix rid beg end_) = ix_sort ix.
Proof.
  unfold ix_chunks. destruct ((rid <? 0) || (rid >=? zlen (irefs ix))); [left; reflexivity|].
  destruct ((beg <? 0) || (end_ <? beg)); [left|right]; reflexivity.
Qed.

Lemma reach_QInv rs ix : ix_wf rs -> reach rs ix -> QInv ix rs.
Proof.
  intros W Hre. induction Hre as [ix F|ix _ IH|ix rid beg end_ _ IH|ix s Hs _ IH].
  - destruct (bai_built rs W) as (ix' & F' & Q). congruence.
  - apply QInv_sort; exact IH.
  - destruct (ix_chunks_state ix rid beg end_) as [-> | ->]; [exact IH|apply QInv_sort; exact IH].
  - apply QInv_merge; assumption.
Qed.

Lemma ix_chunks_sorted ix rid beg end_ cs :
  fst (ix_chunks ix rid beg end_) = Ok cs -> key_sorted fst cs.
Proof.
  unfold ix_chunks. destruct ((rid <? 0) || (rid >=? zlen (irefs ix))); [discriminate|].
  destruct ((beg <? 0) || (end_ <? beg)); [discriminate|]. cbn [fst].
  unfold ix_chunks_of. destruct (_ >=? _); [discriminate|]. unfold chk. destruct (0 <=? _); [|discriminate].
  intros H. inversion H. apply ix_isort_sorted.
Qed.
