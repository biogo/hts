(** C11 — proofs about the index models: the readers (Model/DecIndex.v) and the
    query side (Model/DecQuery.v). Every reader returns a value or an error on
    every byte string, for every count field value: each is shown not to
    lengthen what is left of the input (and to shorten it by what it must
    consume), and a loop terminates because every iteration consumes input. *)
From Coq Require Import ZArith Lia List Bool.
From Hts Require Import Base.Prim Base.DecBase Base.BinArith Generated Model.DecText Model.DecIndex Model.DecQuery
  Proofs.DecLemmas.
Open Scope Z_scope.

Lemma chunks_loop_ok fuel : forall s i n, zlen s < Z.of_nat fuel ->
  post (chunks_loop s i n fuel) (fun s' => zlen s' <= zlen s).
Proof.
  induction fuel as [|f IH]; intros s i n Hf; [unfold zlen in Hf; lia|].
  cbn [chunks_loop]. destruct (negb (i <? n)); [apply post_ret; lia|].
  apply post_take; [exact I|]. intros b s1 _ L _.
  apply (post_weaken (IH s1 (i + 1) n ltac:(lia))). lia.
Qed.

Lemma read_chunks_ok s n : post (read_chunks s n) (fun s' => zlen s' <= zlen s).
Proof.
  unfold read_chunks. destruct (n =? 0); [apply post_ret; lia|].
  destruct (Z.ltb_spec n 0); [exact I|]. apply post_make; [lia|].
  apply chunks_loop_ok, zlen_lt_fuel.
Qed.

Lemma read_stats_ok s : post (read_stats s) (fun s' => zlen s' + 32 <= zlen s).
Proof.
  apply post_take; [exact I|]. intros b s1 _ L _. apply post_ret. lia.
Qed.

Lemma intervals_loop_ok fuel : forall s i n, 0 <= i -> zlen s < Z.of_nat fuel ->
  post (intervals_loop s i n fuel) (fun s' => zlen s' <= zlen s).
Proof.
  induction fuel as [|f IH]; intros s i n Hi Hf; [unfold zlen in Hf; lia|].
  cbn [intervals_loop]. destruct (Z.ltb_spec i n); [|apply post_ret; lia].
  apply post_chk; [lia|].
  apply post_take; [exact I|]. intros b s1 _ L _.
  apply post_chk; [lia|].
  apply (post_weaken (IH s1 (i + 512) n ltac:(lia) ltac:(lia))). lia.
Qed.

Lemma read_intervals_ok s : post (read_intervals s) (fun s' => zlen s' + 4 <= zlen s).
Proof.
  unfold read_intervals. apply (post_bind2 (rd_i32_ok s)). intros n s1 (_ & L & _).
  destruct (n =? 0); [apply post_ret; lia|].
  destruct (Z.ltb_spec n 0); [exact I|]. apply post_make; [lia|].
  apply (post_weaken (intervals_loop_ok _ s1 0 n ltac:(lia) (zlen_lt_fuel s1))). lia.
Qed.

Lemma bins_loop_ok dummy fuel : forall s i len, 0 <= i -> zlen s < Z.of_nat fuel ->
  post (bins_loop dummy s i len fuel) (fun s' => zlen s' <= zlen s).
Proof.
  induction fuel as [|f IH]; intros s i len Hi Hf; [unfold zlen in Hf; lia|].
  cbn [bins_loop]. destruct (Z.ltb_spec i len); [|apply post_ret; lia].
  apply post_chk; [lia|].
  apply (post_bind2 (rd_u_ok 4 s)). intros bin s1 (L1 & _).
  apply (post_bind2 (rd_i32_ok s1)). intros n s2 (_ & L2 & _).
  destruct (bin =? dummy).
  - destruct (negb (n =? 2)); [exact I|].
    apply (post_bind (read_stats_ok s2)). intros s3 L3.
    apply post_chk; [apply Z.leb_le; lia|].
    apply (post_weaken (IH s3 i (len - 1) Hi ltac:(lia))). lia.
  - apply (post_bind (read_chunks_ok s2 n)). intros s3 L3.
    apply (post_weaken (IH s3 (i + 1) len ltac:(lia) ltac:(lia))). lia.
Qed.

Lemma read_bins_ok s : post (read_bins s) (fun s' => zlen s' + 4 <= zlen s).
Proof.
  unfold read_bins. apply (post_bind2 (rd_i32_ok s)). intros n s1 (_ & L & _).
  destruct (n =? 0); [apply post_ret; lia|].
  destruct (Z.ltb_spec n 0); [exact I|]. apply post_make; [lia|].
  apply (post_weaken (bins_loop_ok _ _ s1 0 n ltac:(lia) (zlen_lt_fuel s1))). lia.
Qed.

Lemma indices_loop_safe fuel : forall s i n, zlen s < Z.of_nat fuel ->
  post (indices_loop s i n fuel) (fun _ => True).
Proof.
  induction fuel as [|f IH]; intros s i n Hf; [unfold zlen in Hf; lia|].
  cbn [indices_loop]. destruct (negb (i <? n)); [exact I|].
  apply (post_bind (read_bins_ok s)). intros s1 L1.
  apply (post_bind (read_intervals_ok s1)). intros s2 L2.
  apply IH. lia.
Qed.

(** internal.ReadIndex, under bam.ReadIndex and tabix.ReadFrom. *)
Lemma read_index_safe s n : safe (read_index s n).
Proof.
  unfold read_index, read_indices.
  apply (post_bind (Q := fun _ => True)); [|intros s1 _; destruct ((zlen s1 =? 0) || (8 <=? zlen s1)); exact I].
  destruct (Z.ltb_spec n 0); [exact I|]. apply post_make; [lia|].
  apply indices_loop_safe, zlen_lt_fuel.
Qed.

Lemma read_tabix_header_safe s : safe (read_tabix_header s).
Proof.
  apply post_take; [exact I|]. intros x s1 _ _ _.
  apply (post_bind2 (rd_i32_ok s1)). intros n s2 _.
  destruct (Z.ltb_spec n 0); [exact I|].
  destruct (Z.eqb_spec n 0); [exact I|]. apply post_make; [lia|].
  apply post_take; [exact I|]. intros names s3 Ln _ _.
  apply post_inb; [lia|].
  destruct (negb (getz names (zlen names - 1) =? 0)); [exact I|].
  apply post_slice; [lia|lia|exact I].
Qed.

(** Before the fix a name block of length 0 was indexed at -1. *)
Lemma tabix_empty_names_would_panic : inb (@nil Z) (zlen (@nil Z) - 1) = false.
Proof. reflexivity. Qed.

Lemma csi_bins_loop_ok version dummy fuel : forall s i len, 0 <= i -> zlen s < Z.of_nat fuel ->
  post (csi_bins_loop version dummy s i len fuel) (fun s' => zlen s' <= zlen s).
Proof.
  induction fuel as [|f IH]; intros s i len Hi Hf; [unfold zlen in Hf; lia|].
  cbn [csi_bins_loop]. destruct (Z.ltb_spec i len); [|apply post_ret; lia].
  apply post_chk; [lia|].
  apply (post_bind2 (rd_u_ok 4 s)). intros bin s1 (L1 & _).
  apply (post_bind2 (rd_u_ok 8 s1)). intros loffset s2 (L2 & _).
  apply (post_bind (Q := fun s3 => zlen s3 <= zlen s2)).
  { destruct (version =? 2); [|apply post_ret; lia].
    apply (post_bind (rd_u_ok 8 s2)). intros [v s3] (L3 & _). apply post_ret. simpl. lia. }
  intros s3 L3.
  apply (post_bind2 (rd_i32_ok s3)). intros n s4 (_ & L4 & _).
  destruct (bin =? dummy).
  - destruct (negb (n =? 2)); [exact I|].
    apply (post_bind (read_stats_ok s4)). intros s5 L5.
    apply post_chk; [apply Z.leb_le; lia|].
    apply (post_weaken (IH s5 i (len - 1) Hi ltac:(lia))). lia.
  - apply (post_bind (read_chunks_ok s4 n)). intros s5 L5.
    apply (post_weaken (IH s5 (i + 1) len ltac:(lia) ltac:(lia))). lia.
Qed.

(** The bin limit fits the signed count: a negative nBins is rejected by the unsigned comparison. *)
Lemma csi_read_bins_ok version binLimit s : 0 <= binLimit < 2 ^ 30 ->
  post (csi_read_bins version binLimit s) (fun s' => zlen s' + 4 <= zlen s).
Proof.
  intros Hl. unfold csi_read_bins. apply (post_bind2 (rd_i32_ok s)). intros n s1 (Rn & L & _).
  destruct (n =? 0); [apply post_ret; lia|].
  destruct (Z.ltb_spec (u32 (binLimit + 1)) (u32 n)) as [|E]; [exact I|].
  apply post_make; [unfold u32, wrapu in E; Z.div_mod_to_equations; lia|].
  apply (post_weaken (csi_bins_loop_ok _ _ _ s1 0 n ltac:(lia) (zlen_lt_fuel s1))). lia.
Qed.

Lemma csi_indices_loop_safe version binLimit fuel : 0 <= binLimit < 2 ^ 30 -> forall s i n, zlen s < Z.of_nat fuel ->
  post (csi_indices_loop version binLimit s i n fuel) (fun _ => True).
Proof.
  intros Hl. induction fuel as [|f IH]; intros s i n Hf; [unfold zlen in Hf; lia|].
  cbn [csi_indices_loop]. destruct (negb (i <? n)); [exact I|].
  apply (post_bind (csi_read_bins_ok version binLimit s Hl)). intros s1 L1. apply IH. lia.
Qed.

Lemma csi_read_indices_safe version binLimit s : 0 <= binLimit < 2 ^ 30 -> safe (csi_read_indices version binLimit s).
Proof.
  intros Hl. unfold csi_read_indices. apply (post_bind2 (rd_i32_ok s)). intros n s1 _.
  destruct (n =? 0); [exact I|]. destruct (Z.ltb_spec n 0); [exact I|]. apply post_make; [lia|].
  apply (post_bind (csi_indices_loop_safe version binLimit _ Hl s1 0 n (zlen_lt_fuel s1))). intros; exact I.
Qed.

Lemma csi_read_from_safe s : safe (csi_read_from s).
Proof.
  apply post_take; [exact I|]. intros m s1 _ _ _.
  destruct (negb (zeqb m csiMagic)); [exact I|].
  apply (post_bind2 (rd_u_ok 1 s1)). intros version s2 _.
  destruct (negb (version =? 1) && negb (version =? 2)); [exact I|].
  apply (post_bind2 (rd_u_ok 4 s2)). intros minShift s3 _.
  destruct (s32 minShift <? 0); [exact I|].
  apply (post_bind2 (rd_u_ok 4 s3)). intros depth s4 _.
  destruct (s32 depth <? 0); [exact I|].
  destruct ((Z.quot 32 csi_nextBinShift <=? depth) || (64 <=? minShift) || (64 <=? u32 (minShift + u32 (depth * csi_nextBinShift)))); [exact I|].
  apply (post_bind2 (rd_i32_ok s4)). intros n s5 _.
  apply (post_bind (Q := fun _ => True)).
  { destruct (Z.ltb_spec 0 n); [|exact I]. apply post_make; [lia|]. apply post_take; intros; exact I. }
  intros s6 _.
  apply (post_bind (Q := fun _ => True)); [|intros [nref s7] _; destruct ((zlen s7 =? 0) || (8 <=? zlen s7)); exact I].
  apply csi_read_indices_safe.
  (* the bin limit is a uint32 divided by 7 *)
  set (x := u32 (u32 (Z.shiftl 1 (u32 (u32 (depth + 1) * csi_nextBinShift))) - 1)).
  assert (0 <= x < 2 ^ 32) as Hx by apply u32_range. clearbody x.
  rewrite u32_small; rewrite Z.quot_div_nonneg by lia; Z.div_mod_to_equations; lia.
Qed.

(** The query side (Model/DecQuery.v): the uint32 bin enumerations end because no
    level's upper bin is 2^32-1. *)
Lemma u32_loop_safe b e : e <> 2 ^ 32 - 1 -> safe (u32_loop b e).
Proof. intros H. unfold u32_loop. destruct (Z.eqb_spec e (2 ^ 32 - 1)); [contradiction|exact I]. Qed.

(** The upper bin of a level is its offset plus a tile number. *)
Lemma upper_bin_bound t q : 0 <= t -> 0 <= q -> t + q < 2 ^ 32 - 1 -> u32 (t + u32 q) <> 2 ^ 32 - 1.
Proof. intros Ht Hq H. rewrite (u32_small q), u32_small by lia. lia. Qed.

(** An interval end of -1 (the empty interval at 0) wraps to 2^32-1 as a tile
    number, but every level has an offset of at least 1. *)
Lemma bai_level_bound off sh e' : 1 <= off <= 4681 -> 14 <= sh <= 26 -> -1 <= e' < 2 ^ 29 ->
  u32 (off + u32 (Z.shiftr e' sh)) <> 2 ^ 32 - 1.
Proof.
  intros Ho Hs He. destruct (Z.eq_dec e' (-1)) as [->|Hne].
  - rewrite shiftr_neg1 by lia. unfold u32, wrapu. Z.div_mod_to_equations. lia.
  - apply upper_bin_bound; [lia|apply Z.shiftr_nonneg; lia|].
    assert (Z.shiftr e' sh < 2 ^ (29 - sh)) by (apply shiftr_lt_pow; try lia; replace (sh + (29 - sh)) with 29 by lia; lia).
    assert (2 ^ (29 - sh) <= 2 ^ 15) by (apply Z.pow_le_mono_r; lia). lia.
Qed.

Lemma overlapping_levels_safe beg e' ls : -1 <= e' < 2 ^ 29 ->
  Forall (fun p => 1 <= fst p <= 4681 /\ 14 <= snd p <= 26) ls -> safe (overlapping_levels beg e' ls).
Proof.
  intros He. induction 1 as [|[off sh] t [Ho Hs] _ IH]; cbn [overlapping_levels]; [exact I|].
  apply (post_bind (u32_loop_safe _ _ (bai_level_bound off sh e' Ho Hs He))). intros k _.
  apply (post_bind IH). intros; exact I.
Qed.

Lemma bai_levels_ok : Forall (fun p => 1 <= fst p <= 4681 /\ 14 <= snd p <= 26) bai_levels.
Proof. unfold bai_levels. repeat constructor; cbv; discriminate. Qed.

Lemma bai_chunks_query_safe nintv beg end_ : safe (bai_chunks_query nintv beg end_).
Proof.
  unfold bai_chunks_query.
  destruct (Z.ltb_spec beg 0); [exact I|]. destruct (Z.ltb_spec end_ beg); [exact I|].
  change internal_TileWidth with 16384. change (2 ^ internal_indexWordBits) with (2 ^ 29). cbv zeta.
  destruct (Z.leb_spec nintv (Z.quot beg 16384)); [exact I|].
  pose proof (Z.quot_pos beg 16384 ltac:(lia) ltac:(lia)).
  apply post_chk; [lia|]. apply overlapping_levels_safe; [|exact bai_levels_ok].
  destruct (Z.ltb_spec (2 ^ 29) end_); lia.
Qed.

(** Levels of reg2bins: at level l the shift is minShift + 3(depth-l) and the
    offset t satisfies 7t + 1 = 8^l. No uint32 operation of the step to the next level wraps. *)
Lemma csi_level_next ms depth level s t : 0 <= ms -> 0 <= level < depth -> depth <= 9 -> ms + 3 * depth <= 63 ->
  s = ms + 3 * (depth - level) -> 7 * t + 1 = 2 ^ (3 * level) ->
  u32 (s - csi_nextBinShift) = ms + 3 * (depth - (level + 1)) /\
  7 * u32 (t + u32 (Z.shiftl 1 (u32 (level * csi_nextBinShift)))) + 1 = 2 ^ (3 * (level + 1)).
Proof.
  intros Hms Hl Hd Hsh -> Ht. change csi_nextBinShift with 3.
  assert (0 < 2 ^ (3 * level) <= 2 ^ 27) as Hp by (split; [apply Z.pow_pos_nonneg|apply Z.pow_le_mono_r]; lia).
  rewrite (u32_small (_ - 3)), (u32_small (level * 3)), shiftl_1 by lia.
  replace (level * 3) with (3 * level) by lia. rewrite (u32_small (2 ^ (3 * level))), u32_small by lia.
  split; [lia|]. replace (3 * (level + 1)) with (3 * level + 3) by lia. rewrite Z.pow_add_r by lia. lia.
Qed.

(** The interval end is below 2^(minShift+3depth), so its tile number at level l is below 8^l. *)
Lemma reg2bins_levels_safe ms depth beg e' : 0 <= ms -> 0 <= depth <= 9 -> ms + 3 * depth <= 63 ->
  0 <= e' < 2 ^ (ms + 3 * depth) ->
  forall n level s t, Z.of_nat n + level = depth + 1 -> 0 <= level ->
    (n <> O -> s = ms + 3 * (depth - level) /\ 7 * t + 1 = 2 ^ (3 * level)) ->
    safe (reg2bins_levels beg e' s t level n).
Proof.
  intros Hms Hd Hsh He. induction n as [|n IH]; intros level s t Hn Hl Hinv; [exact I|].
  cbn [reg2bins_levels]. destruct (Hinv ltac:(discriminate)) as [Hs Ht].
  assert (0 < 2 ^ (3 * level) <= 2 ^ 27) as Hp by (split; [apply Z.pow_pos_nonneg|apply Z.pow_le_mono_r]; lia).
  assert (Z.shiftr e' s < 2 ^ (3 * level)) as Hq.
  { apply shiftr_lt_pow; try lia. replace (s + 3 * level) with (ms + 3 * depth) by lia. lia. }
  apply (post_bind (Q := fun _ => True)).
  { apply u32_loop_safe, upper_bin_bound; [lia|apply Z.shiftr_nonneg; lia|lia]. }
  intros k _. apply (post_bind (Q := fun _ => True)); [|intros; exact I].
  apply IH; [lia|lia|]. intros Hn0. apply (csi_level_next ms depth); try assumption; [|lia].
  destruct n; [contradiction|lia].
Qed.

(** csi.ReadFrom accepts depth <= 9 and minShift + 3 depth < 64. *)
Lemma csi_chunks_query_safe ms depth beg end_ :
  0 <= ms -> 0 <= depth <= 9 -> ms + 3 * depth <= 63 -> safe (csi_chunks_query ms depth beg end_).
Proof.
  intros Hms Hd Hsh. unfold csi_chunks_query, reg2bins. change csi_nextBinShift with 3.
  rewrite (u32_small (depth * 3)), (u32_small (ms + depth * 3)) by lia. cbv zeta.
  replace (ms + depth * 3) with (ms + 3 * depth) by lia. remember (ms + 3 * depth) as sh eqn:Esh.
  assert (0 < 2 ^ sh) as Hpow by (apply Z.pow_pos_nonneg; lia).
  (* the clamp of the interval end: 2^sh, or the largest int64 when that is 2^63 *)
  set (max := if sh <? 63 then Z.shiftl 1 sh else 2 ^ 63 - 1).
  assert (0 < max <= 2 ^ sh) as Hmax.
  { unfold max. destruct (Z.ltb_spec sh 63); [rewrite shiftl_1 by lia; lia|]. replace sh with 63 by lia. lia. }
  clearbody max. destruct (Z.ltb_spec beg 0); [exact I|]. destruct (Z.leb_spec end_ beg); [exact I|].
  destruct (Z.leb_spec max beg); [exact I|].
  apply (reg2bins_levels_safe ms depth); rewrite <- ?Esh; try lia.
  destruct (Z.ltb_spec max end_); lia.
Qed.

(** The unvalidated enumeration does not terminate on an empty interval ending at
    0 (the defect that was repaired): uint32(-1 >> s) makes the level 0 bound 2^32-1. *)
Lemma reg2bins_empty_query_stuck : reg2bins 0 0 14 5 = Stuck.
Proof. vm_compute. reflexivity. Qed.

Lemma must_atoi_cases conv fields i : 0 <= i < zlen fields ->
  (exists v, must_atoi conv fields i = Ok v) \/ must_atoi conv fields i = Panic 7.
Proof.
  intros H. unfold must_atoi, chk. rewrite (inb_true _ _ H).
  destruct (conv _); [left; eauto|right; reflexivity].
Qed.

Lemma recover_post {A} (o : outcome A) P : post o P -> post (recover_parse_error o) P.
Proof. destruct o; simpl; auto; contradiction. Qed.

(** mustAtoi's panic is the recovered one; a record that is accepted has a line
    geometry unless it is empty. *)
Lemma fai_record_ok conv fields : zlen fields = 5 ->
  post (fai_record conv fields) (fun r => f_bases r = 0 -> f_len r <= 0).
Proof.
  intros H5. unfold fai_record.
  rewrite (inb_true fields fai_nameField) by (change fai_nameField with 0; lia). unfold chk at 1.
  destruct (must_atoi_cases conv fields fai_lengthField) as [[l ->]| ->]; [change fai_lengthField with 1; lia| |exact I].
  destruct (must_atoi_cases conv fields fai_startField) as [[st ->]| ->]; [change fai_startField with 2; lia| |exact I].
  destruct (must_atoi_cases conv fields fai_basesField) as [[ba ->]| ->]; [change fai_basesField with 3; lia| |exact I].
  destruct (must_atoi_cases conv fields fai_bytesField) as [[by_ ->]| ->]; [change fai_bytesField with 4; lia| |exact I].
  apply recover_post. cbn [obind].
  destruct (l <? 0); [exact I|]. destruct (st <? 0); [exact I|].
  destruct (Z.ltb_spec ba 0); [exact I|].
  destruct (Z.eqb_spec ba 0) as [->|Hba]; cbn [orb andb negb].
  - destruct (Z.eqb_spec l 0) as [->|]; [|exact I]. destruct (by_ <? 0); [exact I|]. apply post_ret. simpl. lia.
  - destruct (Z.ltb_spec by_ ba); [exact I|].
    apply (post_bind (Q := fun _ => True)); [|intros _ _; apply post_ret; simpl; lia].
    destruct (maxInt64 - ba <? st); [exact I|].
    apply post_chk; [reflexivity|]. apply post_chk; [apply negb_true_iff, Z.eqb_neq; lia|].
    destruct (Z.quot (maxInt64 - ba - st) by_ <? Z.quot l ba); exact I.
Qed.

Lemma fai_position_safe r p : (f_bases r = 0 -> f_len r <= 0) -> 0 <= p < f_len r -> safe (fai_position r p).
Proof.
  intros Hr Hp. unfold fai_position.
  destruct (Z.ltb_spec p 0); [lia|]. destruct (Z.leb_spec (f_len r) p); [lia|].
  apply post_chk; [apply negb_true_iff, Z.eqb_neq; lia|exact I].
Qed.
