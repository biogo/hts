(** C19: list, slice, map, tokeniser and TrimSpace lemmas. *)
From Coq Require Import ZArith Lia List Bool.
From Hts Require Import Base.Prim Base.WrList Model.Fai.
Open Scope Z_scope.

Lemma zlen_zero_nil {A} (l : list A) : zlen l = 0 -> l = [].
Proof. apply zlen_0_nil. Qed.

Lemma forallb_impl {A} (P Q : A -> bool) l :
  (forall x, P x = true -> Q x = true) -> forallb P l = true -> forallb Q l = true.
Proof.
  intros HPQ. induction l as [|x l IH]; simpl; [reflexivity|].
  intros H. apply andb_true_iff in H as [H1 H2]. rewrite HPQ, IH by assumption. reflexivity.
Qed.

Lemma is_nil_true {A} (l : list A) : is_nil l = true <-> l = [].
Proof. destruct l; simpl; split; congruence. Qed.

Lemma is_nil_false {A} (l : list A) : is_nil l = false <-> l <> [].
Proof. destruct l; simpl; split; congruence. Qed.

Lemma bytes_eqb_refl a : bytes_eqb a a = true.
Proof. induction a; simpl; [reflexivity|]. rewrite Z.eqb_refl. assumption. Qed.

Lemma bytes_eqb_eq a b : bytes_eqb a b = true <-> a = b.
Proof.
  revert b. induction a as [|x a IH]; destruct b as [|y b]; simpl; split; try congruence.
  - intros H. apply andb_true_iff in H as [H1 H2]. apply Z.eqb_eq in H1. apply IH in H2. congruence.
  - intros H. inversion H; subst. rewrite Z.eqb_refl. apply IH. reflexivity.
Qed.

Lemma bytes_eqb_sym a b : bytes_eqb a b = bytes_eqb b a.
Proof.
  destruct (bytes_eqb a b) eqn:E.
  - apply bytes_eqb_eq in E. subst. symmetry. apply bytes_eqb_refl.
  - destruct (bytes_eqb b a) eqn:E'; [|reflexivity].
    apply bytes_eqb_eq in E'. subst. rewrite bytes_eqb_refl in E. discriminate.
Qed.

Lemma lines_concat bs : concat (lines bs) = bs.
Proof.
  induction bs as [|b t IH]; simpl; [reflexivity|].
  destruct (b =? 10).
  - simpl. rewrite IH. reflexivity.
  - destruct (lines t) as [|l ls] eqn:E; simpl in *.
    + subst t. reflexivity.
    + rewrite <- IH. reflexivity.
Qed.

Lemma lines_lf (c rest : list Z) :
  forallb (fun x => negb (x =? 10)) c = true ->
  lines (c ++ 10 :: rest) = (c ++ [10]) :: lines rest.
Proof.
  induction c as [|x c IH]; intros H; simpl in *.
  - reflexivity.
  - apply andb_true_iff in H as [Hx Hc]. apply negb_true_iff in Hx. rewrite Hx.
    rewrite IH by assumption. reflexivity.
Qed.

Lemma lines_last (c : list Z) :
  c <> [] -> forallb (fun x => negb (x =? 10)) c = true -> lines c = [c].
Proof.
  induction c as [|x c IH]; intros Hne H; [congruence|]. simpl in *.
  apply andb_true_iff in H as [Hx Hc]. apply negb_true_iff in Hx. rewrite Hx.
  destruct c as [|y c'].
  - reflexivity.
  - rewrite IH; [reflexivity|discriminate|assumption].
Qed.

Lemma lines_term (c : list Z) (crlf : bool) (rest : list Z) :
  forallb (fun x => negb (x =? 10)) c = true ->
  lines (c ++ term crlf ++ rest) = (c ++ term crlf) :: lines rest.
Proof.
  intros H. destruct crlf; simpl term.
  - change (c ++ [13; 10] ++ rest) with (c ++ [13] ++ 10 :: rest).
    rewrite app_assoc. rewrite lines_lf.
    + rewrite <- app_assoc. reflexivity.
    + rewrite forallb_app, H. reflexivity.
  - simpl. apply lines_lf. assumption.
Qed.

Lemma lines_blanks (bl : list bool) (rest : list Z) :
  lines (blanks bl ++ rest) = map term bl ++ lines rest.
Proof.
  induction bl as [|b bl IH]; [reflexivity|].
  unfold blanks in *. simpl. rewrite <- app_assoc, <- IH. exact (lines_term [] b _ eq_refl).
Qed.

(** The last line of a record: terminated, or the end of the file. *)
Lemma lines_end (c : list Z) (nl crlf : bool) (rest : list Z) :
  c <> [] -> forallb (fun x => negb (x =? 10)) c = true -> (nl = true \/ rest = []) ->
  lines (c ++ (if nl then term crlf else []) ++ rest) = (c ++ (if nl then term crlf else [])) :: lines rest.
Proof.
  intros Hne Hc [->| ->]; [apply lines_term, Hc|].
  destruct nl; [apply lines_term, Hc|]. rewrite !app_nil_r. apply lines_last; assumption.
Qed.

Lemma trim_right_ns (a r : list Z) :
  forallb (fun x => negb (isspace x)) a = true -> trim_right (a ++ r) = a ++ trim_right r.
Proof.
  induction a as [|c a IH]; intros H; [reflexivity|]. simpl in *.
  apply andb_true_iff in H as [Hc Ha]. apply negb_true_iff in Hc.
  rewrite IH by assumption.
  destruct (a ++ trim_right r) eqn:E; [rewrite Hc|]; reflexivity.
Qed.

Lemma trim_right_spaces (l : list Z) : forallb isspace l = true -> trim_right l = [].
Proof.
  induction l as [|c l IH]; intros H; [reflexivity|]. simpl in *.
  apply andb_true_iff in H as [Hc Hl]. rewrite IH by assumption. rewrite Hc. reflexivity.
Qed.

Lemma trim_right_head (l : list Z) : trim_right l = [] \/ exists t, trim_right l = hd 0 l :: t.
Proof.
  destruct l as [|c l]; [left; reflexivity|]. simpl.
  destruct (trim_right l) eqn:E.
  - destruct (isspace c); [left; reflexivity|right; eexists; reflexivity].
  - right. eexists. reflexivity.
Qed.

Lemma term_spaces crlf : forallb isspace (term crlf) = true.
Proof. destruct crlf; reflexivity. Qed.

Lemma trim_term crlf : trim (term crlf) = [].
Proof. destruct crlf; reflexivity. Qed.

Lemma trim_left_ns c l : isspace c = false -> trim_left (c :: l) = c :: l.
Proof. intros H. simpl. rewrite H. reflexivity. Qed.

Lemma trim_visible (l sp : list Z) :
  l <> [] -> forallb (fun x => negb (isspace x)) l = true -> forallb isspace sp = true ->
  trim (l ++ sp) = l.
Proof.
  intros Hne Hl Hsp. unfold trim. destruct l as [|c l']; [congruence|].
  simpl in Hl. apply andb_true_iff in Hl as [Hc Hl'].
  change ((c :: l') ++ sp) with (c :: (l' ++ sp)).
  rewrite trim_left_ns by (apply negb_true_iff; assumption).
  change (c :: l' ++ sp) with ((c :: l') ++ sp).
  rewrite trim_right_ns by (simpl; rewrite Hc, Hl'; reflexivity).
  rewrite trim_right_spaces by assumption. apply app_nil_r.
Qed.

Lemma until_sep_name (name rest : list Z) :
  forallb (fun x => negb ((x =? 32) || (x =? 9))) name = true ->
  (rest = [] \/ exists c t, rest = c :: t /\ ((c =? 32) || (c =? 9)) = true) ->
  until_sep (name ++ rest) = name.
Proof.
  induction name as [|x name IH]; intros Hn Hr; simpl in *.
  - destruct Hr as [->|(c & t & -> & Hc)]; [reflexivity|]. simpl. rewrite Hc. reflexivity.
  - apply andb_true_iff in Hn as [Hx Hn]. apply negb_true_iff in Hx. rewrite Hx.
    rewrite IH by assumption. reflexivity.
Qed.

Lemma has_name_existsb n idx : has_name n idx = existsb (fun x => bytes_eqb (r_name x) n) idx.
Proof.
  unfold has_name. induction idx as [|r t IH]; simpl; [reflexivity|].
  destruct (bytes_eqb (r_name r) n); [reflexivity|]. exact IH.
Qed.

Lemma has_name_cons n e l : has_name n (e :: l) = bytes_eqb (r_name e) n || has_name n l.
Proof. rewrite !has_name_existsb. reflexivity. Qed.

Lemma has_name_app n a b : has_name n (a ++ b) = has_name n a || has_name n b.
Proof. rewrite !has_name_existsb. apply existsb_app. Qed.

Lemma map_set_fresh idx r : has_name (r_name r) idx = false -> map_set idx r = idx ++ [r].
Proof.
  rewrite has_name_existsb. induction idx as [|x t IH]; simpl; intros H; [reflexivity|].
  apply orb_false_iff in H as [H1 H2]. rewrite H1. rewrite IH by assumption. reflexivity.
Qed.

Lemma lookup_app_fresh n a b : has_name n a = false -> lookup n (a ++ b) = lookup n b.
Proof.
  rewrite has_name_existsb. induction a as [|x t IH]; simpl; intros H; [reflexivity|].
  apply orb_false_iff in H as [H1 H2]. rewrite H1. apply IH. assumption.
Qed.

Lemma lookup_hit n e l : r_name e = n -> lookup n (e :: l) = Some e.
Proof. intros <-. cbn [lookup]. rewrite bytes_eqb_refl. reflexivity. Qed.

Lemma skipn_add {A} (l : list A) (m n : nat) : skipn n (skipn m l) = skipn (m + n) l.
Proof.
  revert l. induction m as [|m IH]; intros l; simpl; [reflexivity|].
  destruct l as [|x l]; [destruct n; reflexivity|]. apply IH.
Qed.

Lemma firstn_add {A} (l : list A) (n k : nat) : firstn (n + k) l = firstn n l ++ firstn k (skipn n l).
Proof.
  revert l. induction n as [|n IH]; intros l; simpl; [reflexivity|].
  destruct l as [|x l]; simpl; [rewrite firstn_nil; reflexivity|]. rewrite IH. reflexivity.
Qed.

Lemma firstn_skipn_app {A} (a b : list A) (j k : nat) :
  (j + k <= length a)%nat -> firstn k (skipn j (a ++ b)) = firstn k (skipn j a).
Proof.
  intros H. rewrite skipn_app. rewrite firstn_app.
  replace (k - length (skipn j a))%nat with 0%nat by (rewrite skipn_length; lia).
  cbn [firstn]. apply app_nil_r.
Qed.

Lemma slice_app_mid (l : list Z) (a b c : Z) :
  0 <= a <= b -> b <= c -> slice l a b ++ slice l b c = slice l a c.
Proof.
  intros Hab Hbc. unfold slice.
  replace (Z.to_nat (c - a)) with (Z.to_nat (b - a) + Z.to_nat (c - b))%nat by lia.
  replace (Z.to_nat b) with (Z.to_nat a + Z.to_nat (b - a))%nat by lia.
  rewrite <- skipn_add. rewrite firstn_add. reflexivity.
Qed.

Lemma slice_nil_eq (l : list Z) (a : Z) : slice l a a = [].
Proof. unfold slice. rewrite Z.sub_diag. reflexivity. Qed.

Lemma zlen_slice (l : list Z) (a b : Z) : 0 <= a <= b -> b <= zlen l -> zlen (slice l a b) = b - a.
Proof. intros H1 H2. unfold slice. rewrite zlen_firstn; [reflexivity|]. rewrite zlen_skipn; lia. Qed.

Lemma slice_full (l : list Z) : slice l 0 (zlen l) = l.
Proof. unfold slice. rewrite Z.sub_0_r. cbn [Z.to_nat skipn]. unfold zlen. rewrite Nat2Z.id. apply firstn_all. Qed.

Lemma firstn_slice (l : list Z) (a b k : Z) :
  firstn (Z.to_nat k) (slice l a b) = slice l a (a + Z.min k (b - a)).
Proof. unfold slice. rewrite firstn_firstn, Z.add_simpl_l, Z2Nat.inj_min. reflexivity. Qed.

Lemma skipn_slice (l : list Z) (a b k : Z) : 0 <= a -> 0 <= k ->
  skipn (Z.to_nat k) (slice l a b) = slice l (a + Z.min k (b - a)) b.
Proof.
  intros Ha Hk. unfold slice. rewrite skipn_firstn_comm, skipn_add, <- Z2Nat.inj_sub, <- Z2Nat.inj_add by lia.
  destruct (Z.le_gt_cases k (b - a)).
  - rewrite Z.min_l, Z.sub_add_distr by lia. reflexivity.
  - (* nothing is left *)
    rewrite Z.min_r, Zplus_minus, Z.sub_diag by lia. replace (Z.to_nat (b - a - k)) with O by lia. reflexivity.
Qed.
