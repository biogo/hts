(** C14 — proofs about Model/Cache.v: invariants of LRU/FIFO/Random for all
    histories allowed by the client protocol, and refinement of the contract
    machine.

    The table of each of the three caches is a function [tab_of s B] of the
    list [B] of blocks held, oldest first, whose bases are distinct; LRU and
    FIFO add the list [lst_of s B].  Every statement about answers, capacity
    and ownership is a statement about [B]. *)
From Coq Require Import ZArith List Bool Lia Permutation.
From Hts Require Import Base.Prim Base.WrList Model.Cache.
Import ListNotations.
Open Scope Z_scope.

Lemma last_opt_snoc {A} (l : list A) (x : A) : last_opt (l ++ [x]) = Some x.
Proof. induction l as [|a l IH]; [reflexivity|]. simpl. rewrite IH. destruct l; reflexivity. Qed.

Lemma last_opt_case {A} (l : list A) :
  l = [] /\ last_opt l = None \/ exists l' x, l = l' ++ [x] /\ last_opt l = Some x.
Proof.
  destruct l as [|a l]; [auto|]. right.
  destruct (@exists_last _ (a :: l)) as (l' & x & E); [discriminate|]. rewrite E, last_opt_snoc. eauto.
Qed.

Lemma last_filter_split {A} (f : A -> bool) (l : list A) (v : A) :
  last_opt (filter f l) = Some v ->
  f v = true /\ exists l1 l2, l = l1 ++ v :: l2 /\ forall u, In u l2 -> f u = false.
Proof.
  induction l as [|a l IH] using rev_ind; [discriminate|]. rewrite filter_app. simpl. destruct (f a) eqn:Ea.
  - rewrite last_opt_snoc. intros H; inversion H; subst. split; auto. exists l, []. split; auto. intros u [].
  - rewrite app_nil_r. intros H. destruct (IH H) as (H1 & l1 & l2 & -> & H3). split; auto.
    exists l1, (l2 ++ [a]). rewrite <- app_assoc. split; auto.
    intros u Hu. apply in_app_iff in Hu as [Hu|[<-|[]]]; auto.
Qed.

Lemma remove_rev (x : nat) (l : list nat) :
  remove Nat.eq_dec x (rev l) = rev (remove Nat.eq_dec x l).
Proof.
  induction l as [|a l IH]; simpl; auto.
  rewrite remove_app, IH. simpl.
  destruct (Nat.eq_dec x a); simpl; auto. rewrite app_nil_r; auto.
Qed.

Lemma remove_filter (f : nat -> bool) (x : nat) (l : list nat) :
  remove Nat.eq_dec x (filter f l) = filter f (remove Nat.eq_dec x l).
Proof.
  induction l as [|a l IH]; simpl; auto.
  destruct (f a) eqn:E; simpl; destruct (Nat.eq_dec x a); simpl; rewrite ?E, ?IH; auto.
Qed.

Lemma incl_remove (d : bid) (B : list bid) : incl (remove Nat.eq_dec d B) B.
Proof. intros x Hx. apply in_remove in Hx. tauto. Qed.

Lemma zlen_remove (x : bid) (l : list bid) :
  NoDup l -> In x l -> @zlen bid (remove Nat.eq_dec x l) = zlen l - 1.
Proof.
  unfold zlen, bid in *. induction l as [|a l IH]; cbn [remove In length]; intros ND HI; [tauto|].
  inversion ND; subst. destruct (Nat.eq_dec x a) as [->|NE].
  - rewrite notin_remove by auto. lia.
  - destruct HI; [congruence|]. cbn [length]. specialize (IH ltac:(auto) ltac:(auto)). lia.
Qed.

Lemma zlen_app1 {A} (l : list A) (x : A) : zlen (l ++ [x]) = zlen l + 1.
Proof. apply zlen_app'. Qed.

Lemma filter_all_false {A} (f : A -> bool) (l : list A) :
  filter (fun x => negb (f x)) l = [] -> filter f l = l.
Proof.
  induction l as [|a l IH]; simpl; auto.
  destruct (f a); simpl; intros H; [f_equal; auto | discriminate].
Qed.

Lemma nodup_app_intro {A} (l1 l2 : list A) :
  NoDup l1 -> NoDup l2 -> (forall x, In x l1 -> ~ In x l2) -> NoDup (l1 ++ l2).
Proof.
  induction l1 as [|a l1 IH]; simpl; intros N1 N2 D; auto.
  inversion N1; subst. constructor.
  - rewrite in_app_iff. intros [H|H]; auto. apply (D a); auto.
  - apply IH; auto.
Qed.

Definition base_of (s : store) (b : bid) : Z := bbase (s b).
Definition used_of (s : store) (b : bid) : bool := bused (s b).
Definition tab_of (s : store) (B : list bid) : table := map (fun b => (base_of s b, b)) B.
Definition lst_of (s : store) (B : list bid) : list bid :=
  rev (filter (used_of s) B) ++ filter (fun b => negb (used_of s b)) B.
Definition distinct (s : store) (B : list bid) : Prop := NoDup (map (base_of s) B).

Lemma blocks_tab_of s B : blocks (tab_of s B) = B.
Proof. unfold blocks, tab_of. rewrite map_map. apply map_id. Qed.

Lemma keys_tab_of s B : map fst (tab_of s B) = map (base_of s) B.
Proof. apply map_map. Qed.

Lemma tlen_tab_of s B : tlen (tab_of s B) = zlen B.
Proof. unfold tlen, zlen, tab_of. rewrite map_length. reflexivity. Qed.

Lemma tget_tab_of s k B : tget k (tab_of s B) = sfind s k B.
Proof.
  unfold tget, sfind. induction B as [|b B IH]; simpl; auto.
  unfold base_of at 1. destruct (bbase (s b) =? k); auto.
Qed.

Lemma sfind_none s k B : sfind s k B = None -> ~ In k (map (base_of s) B).
Proof.
  intros H I. apply in_map_iff in I as (b & E & I).
  apply (find_none _ _ H) in I. apply Z.eqb_neq in I. auto.
Qed.

Lemma sfind_some s k B b : sfind s k B = Some b -> In b B /\ base_of s b = k.
Proof. intros H. apply find_some in H as [H1 H2]. apply Z.eqb_eq in H2. auto. Qed.

Lemma sfind_of_in s k B : In k (map (base_of s) B) -> exists d, sfind s k B = Some d.
Proof. intros H. destruct (sfind s k B) eqn:E; eauto. destruct (sfind_none _ _ _ E H). Qed.

Lemma distinct_inj s B a b : distinct s B -> In a B -> In b B -> base_of s a = base_of s b -> a = b.
Proof.
  unfold distinct. induction B as [|c B IH]; simpl; [tauto|]. intros ND Ha Hb E.
  inversion ND as [|? ? Hn ND']; subst.
  destruct Ha as [->|Ha], Hb as [->|Hb]; auto; destruct Hn; [rewrite E | rewrite <- E]; apply in_map; auto.
Qed.

Lemma sfind_in s B b : distinct s B -> In b B -> sfind s (base_of s b) B = Some b.
Proof.
  intros ND HI. destruct (sfind_of_in s (base_of s b) B (in_map _ _ _ HI)) as [d F]. rewrite F.
  destruct (sfind_some _ _ _ _ F). f_equal. eauto using distinct_inj.
Qed.

Lemma distinct_nodup s B : distinct s B -> NoDup B.
Proof. apply NoDup_map_inv. Qed.

Lemma bases_remove_incl s d B :
  incl (map (base_of s) (remove Nat.eq_dec d B)) (map (base_of s) B).
Proof. apply incl_map, incl_remove. Qed.

Lemma distinct_remove s d B : distinct s B -> distinct s (remove Nat.eq_dec d B).
Proof.
  unfold distinct. induction B as [|b B IH]; simpl; intros ND; auto.
  inversion ND as [|? ? Hn ND']; subst.
  destruct (Nat.eq_dec d b); auto. simpl. constructor; auto.
  intros H. apply Hn, (bases_remove_incl s d B), H.
Qed.

Lemma distinct_snoc s b B :
  distinct s B -> ~ In (base_of s b) (map (base_of s) B) -> distinct s (B ++ [b]).
Proof.
  unfold distinct. intros ND Hn. rewrite map_app.
  eapply Permutation_NoDup; [apply Permutation_cons_append|]. constructor; auto.
Qed.

Lemma tdel_tab_of s k B :
  tdel k (tab_of s B) = tab_of s (filter (fun b => negb (base_of s b =? k)) B).
Proof.
  unfold tdel. induction B as [|b B IH]; simpl; auto.
  destruct (base_of s b =? k); simpl; rewrite IH; auto.
Qed.

Lemma filter_base_notin s k B :
  ~ In k (map (base_of s) B) -> filter (fun b => negb (base_of s b =? k)) B = B.
Proof.
  induction B as [|b B IH]; simpl; intros H; auto.
  destruct (Z.eqb_spec (base_of s b) k); [tauto|]. simpl. f_equal. tauto.
Qed.

Lemma tdel_block s d B :
  distinct s B -> In d B -> tdel (base_of s d) (tab_of s B) = tab_of s (remove Nat.eq_dec d B).
Proof.
  intros ND HI. rewrite tdel_tab_of, <- remove_alt. f_equal. apply filter_ext_in. intros b Hb.
  destruct (Nat.eq_dec d b) as [->|Hne]; [rewrite Z.eqb_refl; reflexivity|].
  destruct (Z.eqb_spec (base_of s b) (base_of s d)); [|reflexivity]. destruct Hne. eauto using distinct_inj.
Qed.

Lemma tdel_key s k B d :
  distinct s B -> sfind s k B = Some d -> tdel k (tab_of s B) = tab_of s (remove Nat.eq_dec d B).
Proof. intros ND F. destruct (sfind_some _ _ _ _ F) as [Hin <-]. apply tdel_block; auto. Qed.

Lemma tset_tab_of s b B :
  ~ In (base_of s b) (map (base_of s) B) ->
  tset (base_of s b) b (tab_of s B) = tab_of s (B ++ [b]).
Proof.
  intros H. unfold tset. rewrite tdel_tab_of, filter_base_notin by auto.
  unfold tab_of. rewrite map_app. reflexivity.
Qed.

Lemma tget_keys k t : In k (map fst t) <-> tget k t <> None.
Proof.
  unfold tget. destruct (find (fun p => fst p =? k) t) as [p|] eqn:F; split; try congruence.
  - intros _. apply find_some in F as [F1 F2]. apply Z.eqb_eq in F2. subst k. apply in_map, F1.
  - intros I. apply in_map_iff in I as (p & E & I). apply (find_none _ _ F) in I.
    apply Z.eqb_neq in I. congruence.
Qed.

Lemma zlen_blocks (t : table) : zlen (blocks t) = tlen t.
Proof. unfold tlen, blocks, zlen. rewrite map_length. reflexivity. Qed.

Lemma tlen_keys (t : table) : tlen t = zlen (map fst t).
Proof. unfold tlen, zlen. rewrite map_length. reflexivity. Qed.

Lemma last_lst_of s B : last_opt (lst_of s B) = svictim s B.
Proof.
  unfold lst_of, svictim. change (fun b => negb (bused (s b))) with (fun b => negb (used_of s b)).
  destruct (last_opt_case (filter (fun b => negb (used_of s b)) B)) as [[E ->]|(l & x & E & ->)]; rewrite E.
  - rewrite app_nil_r, (filter_all_false _ _ E). destruct B; [reflexivity | apply last_opt_snoc].
  - rewrite app_assoc. apply last_opt_snoc.
Qed.

Lemma remove_lst_of s d B :
  remove Nat.eq_dec d (lst_of s B) = lst_of s (remove Nat.eq_dec d B).
Proof. unfold lst_of. rewrite remove_app, remove_rev, !remove_filter. reflexivity. Qed.

Lemma lst_of_snoc s B b :
  lst_of s (B ++ [b]) = if used_of s b then b :: lst_of s B else lst_of s B ++ [b].
Proof.
  unfold lst_of. rewrite !filter_app. simpl. destruct (used_of s b); simpl.
  - rewrite rev_app_distr, app_nil_r. reflexivity.
  - rewrite app_nil_r, app_assoc. reflexivity.
Qed.

Lemma in_lst_of s B b : In b (lst_of s B) <-> In b B.
Proof.
  unfold lst_of. rewrite in_app_iff, <- in_rev, !filter_In.
  destruct (used_of s b); simpl; intuition congruence.
Qed.

Definition lf_ok (s : store) (c : lf) (B : list bid) : Prop :=
  tab c = tab_of s B /\ lst c = lst_of s B /\ distinct s B.

Lemma lf_ok_blocks s c B : lf_ok s c B -> blocks (tab c) = B.
Proof. intros (Ht & _). rewrite Ht. apply blocks_tab_of. Qed.

Lemma lf_remove_ok s c B d :
  lf_ok s c B -> In d B -> lf_ok s (lf_remove s c d) (remove Nat.eq_dec d B).
Proof.
  intros (Ht & Hl & ND) Hd. unfold lf_ok, lf_remove; simpl. rewrite Ht, Hl.
  split; [apply (tdel_block s d B); auto|]. split; [apply remove_lst_of | apply distinct_remove, ND].
Qed.

Lemma lf_insert_ok s c B b :
  lf_ok s c B -> ~ In (base_of s b) (map (base_of s) B) ->
  lf_ok s (lf_insert s c b) (B ++ [b]).
Proof.
  intros (Ht & Hl & ND) Hn. unfold lf_ok, lf_insert; simpl. rewrite Ht, Hl.
  split; [apply (tset_tab_of s b B); auto|]. split; [symmetry; apply lst_of_snoc | apply distinct_snoc; auto].
Qed.

Lemma svictim_spec s B v :
  svictim s B = Some v ->
  In v B
  /\ ((forall u, In u B -> bused (s u) = true) -> hd_error B = Some v)
  /\ ((exists u, In u B /\ bused (s u) = false) ->
      bused (s v) = false /\
      exists l1 l2, B = l1 ++ v :: l2 /\ forall u, In u l2 -> bused (s u) = true).
Proof.
  unfold svictim.
  destruct (last_opt_case (filter (fun b => negb (bused (s b))) B)) as [[E ->]|(? & w & _ & E)].
  - destruct B as [|a B]; [discriminate|]. intros H; inversion H; subst. split; [left; reflexivity|]. split; [reflexivity|].
    intros (u & Hu1 & Hu2).
    assert (I : In u (filter (fun b => negb (bused (s b))) (v :: B))) by (apply filter_In; rewrite Hu2; auto).
    rewrite E in I. destruct I.
  - rewrite E. intros H; inversion H; subst. destruct (last_filter_split _ _ _ E) as (Hv & l1 & l2 & -> & Hl2).
    apply negb_true_iff in Hv. split; [apply in_elt|]. split.
    + intros Hall. rewrite Hall in Hv by apply in_elt. discriminate.
    + intros _. split; auto. exists l1, l2. split; auto. intros u Hu. apply negb_false_iff, Hl2, Hu.
Qed.

Lemma svictim_in s B v : svictim s B = Some v -> In v B.
Proof. intros H. apply (svictim_spec _ _ _ H). Qed.

Lemma svictim_cons s b B : exists v, svictim s (b :: B) = Some v.
Proof. unfold svictim. destruct (last_opt _); eauto. Qed.

Lemma lf_drop_ok s f : forall c B,
  lf_ok s c B ->
  exists c', lf_drop s f c = Ok c' /\ lf_ok s c' (sdrop s f B) /\ cap c' = cap c.
Proof.
  induction f as [|f IH]; intros c B OK; simpl; [eauto|].
  pose proof OK as (Ht & Hl & _). rewrite Ht, tlen_tab_of, Hl, last_lst_of.
  destruct B as [|b B]; [simpl; eauto|]. change (zlen (b :: B) >? 0) with true. cbv iota.
  destruct (svictim_cons s b B) as [v Hv]. rewrite Hv.
  destruct (IH (lf_remove s c v) (remove Nat.eq_dec v (b :: B))) as (c' & H1 & H2 & H3); eauto.
  apply lf_remove_ok; auto. eapply svictim_in; eauto.
Qed.

Lemma sdrop_incl s f : forall B, incl (sdrop s f B) B.
Proof.
  induction f as [|f IH]; intros B; simpl; [apply incl_refl|].
  destruct (svictim s B); [|apply incl_refl].
  eapply incl_tran; [apply IH | apply incl_remove].
Qed.

Lemma sdrop_length s f : forall B, distinct s B ->
  zlen (sdrop s f B) = Z.max 0 (zlen B - Z.of_nat f).
Proof.
  induction f as [|f IH]; intros B ND; cbn [sdrop]; pose proof (zlen_nonneg B); [lia|].
  destruct B as [|b B]; [reflexivity|]. destruct (svictim_cons s b B) as [v Hv]. rewrite Hv.
  rewrite IH, zlen_remove by eauto using distinct_remove, distinct_nodup, svictim_in. lia.
Qed.

Lemma lf_sim fifo s c B o :
  lf_ok s c B ->
  exists B', lf_ok s (fst (lf_step fifo false s c o)) B' /\
    spec_step fifo s (mks B (cap c)) o =
    (mks B' (cap (fst (lf_step fifo false s c o))), snd (lf_step fifo false s c o)).
Proof.
  intros OK. pose proof OK as (Ht & Hl & ND). destruct o; simpl; eauto.
  - rewrite Ht, tget_tab_of, tlen_tab_of.
    destruct (sfind s (bbase (s b)) B) as [b'|] eqn:F; [destruct (fifo && Nat.eqb b' b); eauto|].
    apply sfind_none in F.
    destruct (zlen B =? cap c); [|exists (B ++ [b]); split; [apply lf_insert_ok|]; auto].
    destruct (negb (bused (s b))); [eauto|].
    rewrite Hl, last_lst_of. destruct (svictim s B) as [d|] eqn:V; [|eauto].
    exists (remove Nat.eq_dec d B ++ [b]). split; auto.
    apply lf_insert_ok; [apply lf_remove_ok; eauto using svictim_in|].
    intros I. apply F, (bases_remove_incl s d B), I.
  - rewrite Ht, tget_tab_of. destruct (sfind s k B) as [b|] eqn:F; [|eauto].
    destruct (fifo && bused (s b)); [eauto|]. exists (remove Nat.eq_dec b B). split; auto.
    apply lf_remove_ok; auto. apply (sfind_some _ _ _ _ F).
  - rewrite Ht, tget_tab_of. destruct (sfind s k B); eauto.
  - rewrite Ht, tlen_tab_of. eauto.
  - (* Resize: [sdrop] with no fuel when nothing has to go *)
    rewrite Ht, tlen_tab_of. unfold lf_dropZ. simpl.
    destruct (lf_drop_ok s (Z.to_nat (zlen B - n)) c B OK) as (c' & E & OK' & _).
    destruct (Z.ltb_spec n (zlen B)); [rewrite E; eauto|].
    replace (Z.to_nat (zlen B - n)) with O by lia. eauto.
  - unfold lf_dropZ. simpl.
    destruct (lf_drop_ok s (Z.to_nat n) c B OK) as (c' & -> & OK' & <-). eauto.
Qed.

(** the cache holds no block the client may re-base; get_peek_base rests on this *)
Definition own_ok (fifo : bool) (cl : client) (B : list bid) : Prop :=
  forall b, In b B -> if fifo then cl b <> Mine else cl b = Given.

Definition cap_own (fifo : bool) (cl : client) (cp : Z) (B : list bid) : Prop :=
  1 <= cp /\ zlen B <= cp /\ own_ok fifo cl B.

Lemma cset_same cl b v : cset cl b v b = v.
Proof. unfold cset. rewrite Nat.eqb_refl. reflexivity. Qed.
Lemma cset_other cl b v x : x <> b -> cset cl b v x = cl x.
Proof. unfold cset. intros H. destruct (Nat.eqb_spec x b); congruence. Qed.

Lemma own_ok_incl fifo cl B B' : incl B' B -> own_ok fifo cl B -> own_ok fifo cl B'.
Proof. intros I H b Hb. apply H, I, Hb. Qed.

Lemma own_ok_cset_out fifo cl B b v : ~ In b B -> own_ok fifo cl B -> own_ok fifo (cset cl b v) B.
Proof. intros Hn H x Hx. rewrite cset_other; [apply H; auto | intros ->; auto]. Qed.

Lemma own_ok_remove fifo cl B d v :
  own_ok fifo cl B -> own_ok fifo (cset cl d v) (remove Nat.eq_dec d B).
Proof. intros H x Hx. apply in_remove in Hx as [Hx Hne]. rewrite cset_other; [apply H|]; auto. Qed.

Lemma own_ok_snoc fifo cl B b : own_ok fifo cl B -> own_ok fifo (cset cl b Given) (B ++ [b]).
Proof.
  intros H x Hx. destruct (Nat.eq_dec x b) as [->|Hne].
  - rewrite cset_same. destruct fifo; congruence.
  - rewrite cset_other by auto. apply H. apply in_app_iff in Hx as [Hx|[->|[]]]; tauto.
Qed.

Lemma own_ok_evict fifo cl B b v :
  v <> b -> own_ok fifo cl B ->
  own_ok fifo (cset (cset cl b Given) v Mine) (remove Nat.eq_dec v B ++ [b]).
Proof.
  intros Hne H. replace (remove Nat.eq_dec v B ++ [b]) with (remove Nat.eq_dec v (B ++ [b])).
  - apply own_ok_remove, own_ok_snoc, H.
  - rewrite remove_app. simpl. destruct (Nat.eq_dec v b) as [E|_]; [destruct (Hne E) | reflexivity].
Qed.

Lemma own_ok_lend cl B b :
  own_ok true cl B -> own_ok true (match cl b with Given => cset cl b Borrowed | _ => cl end) B.
Proof.
  intros H. destruct (cl b) eqn:E; auto. intros x Hx.
  destruct (Nat.eq_dec x b) as [->|Hne]; [rewrite cset_same; discriminate | rewrite cset_other; [apply H|]; auto].
Qed.

(** The client overwrites only blocks it owns, and a held block is not owned:
    Rebase changes nothing the invariant looks at. *)
Lemma rebase_held fifo cl B s b v :
  own_ok fifo cl B -> cl b = Mine ->
  let s' := sset s b v in
  tab_of s' B = tab_of s B /\ lst_of s' B = lst_of s B /\ (distinct s B -> distinct s' B).
Proof.
  intros OWN M s'.
  assert (EXT : forall y, In y B -> s' y = s y).
  { intros y Hy. unfold s', sset. destruct (Nat.eqb_spec y b) as [->|]; auto.
    specialize (OWN b Hy). destruct fifo; congruence. }
  assert (T : tab_of s' B = tab_of s B) by (apply map_ext_in; intros y Hy; unfold base_of; rewrite EXT; auto).
  split; [exact T|]. split.
  - unfold lst_of, used_of. f_equal; [f_equal|]; apply filter_ext_in; intros y Hy; rewrite EXT; auto.
  - unfold distinct. rewrite <- !keys_tab_of, T. auto.
Qed.

Lemma status_given_eqb st : status_eqb st Given = false -> st <> Given.
Proof. destruct st; simpl; congruence. Qed.
Lemma status_mine_eqb st : status_eqb st Mine = true -> st = Mine.
Proof. destruct st; simpl; congruence. Qed.

Lemma spec_step_cap_own fifo s B cp cl o :
  distinct s B -> cap_own fifo cl cp B -> allowedb cl o = true ->
  let '(a, x) := spec_step fifo s (mks B cp) o in
  cap_own fifo (cl_update (negb fifo) cl o x) (scap a) (ent a).
Proof.
  intros ND (C1 & C2 & OWN) AL. pose proof (distinct_nodup _ _ ND) as NDB.
  destruct o; simpl in *; try (repeat split; auto; fail).
  - (* Put: a block that is not held, unless FIFO finds it indexed *)
    apply negb_true_iff, status_given_eqb in AL.
    destruct (sfind s (bbase (s b)) B) as [b'|] eqn:F.
    + assert (Hb : fifo && Nat.eqb b' b = false -> ~ In b B).
      { intros E Hin. destruct fifo; [|apply AL, (OWN b Hin)].
        change (bbase (s b)) with (base_of s b) in F. rewrite (sfind_in s B b ND Hin) in F.
        inversion F; subst. rewrite Nat.eqb_refl in E. discriminate. }
      destruct (fifo && Nat.eqb b' b); simpl; repeat split; auto using own_ok_cset_out.
    + assert (Hb : ~ In b B) by (intros Hin; apply (sfind_none _ _ _ F), (in_map (base_of s)), Hin).
      destruct (Z.eqb_spec (zlen B) cp) as [EC|EC].
      * destruct (negb (bused (s b))); simpl; [repeat split; auto using own_ok_cset_out|].
        destruct (svictim s B) as [v|] eqn:V; simpl; [|repeat split; auto].
        pose proof (svictim_in _ _ _ V) as Hv. repeat split; auto.
        { rewrite zlen_app1, zlen_remove; auto. lia. }
        { apply own_ok_evict; auto. intros ->. auto. }
      * simpl. repeat split; auto using own_ok_snoc. rewrite zlen_app1. lia.
  - destruct (sfind s k B) as [b|] eqn:F; simpl; [|repeat split; auto].
    pose proof (sfind_some _ _ _ _ F) as [Hin _].
    assert (zlen (remove Nat.eq_dec b B) <= cp) by (rewrite zlen_remove; auto; lia).
    destruct fifo; simpl.
    + destruct (bused (s b)); simpl; repeat split; auto using own_ok_lend.
      eapply own_ok_incl; [apply incl_remove | apply own_ok_lend, OWN].
    + repeat split; auto using own_ok_remove.
  - destruct (sfind s k B); simpl; repeat split; auto.
  - apply Z.leb_le in AL. pose proof (zlen_nonneg B). repeat split; auto.
    + rewrite sdrop_length by auto. lia.
    + eapply own_ok_incl; [apply sdrop_incl | auto].
  - pose proof (zlen_nonneg B). repeat split; auto.
    + rewrite sdrop_length by auto. lia.
    + eapply own_ok_incl; [apply sdrop_incl | auto].
Qed.

(** * Free(n, c), for any cache whose Cap and Len answer [capf] and [lenf]
    and whose Drop returns: it answers [n <= cap], keeps the capacity, and is
    a Drop of what is missing when fewer than [n] slots are free. *)
Section FreeVia.
  Variables (C O : Type) (re : O -> op -> O) (cstep : store -> C -> O -> C * out).
  Variables capf lenf : C -> Z.
  Hypothesis cap_out : forall s c o, snd (cstep s c (re o Cap)) = ONum (capf c).
  Hypothesis len_out : forall s c o, snd (cstep s c (re o Len)) = ONum (lenf c).

  Lemma free_via_spec s c o n :
    0 <= lenf c ->
    (forall d, exists c', cstep s c (re o (Drop d)) = (c', OUnit) /\ capf c' = capf c
                          /\ lenf c' = Z.max 0 (lenf c - Z.max 0 d)) ->
    exists c', free_via C O re cstep s c o n = (c', OBool (n <=? capf c))
      /\ c' = (if n <=? capf c - lenf c then c
               else fst (cstep s c (re o (Drop (n - (capf c - lenf c))))))
      /\ capf c' = capf c /\ lenf c' = Z.max 0 (Z.min (lenf c) (capf c - n)).
  Proof.
    intros LC DROP. unfold free_via. rewrite cap_out, len_out.
    destruct (Z.leb_spec n (capf c - lenf c)) as [E|E].
    - exists c. replace (n <=? capf c) with true by (symmetry; apply Z.leb_le; lia).
      repeat split; auto. lia.
    - destruct (DROP (n - (capf c - lenf c))) as (c' & -> & HC & HL).
      rewrite cap_out, len_out, HC, HL. exists c'. repeat split; auto; [|lia].
      do 2 f_equal. destruct (Z.leb_spec n (capf c)); [apply Z.leb_le | apply Z.leb_gt]; lia.
  Qed.
End FreeVia.

Definition lf_inv (fifo : bool) (w : store * lf) (cl : client) : Prop :=
  exists B, lf_ok (fst w) (snd w) B /\ cap_own fifo cl (cap (snd w)) B.

Lemma lf_cstep_sim fifo s c cl o :
  lf_inv fifo (s, c) cl -> allowedb cl o = true ->
  let '(c', x) := lf_step fifo false s c o in
  lf_inv fifo (s, c') (cl_update (negb fifo) cl o x) /\ spec_step fifo s (lf_abs c) o = (lf_abs c', x).
Proof.
  intros (B & OK & CO) AL. destruct (lf_sim fifo s c B o OK) as (B' & OK' & SP).
  pose proof (spec_step_cap_own fifo s B (cap c) cl o (proj2 (proj2 OK)) CO AL) as CO'.
  rewrite SP in CO'. destruct (lf_step fifo false s c o) as [c' x]. simpl in *.
  split; [exists B'; auto|]. unfold lf_abs.
  rewrite (lf_ok_blocks _ _ _ OK), (lf_ok_blocks _ _ _ OK'). exact SP.
Qed.

Lemma lf_drop_step fifo s c B d :
  lf_ok s c B ->
  exists c', lf_step fifo false s c (Drop d) = (c', OUnit) /\ cap c' = cap c
    /\ lf_ok s c' (sdrop s (Z.to_nat d) B) /\ tlen (tab c') = Z.max 0 (tlen (tab c) - Z.max 0 d).
Proof.
  intros OK. destruct (lf_drop_ok s (Z.to_nat d) c B OK) as (c' & E & OK' & HC).
  exists c'. simpl. unfold lf_dropZ. simpl. rewrite E. repeat split; auto; try apply OK'.
  rewrite (proj1 OK), (proj1 OK'), !tlen_tab_of, sdrop_length by apply OK. lia.
Qed.

Lemma lf_resize_step fifo s c B m :
  lf_ok s c B ->
  exists c', lf_step fifo false s c (Resize m) = (c', OUnit) /\ cap c' = m
    /\ tlen (tab c') = Z.min (tlen (tab c)) (Z.max 0 m).
Proof.
  intros OK. destruct (lf_sim fifo s c B (Resize m) OK) as (B' & OK' & SP).
  destruct (lf_step fifo false s c (Resize m)) as [c' x]. simpl in *. inversion SP; subst.
  exists c'. repeat split; auto.
  rewrite (proj1 OK), (proj1 OK'), !tlen_tab_of, sdrop_length by apply OK.
  pose proof (zlen_nonneg B). lia.
Qed.

Lemma lf_free_step fifo s c B m :
  lf_ok s c B ->
  exists c', free_via lf op (fun _ o => o) (lf_step fifo false) s c (Free m) m = (c', OBool (m <=? cap c))
    /\ c' = (if m <=? cap c - tlen (tab c) then c
             else fst (lf_step fifo false s c (Drop (m - (cap c - tlen (tab c))))))
    /\ lf_ok s c' (sdrop s (Z.to_nat (m - (cap c - tlen (tab c)))) B)
    /\ cap c' = cap c /\ tlen (tab c') = Z.max 0 (Z.min (tlen (tab c)) (cap c - m)).
Proof.
  intros OK.
  destruct (free_via_spec lf op (fun _ o => o) (lf_step fifo false) cap (fun c => tlen (tab c))
              ltac:(reflexivity) ltac:(reflexivity) s c (Free m) m) as (c' & E & EC & H).
  - apply (zlen_nonneg (tab c)).
  - intros d. destruct (lf_drop_step fifo s c B d OK) as (c' & H); exists c'; tauto.
  - exists c'. split; [exact E|]. split; [exact EC|]. split; [|exact H]. subst c'.
    destruct (Z.leb_spec m (cap c - tlen (tab c))).
    + replace (Z.to_nat (m - (cap c - tlen (tab c)))) with O by lia. exact OK.
    + destruct (lf_drop_step fifo s c B (m - (cap c - tlen (tab c))) OK) as (c' & -> & _ & OK' & _). exact OK'.
Qed.

Lemma spec_free_step fifo s B cp m :
  distinct s B ->
  exists a, free_via sstate op (fun _ o => o) (spec_step fifo) s (mks B cp) (Free m) m = (a, OBool (m <=? cp))
    /\ a = (if m <=? cp - zlen B then mks B cp
            else fst (spec_step fifo s (mks B cp) (Drop (m - (cp - zlen B))))).
Proof.
  intros ND.
  destruct (free_via_spec sstate op (fun _ o => o) (spec_step fifo) scap (fun a => zlen (ent a))
              ltac:(reflexivity) ltac:(reflexivity) s (mks B cp) (Free m) m) as (a & H1 & H2 & _); eauto.
  - apply (zlen_nonneg B).
  - intros d. exists (mks (sdrop s (Z.to_nat d) B) cp). simpl. repeat split.
    rewrite sdrop_length by auto. lia.
Qed.

Lemma lf_step_cl_free fifo cl n x y : cl_update (negb fifo) cl (Free n) x = cl_update (negb fifo) cl (Drop n) y.
Proof. reflexivity. Qed.

Definition id_op (o : op) : op := o.
Definition spec_wstep (fifo : bool) := wstep sstate op id_op (fun _ o => o) (spec_step fifo).

(** In every state that satisfies the invariant, reachable or not, the code
    takes the step of the contract machine, and the invariant holds again. *)
Lemma lf_wstep_sim fifo s c cl o :
  lf_inv fifo (s, c) cl -> allowedb cl o = true ->
  let '(w', x) := lf_wstep fifo false (s, c) o in
  lf_inv fifo w' (cl_update (negb fifo) cl o x)
  /\ spec_wstep fifo (s, lf_abs c) o = ((fst w', lf_abs (snd w')), x).
Proof.
  intros INV AL.
  destruct o; unfold lf_wstep, spec_wstep, wstep, id_op; cbv beta iota;
    try (generalize (lf_cstep_sim fifo s c cl _ INV AL);
         destruct (lf_step fifo false s c _) as [c' x]; intros [H1 ->]; auto; fail).
  - (* Free: the same composite of Cap, Len, Drop on both sides *)
    destruct INV as (B & OK & CO). simpl in OK, CO.
    destruct (lf_free_step fifo s c B n OK) as (c' & -> & E & _).
    destruct (spec_free_step fifo s B (cap c) n (proj2 (proj2 OK))) as (a & Ea & E').
    unfold lf_abs at 1. rewrite (lf_ok_blocks _ _ _ OK), Ea. simpl.
    rewrite <- (tlen_tab_of s B), <- (proj1 OK) in E'.
    destruct (n <=? cap c - tlen (tab c)).
    + subst. split; [exists B; auto|]. unfold lf_abs. rewrite (lf_ok_blocks _ _ _ OK). reflexivity.
    + generalize (lf_cstep_sim fifo s c cl (Drop (n - (cap c - tlen (tab c)))) (ex_intro _ B (conj OK CO)) eq_refl).
      unfold lf_abs at 1. rewrite (lf_ok_blocks _ _ _ OK).
      destruct (lf_step fifo false s c _) as [c1 x1]. intros [H1 H2]. rewrite H2 in E'. subst. auto.
  - (* Rebase: of a block the client owns, so not a held one *)
    simpl in AL. apply status_mine_eqb in AL. destruct INV as (B & (Ht & Hl & ND) & C1 & C2 & OWN).
    destruct (rebase_held fifo cl B s b (mkblk k u) OWN AL) as (E1 & E2 & E3).
    simpl in *. split; [|reflexivity]. exists B. simpl. repeat split; auto; congruence.
Qed.

Definition lf_reach (fifo : bool) (n : Z) :=
  reach lf op id_op (lf_wstep fifo false) (negb fifo) (lf_empty n).

Lemma lf_reach_inv fifo n w cl : 1 <= n -> lf_reach fifo n w cl -> lf_inv fifo w cl.
Proof.
  intros Hn R. induction R as [|w cl o w' x R IH AL ST].
  - exists []. split; [repeat split; constructor|]. repeat split; auto; [unfold zlen; simpl; lia | intros b []].
  - destruct w as [s c]. generalize (lf_wstep_sim fifo s c cl o IH AL). rewrite ST. tauto.
Qed.

Lemma table_answers s B t k :
  t = tab_of s B ->
  let g := OGet (tget k t) in
  let p := OPeek (option_map (bnext s) (tget k t)) in
  (forall b, g = OGet (Some b) -> bbase (s b) = k)
  /\ (forall nx, p = OPeek (Some nx) -> exists b, bbase (s b) = k /\ nx = k + bsize b)
  /\ p = match g with OGet (Some b) => OPeek (Some (bnext s b)) | _ => OPeek None end
  /\ (In k (map fst t) <-> p <> OPeek None).
Proof.
  intros ->. cbv zeta. rewrite tget_keys. destruct (tget k (tab_of s B)) as [d|] eqn:F; simpl.
  - rewrite tget_tab_of in F. destruct (sfind_some _ _ _ _ F) as [_ Hd]. unfold base_of in Hd. repeat split; try congruence.
    intros nx E. exists d. unfold bnext in E. inversion E. subst. auto.
  - repeat split; congruence.
Qed.

Lemma lf_get_out fifo s c k : snd (lf_wstep fifo false (s, c) (Get k)) = OGet (tget k (tab c)).
Proof.
  unfold lf_wstep, wstep. simpl. destruct (tget k (tab c)); [destruct (fifo && _)|]; reflexivity.
Qed.

Lemma lf_peek_out fifo s c k :
  snd (lf_wstep fifo false (s, c) (Peek k)) = OPeek (option_map (bnext s) (tget k (tab c))).
Proof. unfold lf_wstep, wstep. simpl. destruct (tget k (tab c)); reflexivity. Qed.

Lemma lf_policy fifo s c cl b v s' c' :
  lf_inv fifo (s, c) cl -> allowedb cl (Put b) = true ->
  lf_wstep fifo false (s, c) (Put b) = ((s', c'), OPut (Some v) true) ->
  svictim s (blocks (tab c)) = Some v /\ tlen (tab c) = cap c /\ bused (s b) = true
  /\ blocks (tab c') = remove Nat.eq_dec v (blocks (tab c)) ++ [b].
Proof.
  intros INV AL ST. generalize (lf_wstep_sim fifo s c cl (Put b) INV AL). rewrite ST.
  intros [_ SP]. unfold spec_wstep, wstep, id_op in SP. simpl in SP.
  rewrite zlen_blocks in SP.
  destruct (sfind s (bbase (s b)) (blocks (tab c))); [destruct (fifo && _); inversion SP|].
  destruct (Z.eqb_spec (tlen (tab c)) (cap c)); [|inversion SP].
  destruct (bused (s b)); simpl in SP; [|inversion SP].
  destruct (svictim s (blocks (tab c))); inversion SP; subst. auto.
Qed.

Lemma zmem_in k l : zmem k l = true <-> In k l.
Proof.
  unfold zmem. rewrite existsb_exists. split.
  - intros [x [H1 H2]]. apply Z.eqb_eq in H2. subst; auto.
  - intros H. exists k. split; auto. apply Z.eqb_refl.
Qed.

Lemma znodup_nodup l : znodup l = nodup Z.eq_dec l.
Proof.
  induction l as [|a l IH]; simpl; [reflexivity|]. rewrite IH.
  destruct (in_dec Z.eq_dec a l) as [I|N], (zmem a l) eqn:E; auto.
  - apply zmem_in in I. congruence.
  - apply zmem_in in E. tauto.
Qed.

Lemma iter_order_in ch t k : In k (iter_order ch t) <-> In k (map fst t).
Proof.
  unfold iter_order. rewrite in_app_iff, !filter_In, znodup_nodup, nodup_In, zmem_in. split.
  - intros [[_ H]|[H _]]; auto.
  - intros H. destruct (zmem k ch) eqn:E.
    + left. apply zmem_in in E. auto.
    + right. split; auto.
Qed.

Lemma iter_order_nodup ch t : NoDup (map fst t) -> NoDup (iter_order ch t).
Proof.
  intros ND. unfold iter_order. apply nodup_app_intro.
  - rewrite znodup_nodup. apply NoDup_filter, NoDup_nodup.
  - apply NoDup_filter; auto.
  - intros k H1 H2. apply filter_In in H1 as [H1 _]. apply filter_In in H2 as [_ H2].
    rewrite znodup_nodup in H1. apply nodup_In, zmem_in in H1. rewrite H1 in H2. discriminate.
Qed.

Lemma iter_order_bases s B ch :
  distinct s B ->
  NoDup (iter_order ch (tab_of s B))
  /\ forall k, In k (iter_order ch (tab_of s B)) <-> In k (map (base_of s) B).
Proof.
  intros ND. split; [apply iter_order_nodup | intros k; rewrite iter_order_in]; rewrite keys_tab_of; tauto.
Qed.

Lemma in_map_remove s d B k :
  In k (map (base_of s) B) -> k <> base_of s d -> In k (map (base_of s) (remove Nat.eq_dec d B)).
Proof.
  intros H Hne. apply in_map_iff in H as (y & Hy & Hi).
  apply in_map_iff. exists y. split; auto. apply in_in_remove; auto. intros ->. congruence.
Qed.

(** second loop: deletes the first [m] keys of a duplicate-free order *)
Lemma rnd_drop2_ok s : forall order m B,
  distinct s B -> NoDup order -> incl order (map (base_of s) B) ->
  exists B', rnd_drop2 order m (tab_of s B) = tab_of s B' /\ incl B' B /\ distinct s B'
             /\ zlen B' = zlen B - Z.of_nat (Nat.min m (length order)).
Proof.
  induction order as [|k r IH]; intros m B ND NO SUB; simpl.
  - exists B. rewrite Nat.min_0_r. repeat split; auto using incl_refl. simpl. lia.
  - destruct m as [|m']; [exists B; repeat split; auto using incl_refl; simpl; lia|].
    inversion NO as [|? ? Hk NO']; subst.
    destruct (sfind_of_in s k B (SUB k (or_introl eq_refl))) as [d F].
    destruct (sfind_some _ _ _ _ F) as [Hin Hb]. rewrite (tdel_key s k B d ND F).
    destruct (IH m' (remove Nat.eq_dec d B)) as (B' & H1 & H2 & H3 & H4); auto using distinct_remove.
    { intros k' Hk'. apply in_map_remove; [apply SUB; right; auto | congruence]. }
    exists B'. repeat split; auto.
    + eapply incl_tran; eauto using incl_remove.
    + rewrite H4, zlen_remove; eauto using distinct_nodup. simpl Nat.min. lia.
Qed.

(** first loop: deletes unused blocks only, [m - m'] of them *)
Lemma rnd_drop1_ok s : forall order m B,
  distinct s B ->
  exists B' m', rnd_drop1 s order m (tab_of s B) = (tab_of s B', m') /\ incl B' B /\ distinct s B'
                /\ (m' <= m)%nat /\ zlen B' = zlen B - Z.of_nat (m - m').
Proof.
  induction order as [|k r IH]; intros m B ND; simpl.
  - exists B, m. repeat split; auto using incl_refl. lia.
  - destruct m as [|m']; [exists B, O; repeat split; auto using incl_refl; simpl; lia|].
    unfold unused_key. rewrite tget_tab_of.
    destruct (sfind s k B) as [d|] eqn:F; [destruct (negb (bused (s d)))|]; try apply (IH (S m') B ND).
    rewrite (tdel_key s k B d ND F). destruct (sfind_some _ _ _ _ F) as [Hin _].
    destruct (IH m' (remove Nat.eq_dec d B)) as (B' & m2 & H1 & H2 & H3 & H4 & H5); auto using distinct_remove.
    exists B', m2. repeat split; auto.
    + eapply incl_tran; eauto using incl_remove.
    + rewrite H5, zlen_remove; eauto using distinct_nodup. lia.
Qed.

Lemma rnd_drop_ok s ch1 ch2 n B :
  distinct s B ->
  exists B', rnd_drop s ch1 ch2 n (tab_of s B) = tab_of s B' /\ incl B' B /\ distinct s B'
             /\ zlen B' = Z.max 0 (zlen B - Z.max 0 n).
Proof.
  intros ND. unfold rnd_drop. pose proof (zlen_nonneg B).
  destruct (Z.ltb_spec n 1); [exists B; repeat split; auto using incl_refl; lia|].
  destruct (rnd_drop1_ok s (iter_order ch1 (tab_of s B)) (Z.to_nat n) B ND)
    as (B1 & m1 & -> & H2 & H3 & H4 & H5).
  pose proof (zlen_nonneg B1).
  destruct m1 as [|m1']; [exists B1; repeat split; auto; lia|].
  destruct (iter_order_bases s B1 ch2 H3) as [NO EQ].
  destruct (rnd_drop2_ok s (iter_order ch2 (tab_of s B1)) (S m1') B1 H3 NO (fun k => proj1 (EQ k)))
    as (B2 & G1 & G2 & G3 & G4).
  exists B2. repeat split; auto; [eapply incl_tran; eauto|].
  (* the order lists every key of the table once *)
  assert (length (iter_order ch2 (tab_of s B1)) = length B1).
  { rewrite <- (map_length (base_of s) B1).
    apply Nat.le_antisymm; apply NoDup_incl_length; auto; intros k Hk; apply EQ; auto. }
  unfold zlen in *. lia.
Qed.

Definition rnd_ok (s : store) (c : rnd) (B : list bid) : Prop := rtab c = tab_of s B /\ distinct s B.
Definition rnd_inv (w : store * rnd) (cl : client) : Prop :=
  exists B, rnd_ok (fst w) (snd w) B /\ cap_own false cl (rcap (snd w)) B.

Lemma rnd_victim_in s ch1 ch2 t vk : rnd_victim s ch1 ch2 t = Some vk -> In vk (map fst t).
Proof.
  unfold rnd_victim. destruct (find (unused_key s t) (iter_order ch1 t)) eqn:F.
  - intros H; inversion H; subst. apply find_some in F. apply (iter_order_in ch1 t vk). tauto.
  - destruct (iter_order ch2 t) eqn:E; [discriminate|]. intros H; inversion H; subst.
    apply (iter_order_in ch2 t vk). rewrite E. simpl; auto.
Qed.

Lemma rnd_victim_none s ch1 ch2 t : rnd_victim s ch1 ch2 t = None -> t = [].
Proof.
  unfold rnd_victim. destruct (find (unused_key s t) (iter_order ch1 t)); [discriminate|].
  destruct (iter_order ch2 t) eqn:E; [|discriminate]. intros _.
  destruct t as [|p t]; auto. exfalso.
  assert (In (fst p) (iter_order ch2 (p :: t))) by (apply iter_order_in; simpl; auto).
  rewrite E in H. destruct H.
Qed.

Lemma rnd_victim_policy s ch1 ch2 B vk d :
  rnd_victim s ch1 ch2 (tab_of s B) = Some vk -> sfind s vk B = Some d ->
  (exists u, In u B /\ bused (s u) = false) -> distinct s B -> bused (s d) = false.
Proof.
  unfold rnd_victim. intros H F [u [Hu1 Hu2]] ND.
  destruct (find (unused_key s (tab_of s B)) (iter_order ch1 (tab_of s B))) eqn:E.
  - inversion H; subst. apply find_some in E. destruct E as [_ E].
    unfold unused_key in E. rewrite tget_tab_of, F in E. apply negb_true_iff in E. auto.
  - exfalso. assert (Hin : In (base_of s u) (iter_order ch1 (tab_of s B))).
    { apply iter_order_in. rewrite keys_tab_of. apply in_map; auto. }
    pose proof (find_none _ _ E _ Hin) as N. unfold unused_key in N.
    rewrite tget_tab_of, sfind_in in N; auto. rewrite Hu2 in N. discriminate.
Qed.

Lemma rnd_evict s ch1 ch2 B b vk :
  distinct s B -> ~ In (base_of s b) (map (base_of s) B) ->
  rnd_victim s ch1 ch2 (tab_of s B) = Some vk ->
  exists d, sfind s vk B = Some d /\ In d B /\ tget vk (tab_of s B) = Some d
    /\ tset (base_of s b) b (tdel vk (tab_of s B)) = tab_of s (remove Nat.eq_dec d B ++ [b])
    /\ distinct s (remove Nat.eq_dec d B ++ [b]).
Proof.
  intros ND HF V. apply rnd_victim_in in V. rewrite keys_tab_of in V.
  destruct (sfind_of_in s vk B V) as [d Fd]. exists d.
  assert (~ In (base_of s b) (map (base_of s) (remove Nat.eq_dec d B)))
    by (intros I; apply HF, (bases_remove_incl s d B), I).
  rewrite tget_tab_of, (tdel_key s vk B d ND Fd), tset_tab_of by auto.
  repeat split; auto using distinct_snoc, distinct_remove. apply (sfind_some _ _ _ _ Fd).
Qed.

Lemma rnd_cstep_inv s c cl o ch1 ch2 :
  rnd_inv (s, c) cl -> allowedb cl o = true ->
  let '(c', x) := rnd_step s c (o, ch1, ch2) in rnd_inv (s, c') (cl_update true cl o x).
Proof.
  intros INV AL. pose proof INV as (B & (Ht & ND) & C1 & C2 & OWN). simpl in *.
  pose proof (distinct_nodup _ _ ND) as NDB. pose proof (zlen_nonneg B) as B0.
  assert (KEEP : forall cl', own_ok false cl' B -> rnd_inv (s, c) cl')
    by (intros cl' O'; exists B; repeat split; auto).
  destruct o; simpl; auto.
  - (* Put: of a block that is not held *)
    apply negb_true_iff, status_given_eqb in AL.
    assert (Hb : ~ In b B) by (intros Hin; apply AL, (OWN b Hin)).
    rewrite Ht, tget_tab_of, tlen_tab_of. change (bbase (s b)) with (base_of s b).
    destruct (sfind s (base_of s b) B) eqn:F; [apply KEEP, own_ok_cset_out; auto|].
    apply sfind_none in F.
    destruct (Z.eqb_spec (zlen B) (rcap c)) as [EC|EC].
    + destruct (negb (bused (s b))); [apply KEEP, own_ok_cset_out; auto|].
      destruct (rnd_victim s ch1 ch2 (tab_of s B)) as [vk|] eqn:V.
      * destruct (rnd_evict s ch1 ch2 B b vk ND F V) as (d & _ & Hd & -> & -> & ND').
        exists (remove Nat.eq_dec d B ++ [b]). repeat split; auto.
        { simpl. rewrite zlen_app1, zlen_remove; auto. lia. }
        { apply own_ok_evict; auto. intros ->. auto. }
      * (* a full cache has a victim *)
        apply rnd_victim_none in V. destruct B; [|discriminate]. unfold zlen in EC. simpl in EC. lia.
    + exists (B ++ [b]). repeat split; auto using own_ok_snoc, distinct_snoc.
      { apply (tset_tab_of s b B), F. }
      { simpl. rewrite zlen_app1. lia. }
  - rewrite Ht, tget_tab_of. destruct (sfind s k B) as [b|] eqn:F; auto.
    rewrite (tdel_key s k B b ND F). destruct (sfind_some _ _ _ _ F) as [Hin _].
    exists (remove Nat.eq_dec b B). repeat split; auto using own_ok_remove, distinct_remove.
    simpl. rewrite zlen_remove; auto. lia.
  - destruct (tget k (rtab c)); auto.
  - apply Z.leb_le in AL. rewrite Ht, tlen_tab_of.
    destruct (rnd_drop_ok s ch1 ch2 (zlen B - n) B ND) as (B' & H1 & H2 & H3 & H4).
    destruct (Z.ltb_spec n (zlen B)).
    + exists B'. repeat split; eauto using own_ok_incl; simpl; lia.
    + exists B. repeat split; auto.
  - rewrite Ht. destruct (rnd_drop_ok s ch1 ch2 n B ND) as (B' & H1 & H2 & H3 & H4).
    exists B'. repeat split; eauto using own_ok_incl; simpl; lia.
Qed.

Lemma rnd_drop_step s c B d ch1 ch2 :
  rnd_ok s c B ->
  exists c', rnd_step s c (Drop d, ch1, ch2) = (c', OUnit) /\ rcap c' = rcap c
    /\ tlen (rtab c') = Z.max 0 (tlen (rtab c) - Z.max 0 d).
Proof.
  intros (Ht & ND). eexists. split; [reflexivity|]. split; [reflexivity|]. simpl. rewrite Ht.
  destruct (rnd_drop_ok s ch1 ch2 d B ND) as (B' & -> & _ & _ & H4). rewrite !tlen_tab_of. exact H4.
Qed.

Lemma rnd_resize_step s c B m ch1 ch2 :
  rnd_ok s c B ->
  exists c', rnd_step s c (Resize m, ch1, ch2) = (c', OUnit) /\ rcap c' = m
    /\ tlen (rtab c') = Z.min (tlen (rtab c)) (Z.max 0 m).
Proof.
  intros (Ht & ND). eexists. split; [reflexivity|]. split; [reflexivity|]. simpl. rewrite Ht, tlen_tab_of.
  pose proof (zlen_nonneg B).
  destruct (Z.ltb_spec m (zlen B)); [|rewrite tlen_tab_of; lia].
  destruct (rnd_drop_ok s ch1 ch2 (zlen B - m) B ND) as (B' & -> & _ & _ & H4). rewrite tlen_tab_of. lia.
Qed.

Lemma rnd_free_step s c B m ch1 ch2 :
  rnd_ok s c B ->
  exists c', free_via rnd rop (fun o x => (x, snd (fst o), snd o)) rnd_step s c (Free m, ch1, ch2) m
             = (c', OBool (m <=? rcap c))
    /\ c' = (if m <=? rcap c - tlen (rtab c) then c
             else fst (rnd_step s c (Drop (m - (rcap c - tlen (rtab c))), ch1, ch2)))
    /\ rcap c' = rcap c /\ tlen (rtab c') = Z.max 0 (Z.min (tlen (rtab c)) (rcap c - m)).
Proof.
  intros OK.
  apply (free_via_spec rnd rop (fun o x => (x, snd (fst o), snd o)) rnd_step rcap (fun c => tlen (rtab c)));
    try (intros ? ? [[? ?] ?]; reflexivity).
  - apply (zlen_nonneg (rtab c)).
  - intros d. apply (rnd_drop_step s c B d ch1 ch2 OK).
Qed.

Definition rop_op (o : rop) : op := fst (fst o).

Lemma rnd_wstep_inv s c cl o :
  rnd_inv (s, c) cl -> allowedb cl (rop_op o) = true ->
  let '(w', x) := rnd_wstep (s, c) o in rnd_inv w' (cl_update true cl (rop_op o) x).
Proof.
  destruct o as [[o ch1] ch2]. intros INV AL.
  unfold rnd_wstep, wstep, rop_op in *. cbn [fst snd] in *.
  destruct o; cbv beta iota;
    try (generalize (rnd_cstep_inv s c cl _ ch1 ch2 INV AL); destruct (rnd_step s c _); auto; fail).
  - pose proof INV as (B & OK & CO).
    destruct (rnd_free_step s c B n ch1 ch2 OK) as (c' & -> & -> & _).
    destruct (n <=? rcap c - tlen (rtab c)); [exact INV|].
    generalize (rnd_cstep_inv s c cl (Drop (n - (rcap c - tlen (rtab c)))) ch1 ch2 INV eq_refl).
    destruct (rnd_step s c _); auto.
  - (* Rebase: of a block the client owns, so not a held one *)
    simpl in AL. apply status_mine_eqb in AL. destruct INV as (B & (Ht & ND) & C1 & C2 & OWN).
    destruct (rebase_held false cl B s b (mkblk k u) OWN AL) as (E1 & _ & E3).
    simpl in *. exists B. simpl. repeat split; auto; congruence.
Qed.

Definition rnd_reach (n : Z) := reach rnd rop rop_op rnd_wstep true (rnd_empty n).

Lemma rnd_reach_inv n w cl : 1 <= n -> rnd_reach n w cl -> rnd_inv w cl.
Proof.
  intros Hn R. induction R as [|w cl o w' x R IH AL ST].
  - exists []. split; [split; constructor|]. repeat split; auto; [unfold zlen; simpl; lia | intros b []].
  - destruct w as [s c]. generalize (rnd_wstep_inv s c cl o IH AL). rewrite ST. auto.
Qed.

Lemma rnd_get_out s c k ch1 ch2 : snd (rnd_wstep (s, c) (Get k, ch1, ch2)) = OGet (tget k (rtab c)).
Proof. unfold rnd_wstep, wstep. simpl. destruct (tget k (rtab c)); reflexivity. Qed.

Lemma rnd_peek_out s c k ch1 ch2 :
  snd (rnd_wstep (s, c) (Peek k, ch1, ch2)) = OPeek (option_map (bnext s) (tget k (rtab c))).
Proof. unfold rnd_wstep, wstep. simpl. destruct (tget k (rtab c)); reflexivity. Qed.

Lemma rnd_policy s c cl b ch1 ch2 v s' c' :
  rnd_inv (s, c) cl -> allowedb cl (Put b) = true ->
  rnd_wstep (s, c) (Put b, ch1, ch2) = ((s', c'), OPut (Some v) true) ->
  In v (blocks (rtab c)) /\ tlen (rtab c) = rcap c /\ bused (s b) = true
  /\ ((exists u, In u (blocks (rtab c)) /\ bused (s u) = false) -> bused (s v) = false)
  /\ (forall y, In y (blocks (rtab c')) <-> (In y (blocks (rtab c)) /\ y <> v) \/ y = b).
Proof.
  intros (B & (Ht & ND) & C1 & C2 & OWN) AL. simpl in *.
  apply negb_true_iff, status_given_eqb in AL.
  assert (Hb : ~ In b B) by (intros Hin; apply AL, (OWN b Hin)).
  unfold rnd_wstep, wstep. simpl. rewrite Ht, tget_tab_of, tlen_tab_of, blocks_tab_of.
  change (bbase (s b)) with (base_of s b). destruct (sfind s (base_of s b) B) eqn:F; [intros H; inversion H|]. apply sfind_none in F.
  destruct (Z.eqb_spec (zlen B) (rcap c)); [|intros H; inversion H].
  destruct (bused (s b)) eqn:U; simpl; [|intros H; inversion H].
  destruct (rnd_victim s ch1 ch2 (tab_of s B)) as [vk|] eqn:V; [|intros H; inversion H].
  destruct (rnd_evict s ch1 ch2 B b vk ND F V) as (d & Fd & Hd & -> & -> & _).
  intros H; inversion H; subst. simpl. rewrite blocks_tab_of. repeat split; auto.
  - intros HU. eapply rnd_victim_policy; eauto.
  - intros Hy. apply in_app_iff in Hy as [Hy|[<-|[]]]; auto. apply in_remove in Hy. auto.
  - intros [[H1 H2]|E]; apply in_app_iff; [left; apply in_in_remove; auto | right; simpl; auto].
Qed.
