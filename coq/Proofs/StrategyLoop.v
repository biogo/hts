(** C17 — the statement-level translation of bgzf/index/strategy.go that
    /verif/gen writes into Generated.v (index loop over the slice, copy of
    chunks[c-1], pointer to chunks[c], deletion by append) computes exactly the
    functional model of Model/Strategy.v, for every input, never panics and
    needs no more fuel than the length of the list.

    These lemmas are where a change of the Go source surfaces: if a condition,
    an assignment or the loop shape changes, Generated.v changes and the
    proofs below no longer go through. *)
From Coq Require Import Lia.
From Hts Require Import Base.Prim Base.Bits Base.Chunks Generated
  Model.Strategy Model.StrategySpec Model.StrategyRun Proofs.Strategy.
Open Scope Z_scope.

Lemma zlen_cons {A} (x : A) l : zlen (x :: l) = zlen l + 1.
Proof. unfold zlen. simpl length. lia. Qed.

Lemma to_nat_zlen {A} (l : list A) : Z.to_nat (zlen l) = length l.
Proof. unfold zlen. apply Nat2Z.id. Qed.

Lemma zlen_snoc {A} (l : list A) x : zlen (l ++ [x]) = zlen l + 1.
Proof. rewrite zlen_app. reflexivity. Qed.

Lemma app_snoc {A} (l : list A) x t : l ++ x :: t = (l ++ [x]) ++ t.
Proof. rewrite <- app_assoc. reflexivity. Qed.

Lemma getc_mid done x t : getc (done ++ x :: t) (zlen done) = x.
Proof. unfold getc. rewrite to_nat_zlen, app_nth2, Nat.sub_diag by lia. reflexivity. Qed.

Lemma getc_mid2 done y x t : getc (done ++ y :: x :: t) (zlen done + 1) = x.
Proof. rewrite app_snoc, <- (zlen_snoc done y). apply getc_mid. Qed.

Lemma inb_mid (done : list chunk) x t : inb (done ++ x :: t) (zlen done) = true.
Proof.
  unfold inb. rewrite zlen_app, zlen_cons. pose proof (zlen_nonneg done). pose proof (zlen_nonneg t).
  apply andb_true_intro. split; [apply Z.leb_le | apply Z.ltb_lt]; lia.
Qed.

Lemma inb_mid2 (done : list chunk) y x t : inb (done ++ y :: x :: t) (zlen done + 1) = true.
Proof. rewrite app_snoc, <- (zlen_snoc done y). apply inb_mid. Qed.

Lemma setc_mid done x t z : setc (done ++ x :: t) (zlen done) z = done ++ z :: t.
Proof. unfold setc. rewrite to_nat_zlen. induction done; simpl; [reflexivity | f_equal; assumption]. Qed.

Lemma setc_mid2 done y x t z : setc (done ++ y :: x :: t) (zlen done + 1) z = done ++ y :: z :: t.
Proof. rewrite (app_snoc done y (x :: t)), (app_snoc done y (z :: t)), <- (zlen_snoc done y). apply setc_mid. Qed.

Lemma slb_mid {A} (done t : list A) : slb (done ++ t) (zlen done) = true.
Proof.
  unfold slb. rewrite zlen_app. pose proof (zlen_nonneg done). pose proof (zlen_nonneg t).
  apply andb_true_intro. split; apply Z.leb_le; lia.
Qed.

Lemma slb_mid2 {A} (done : list A) y t : slb (done ++ y :: t) (zlen done + 1) = true.
Proof. rewrite app_snoc, <- (zlen_snoc done y). apply slb_mid. Qed.

Lemma slice_to_mid {A} (done t : list A) : slice_to (done ++ t) (zlen done) = done.
Proof. unfold slice_to. rewrite to_nat_zlen, firstn_app, Nat.sub_diag, firstn_all. apply app_nil_r. Qed.

Lemma slice_from_mid {A} (done t : list A) : slice_from (done ++ t) (zlen done) = t.
Proof. unfold slice_from. rewrite to_nat_zlen, skipn_app, Nat.sub_diag, skipn_all. reflexivity. Qed.

Lemma slice_from_mid2 {A} (done : list A) y t : slice_from (done ++ y :: t) (zlen done + 1) = t.
Proof. rewrite app_snoc, <- (zlen_snoc done y). apply slice_from_mid. Qed.

Lemma vOffset_vo o : bgzfindex_vOffset o = vo o.
Proof. reflexivity. Qed.

Section Loop.
  Variable mergeable : chunk -> chunk -> bool.

  (** The text gen/ produces for the body of either loop, with the condition
      left open: [left] is a copy of chunks[c-1]; chunks[c] takes its Begin
      and, if larger, its End; chunks[c-1] is deleted and [c] steps back. *)
  Definition gbody (chunks : list chunk) (c : Z) : outcome (list chunk * Z) :=
    chk (inb chunks (c - 1)) (
    let left := getc chunks (c - 1) in
    chk (inb chunks c) (
    if mergeable left (getc chunks c) then
      let chunks := setc chunks c (set_Begin (getc chunks c) (c_Begin left)) in
      if vo (c_End (getc chunks c)) <? vo (c_End left) then
        let chunks := setc chunks c (set_End (getc chunks c) (c_End left)) in
        chk (slb chunks (c - 1)) (chk (slb chunks c) (chk (c - 1 <=? c)
          (Ok (slice_to chunks (c - 1) ++ slice_from chunks c, c - 1))))
      else
        chk (slb chunks (c - 1)) (chk (slb chunks c) (chk (c - 1 <=? c)
          (Ok (slice_to chunks (c - 1) ++ slice_from chunks c, c - 1))))
    else Ok (chunks, c))).

  Fixpoint gloop (fuel : nat) (chunks : list chunk) (c : Z) : outcome (list chunk * Z) :=
    match fuel with
    | O => Stuck
    | S fuel =>
        if c <? zlen chunks then
          obind (gbody chunks c) (fun st => let '(chunks, c) := st in let c := c + 1 in gloop fuel chunks c)
        else Ok (chunks, c)
    end.

  Definition gmerge (fuel : nat) (chunks : list chunk) : outcome (list chunk) :=
    if zlen chunks =? 0 then Ok [] else
    obind (gloop fuel chunks 1) (fun st => let '(chunks, _) := st in Ok chunks).

  Lemma gbody_spec done left r rest :
    gbody (done ++ left :: r :: rest) (zlen done + 1) =
    Ok (if mergeable left r then (done ++ join left r :: rest, zlen done)
        else (done ++ left :: r :: rest, zlen done + 1)).
  Proof.
    unfold gbody. rewrite !Z.add_simpl_r.
    rewrite inb_mid, getc_mid, inb_mid2. unfold chk. cbv zeta.
    rewrite getc_mid2. destruct (mergeable left r); [| reflexivity].
    rewrite !setc_mid2, !getc_mid2, !slb_mid, !slb_mid2, !slice_to_mid, !slice_from_mid2.
    replace (zlen done <=? zlen done + 1) with true by (symmetry; apply Z.leb_le; lia).
    unfold join. destruct r as [rb re]. destruct (vo _ <? vo _); reflexivity.
  Qed.

  (** Invariant: chunks = done ++ left :: rest with c = len done + 1, where
      [left] is the last chunk kept and [rest] the input still to come. *)
  Lemma gloop_spec : forall fuel rest done left,
    (length rest < fuel)%nat ->
    exists c', gloop fuel (done ++ left :: rest) (zlen done + 1) = Ok (done ++ merge_from mergeable left rest, c').
  Proof.
    induction fuel as [| fuel IH]; intros rest done left Hf; [lia |].
    simpl gloop. destruct rest as [| r rest].
    - rewrite zlen_app, zlen_cons. change (zlen (@nil chunk)) with 0.
      replace (zlen done + 1 <? zlen done + (0 + 1)) with false by (symmetry; apply Z.ltb_ge; lia).
      eexists. reflexivity.
    - rewrite zlen_app, !zlen_cons. pose proof (zlen_nonneg rest).
      replace (zlen done + 1 <? zlen done + (zlen rest + 1 + 1)) with true by (symmetry; apply Z.ltb_lt; lia).
      rewrite gbody_spec. simpl merge_from. simpl in Hf.
      destruct (mergeable left r); simpl obind.
      + apply IH. lia.
      + rewrite app_snoc, <- (zlen_snoc done left).
        destruct (IH rest (done ++ [left]) r) as [c' E]; [lia |].
        exists c'. rewrite E, <- app_assoc. reflexivity.
  Qed.

  Lemma gmerge_spec fuel l : (length l <= fuel)%nat -> gmerge fuel l = Ok (merge mergeable l).
  Proof.
    intros Hf. unfold gmerge. destruct l as [| c t]; [reflexivity |].
    rewrite zlen_cons. pose proof (zlen_nonneg t).
    replace (zlen t + 1 =? 0) with false by (symmetry; apply Z.eqb_neq; lia).
    destruct (gloop_spec fuel t [] c) as [c' E]; [simpl in Hf; lia |].
    change (zlen (@nil chunk) + 1) with 1 in E. simpl app in E. rewrite E. reflexivity.
  Qed.
End Loop.

(** The two generated functions are this loop with their conditions, by
    unfolding; the equations stop holding when a condition, an assignment or
    the loop shape of the Go source changes.  (The closure's loop carries
    [near] as an argument of the fixpoint, hence the induction.) *)
Lemma adjacent_is_gmerge : bgzfindex_adjacent = gmerge adj_mergeable.
Proof. reflexivity. Qed.

Lemma compressor_loop_gloop near fuel : forall l c,
  bgzfindex_CompressorStrategy_loop1 near fuel l c = gloop (cmp_mergeable near) fuel l c.
Proof.
  induction fuel as [| fuel IH]; intros l c; simpl; [reflexivity |].
  destruct (c <? zlen l); [| reflexivity].
  change (bgzfindex_CompressorStrategy_loop1_body near l c) with (gbody (cmp_mergeable near) l c).
  destruct (gbody (cmp_mergeable near) l c) as [[l' c'] | | |]; simpl; auto.
Qed.

Lemma compressor_is_gmerge near fuel l :
  bgzfindex_CompressorStrategy near fuel l = gmerge (cmp_mergeable near) fuel l.
Proof. unfold bgzfindex_CompressorStrategy, gmerge. cbv zeta. rewrite compressor_loop_gloop. reflexivity. Qed.

Lemma squash_fold t : forall e,
  fold_left (fun acc v_c => obind acc (fun st =>
     let v_right := st in
     if bgzfindex_vOffset v_right <? bgzfindex_vOffset (c_End v_c)
     then (let v_right := c_End v_c in Ok v_right) else Ok v_right)) t (Ok e)
  = Ok (fold_left max_end t e).
Proof.
  induction t as [| c t IH]; intros e; cbn [fold_left obind]; [reflexivity |].
  rewrite <- IH. f_equal. unfold max_end. rewrite (vOffset_vo e), (vOffset_vo (c_End c)).
  destruct (vo e <? vo (c_End c)); reflexivity.
Qed.

Lemma squash_refines l : bgzfindex_squash l = Ok (squash_m l).
Proof.
  unfold bgzfindex_squash. destruct l as [| c t]; [reflexivity |].
  rewrite zlen_cons. pose proof (zlen_nonneg t).
  replace (zlen t + 1 =? 0) with false by (symmetry; apply Z.eqb_neq; lia).
  rewrite (inb_mid [] c t : inb (c :: t) 0 = true), (slb_mid2 [] c t : slb (c :: t) 1 = true).
  unfold chk. cbv zeta.
  change (getc (c :: t) 0) with c. change (slice_from (c :: t) 1) with t.
  rewrite squash_fold. reflexivity.
Qed.

Lemma run_fuel_model s fuel l :
  (length l <= fuel)%nat -> run_strategy_fuel s fuel l = Ok (model_of s l).
Proof.
  intros Hf. destruct s; simpl.
  - reflexivity.
  - rewrite adjacent_is_gmerge. apply gmerge_spec. assumption.
  - apply squash_refines.
  - rewrite compressor_is_gmerge. apply gmerge_spec. assumption.
Qed.

Lemma run_model s l : run_strategy s l = Ok (model_of s l).
Proof. apply run_fuel_model. lia. Qed.

Lemma run_inv s l out : run_strategy s l = Ok out -> out = model_of s l.
Proof. rewrite run_model. intros H. inversion H. reflexivity. Qed.

(** On BGZF offsets every strategy is the merge loop with its condition,
    which decides the relation the property statement gives it. *)
Definition merge_cond (s : strategy) : chunk -> chunk -> bool :=
  match s with
  | Identity => fun _ _ => false
  | Adjacent => adj_mergeable
  | Squash => fun _ _ => true
  | Compressor near => cmp_mergeable near
  end.

Lemma model_merge s l : valid_chunks l -> model_of s l = merge (merge_cond s) l.
Proof.
  intros Hv. destruct s; simpl; [rewrite merge_never; apply identity_unaltered_gen | reflexivity | apply squash_merge; assumption | reflexivity].
Qed.

Lemma merge_cond_joins s a b :
  valid_chunk a -> valid_chunk b -> (merge_cond s a b = true <-> joins s a b).
Proof.
  intros Ha Hb. destruct s; simpl.
  - split; [discriminate | contradiction].
  - apply adj_mergeable_touches; assumption.
  - tauto.
  - apply cmp_mergeable_within; assumption.
Qed.
