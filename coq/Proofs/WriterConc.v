(** Invariant CInv of the concurrent writer pipeline (Model/WriterConc.v),
    for every schedule, as long as no Write of the underlying writer has failed:
      - the API thread's state is a state of the sequential machine,
      - submitted blocks = emitted blocks ++ blocks of the pending compressors
        (emitter's current one, then the queue, in order),
      - what reached the underlying writer is one member per emitted block,
      - qwg counts the pending compressors whose Add has been executed,
      - durability marks never exceed what is in the stream.
    Once a Write of the underlying writer has failed only [Frozen] is left:
    the latch is set and the output stays a block prefix without marker. *)
From Coq Require Import ZArith Lia List Bool.
From Hts Require Import Base.Prim Base.WrList Generated Model.Bgzf Model.Writer Model.WriterConc
  Proofs.Bgzf Proofs.Writer.
Import ListNotations.
Open Scope Z_scope.

Lemma siter_S_end n s : siter (S n) s = step0 (siter n s).
Proof. rewrite <- Nat.add_1_r. apply siter_add. Qed.

Definition submits (s : sst) : option (list Z) :=
  match s_pc s with
  | AWSend _ _ | ACSend => Some (s_act s)
  | AFSend => Some (s_local s)
  | _ => None
  end.

Lemma step0_sub s :
  s_sub (step0 s) = match submits s with Some b => s_sub s ++ [b] | None => s_sub s end.
Proof. unfold submits. sstep_cases s; reflexivity. Qed.

Lemma step0_eof s : s_pc s <> ACWg -> s_eof (step0 s) = s_eof s.
Proof. sstep_cases s; congruence. Qed.

Lemma step0_durable s : s_pc s <> ACWg -> s_pc s <> AWaitQ -> s_durable (step0 s) = s_durable s.
Proof. sstep_cases s; congruence. Qed.

Lemma step0_closed s : s_pc s <> ACCloseQ -> s_closed (step0 s) = s_closed s.
Proof. sstep_cases s; congruence. Qed.

Definition send_pc (pc : apc) : bool :=
  match pc with AWSend _ _ | AFSend | ACSend => true | _ => false end.
Definition add_pc (pc : apc) : bool :=
  match pc with AWAdd _ _ | AFAdd | ACAdd => true | _ => false end.

Lemma step0_add_pc s : add_pc (s_pc (step0 s)) = send_pc (s_pc s).
Proof. sstep_cases s; reflexivity. Qed.

Lemma step0_wait_durable s : s_pc s = AWaitQ -> s_durable (step0 s) = s_flushmark s.
Proof. intros H. unfold step0, sstep. rewrite H. reflexivity. Qed.

Lemma step0_closeq s : s_pc s = ACCloseQ -> s_closed (step0 s) = true.
Proof. intros H. unfold step0, sstep. rewrite H. reflexivity. Qed.

Lemma step0_wg s : s_pc s = ACWg -> s_eof (step0 s) = true /\ s_durable (step0 s) = zlen (s_data s).
Proof. intros H. unfold step0, sstep. rewrite H. split; reflexivity. Qed.

Lemma sstep_grows e fb s :
  prefix_of (s_sub s) (s_sub (sstep e fb s)) /\ prefix_of (s_data s) (s_data (sstep e fb s)).
Proof. sstep_cases s; try destruct e; sproj; split; try apply prefix_of_refl; eexists; reflexivity. Qed.

Lemma sstep_eof_err e fb s : is_some e = true -> s_eof s = false -> s_eof (sstep e fb s) = false.
Proof. destruct e; [intros _|discriminate]. sstep_cases s; auto. Qed.

(** In a goal about the caller's next state: the fields its step leaves alone
    at this program point go back to their old values. *)
Ltac caller_frame :=
  rewrite ?step0_sub, ?step0_add_pc, ?step0_eof, ?step0_durable, ?step0_closed by congruence.

Ltac proj := cbn [x_api x_active x_local x_queue x_waiting x_held x_epc x_wfail x_qwg x_out x_nwr x_err
                  x_qclosed x_panic x_cap upd_emit upd_api map_pending] in *.

Section ConcProofs.
  Variable deflate : Z -> list Z -> list Z.
  Variable crc32 : list Z -> Z.
  Variables (pm : wr_patch) (guard ovf : bool) (lvl : Z) (h : gzhdr).
  Hypothesis deflate_bound : forall l d,
    zlen (deflate l d) <= zlen d + zlen d / 2^12 + zlen d / 2^14 + zlen d / 2^25 + 13.
  Hypothesis Hpa : patch_at_12 pm guard.
  Hypothesis Hl : hdr_legal h.
  Hypothesis Hs : hdr_small h.

  Definition M (p : list Z) : list Z := member_of deflate crc32 lvl h p.
  Variable fault : Z -> bool.
  Definition stepc := step deflate crc32 pm guard ovf lvl h fault.
  Definition runc := run deflate crc32 pm guard ovf lvl h fault.

  Definition entry_ok (c : comp) (p : list Z) : Prop :=
    c_err c = None /\ small p /\
    match c_stage c with
    | SSent | STasked => c_block c = p /\ c_buf c = []
    | SFlushed => c_buf c = M p /\ c_block c = []
    | SIdle => False
    end.

  Definition idle_ok (c : comp) : Prop := c_block c = [] /\ c_buf c = [] /\ c_err c = None.
  Definition clean (c : comp) : Prop := c_buf c = [] /\ c_err c = None.

  Definition held_pending (st : cst) : list comp :=
    match x_epc st, x_held st with
    | EFlushWait, Some c | EWrite, Some c => [c]
    | _, _ => []
    end.
  Definition pending (st : cst) : list comp := held_pending st ++ x_queue st.

  Definition nonsent (c : comp) : bool := negb (stage_eqb (c_stage c) SSent).
  Definition count_nonsent (l : list comp) : Z := zlen (filter nonsent l).

  Definition add_id (st : cst) : Z :=
    match s_pc (x_api st) with AFAdd => c_id (x_local st) | _ => c_id (x_active st) end.

  (* [ci_sent]: only the last pending entry can lack its qwg.Add, and only between the caller's send and
     that Add; so qwg = 0 at Wait means nothing is pending (durability). *)
  Record CInv (script : list wop) (st : cst) : Prop := {
    ci_err : x_err st = None;
    ci_panic : x_panic st = false;
    ci_wfail : x_wfail st = false;
    ci_orbit : exists m, x_api st = siter m (sinit script);
    ci_waiting : Forall idle_ok (x_waiting st);
    ci_active : clean (x_active st);
    ci_local : clean (x_local st);
    ci_chain : exists done ps,
        s_sub (x_api st) = done ++ ps /\ Forall2 entry_ok (pending st) ps
        /\ x_out st = map M done ++ (if s_eof (x_api st) then [bgzf_magicBlock] else [])
        /\ s_durable (x_api st) <= zlen (concat done);
    ci_qwg : x_qwg st = count_nonsent (pending st) + (match x_epc st with EDone => 1 | _ => 0 end);
    ci_sent : if add_pc (s_pc (x_api st))
              then exists P e, pending st = P ++ [e] /\ c_stage e = SSent /\ c_id e = add_id st
                               /\ forallb nonsent P = true
              else forallb nonsent (pending st) = true;
    ci_held : match x_epc st with
              | ERange | EExit => x_held st = None
              | EFlushWait => exists c, x_held st = Some c
              | EWrite => exists c, x_held st = Some c /\ c_stage c = SFlushed
              | EDone => exists c, x_held st = Some c /\ clean c /\ c_stage c = SFlushed /\ c_block c = []
              end;
    ci_exit : x_epc st = EExit -> x_queue st = [] /\ x_qclosed st = true;
    ci_qclosed : x_qclosed st = s_closed (x_api st);
    ci_eof : s_eof (x_api st) = true -> x_epc st = EExit
  }.

  Lemma api_inv script st : CInv script st -> SInv (written script) (x_api st).
  Proof. intros I. destruct (ci_orbit _ _ I) as [m ->]. apply siter_inv. apply sinit_inv. Qed.

  Lemma count_nonsent_app a b : count_nonsent (a ++ b) = count_nonsent a + count_nonsent b.
  Proof. unfold count_nonsent. rewrite filter_app, zlen_app'. reflexivity. Qed.

  Lemma count_nonsent_all l : forallb nonsent l = true -> count_nonsent l = zlen l.
  Proof.
    unfold count_nonsent. induction l as [|c l IH]; cbn [forallb filter]; [reflexivity|].
    intros H. apply andb_prop in H. destruct H as [H1 H2]. rewrite H1. rewrite !zlen_cons. rewrite IH by assumption. reflexivity.
  Qed.

  Lemma entry_ok_task id c p : entry_ok c p ->
    entry_ok (task_on deflate crc32 pm guard ovf lvl h id c) p.
  Proof.
    intros [He [Hsm Hst]]. unfold task_on.
    destruct ((c_id c =? id) && stage_eqb (c_stage c) STasked) eqn:E; [|repeat split; assumption].
    apply andb_prop in E. destruct E as [_ E]. destruct (c_stage c); try discriminate.
    destruct Hst as [Hb Hbuf]. unfold run_block. rewrite Hbuf, Hb.
    rewrite (write_block_ok deflate crc32 deflate_bound pm guard ovf lvl h p Hpa Hl Hs Hsm).
    repeat split; auto.
  Qed.

  Lemma nonsent_task id c : nonsent (task_on deflate crc32 pm guard ovf lvl h id c) = nonsent c.
  Proof.
    unfold task_on. destruct ((c_id c =? id) && stage_eqb (c_stage c) STasked) eqn:E; [|reflexivity].
    apply andb_prop in E. destruct E as [_ E]. destruct (c_stage c) eqn:Hst; try discriminate.
    unfold run_block, nonsent.
    destruct (write_block deflate crc32 pm guard ovf lvl h (c_buf c) (c_block c)); cbn; rewrite ?Hst; reflexivity.
  Qed.

  Lemma task_on_other id c : c_stage c <> STasked ->
    task_on deflate crc32 pm guard ovf lvl h id c = c.
  Proof. intros H. unfold task_on. destruct (c_stage c); try (rewrite andb_false_r; reflexivity). congruence. Qed.

  Lemma entry_ok_mark id c p : entry_ok c p -> entry_ok (mark_on id c) p.
  Proof.
    intros [He [Hsm Hst]]. unfold mark_on.
    destruct ((c_id c =? id) && stage_eqb (c_stage c) SSent) eqn:E; [|repeat split; assumption].
    apply andb_prop in E. destruct E as [_ E]. destruct (c_stage c); try discriminate.
    repeat split; cbn; tauto.
  Qed.

  Lemma mark_nonsent id c : nonsent c = true -> mark_on id c = c.
  Proof.
    unfold nonsent, mark_on. intros H. apply negb_true_iff in H. rewrite H. rewrite andb_false_r. reflexivity.
  Qed.

  Lemma Forall2_map_l {A B} (R : A -> B -> Prop) (f : A -> A) l ps :
    (forall a b, R a b -> R (f a) b) -> Forall2 R l ps -> Forall2 R (map f l) ps.
  Proof. intros Hf H. induction H; cbn; constructor; auto. Qed.

  Lemma forallb_map_same (f : comp -> comp) l :
    (forall c, nonsent (f c) = nonsent c) -> forallb nonsent (map f l) = forallb nonsent l.
  Proof. intros Hf. induction l; cbn; [reflexivity|]. rewrite Hf, IHl. reflexivity. Qed.

  Lemma count_map_same (f : comp -> comp) l :
    (forall c, nonsent (f c) = nonsent c) -> count_nonsent (map f l) = count_nonsent l.
  Proof.
    intros Hf. unfold count_nonsent. induction l as [|c l IH]; cbn [map filter]; [reflexivity|].
    rewrite Hf. destruct (nonsent c); rewrite ?zlen_cons; rewrite IH; reflexivity.
  Qed.

  Lemma map_id_nonsent (f : comp -> comp) l :
    (forall c, nonsent c = true -> f c = c) -> forallb nonsent l = true -> map f l = l.
  Proof.
    intros Hf. induction l as [|c l IH]; cbn; [reflexivity|]. intros H. apply andb_prop in H. destruct H.
    rewrite Hf, IH by assumption. reflexivity.
  Qed.

  Lemma pending_map f st :
    pending (map_pending f st) = map f (pending st).
  Proof.
    unfold pending, held_pending, map_pending. cbn [x_epc x_held x_queue]. rewrite map_app.
    destruct (x_epc st), (x_held st); reflexivity.
  Qed.

  Lemma held_map (f : comp -> comp) script st :
    (forall c, c_stage c = SFlushed -> f c = c) -> CInv script st ->
    match x_epc st with
    | ERange | EExit => x_held (map_pending f st) = None
    | EFlushWait => exists c, x_held (map_pending f st) = Some c
    | EWrite => exists c, x_held (map_pending f st) = Some c /\ c_stage c = SFlushed
    | EDone => exists c, x_held (map_pending f st) = Some c /\ clean c /\ c_stage c = SFlushed /\ c_block c = []
    end.
  Proof.
    intros Hf I. pose proof (ci_held _ _ I) as H. unfold map_pending. cbn [x_held].
    destruct (x_epc st); try (rewrite H; reflexivity).
    - destruct H as [c ->]. eauto.
    - destruct H as (c & -> & H). rewrite (Hf _ H). eauto.
    - destruct H as (c & -> & H). rewrite (Hf c) by apply H. eauto.
  Qed.

  Lemma task_inv script id st : CInv script st ->
    CInv script (map_pending (task_on deflate crc32 pm guard ovf lvl h id) st).
  Proof.
    intros I. set (f := task_on deflate crc32 pm guard ovf lvl h id).
    assert (Hns : forall c, nonsent (f c) = nonsent c) by (intros; apply nonsent_task).
    assert (Hh := held_map f script st (fun c Hc => task_on_other id c ltac:(rewrite Hc; discriminate)) I).
    destruct I as [Ierr Ipan Iwf Iorb Iwait Iact Iloc Ichain Iqwg Isent Iheld Iexit Iqc Ieof].
    constructor; rewrite ?pending_map; proj; auto.
    - destruct Ichain as (done & ps & H1 & H2 & H3 & H4). exists done, ps. repeat split; auto.
      apply Forall2_map_l; [|assumption]. intros; apply entry_ok_task; assumption.
    - rewrite count_map_same by assumption. assumption.
    - destruct (add_pc (s_pc (x_api st))).
      + destruct Isent as (P & e & E1 & E2 & E3 & E4). exists (map f P), e. rewrite E1, map_app. cbn [map].
        unfold f at 2. rewrite task_on_other by congruence. repeat split; auto.
        rewrite forallb_map_same by assumption. assumption.
      + rewrite forallb_map_same by assumption. assumption.
    - intros H. destruct (Iexit H) as [-> ?]. auto.
  Qed.

  Lemma M_nonempty p : isnil (M p) = false.
  Proof. pose proof (member_of_nonempty deflate crc32 lvl h p). unfold M. destruct (member_of deflate crc32 lvl h p); [congruence|reflexivity]. Qed.

  Lemma count_nonsent_nonneg l : 0 <= count_nonsent l.
  Proof. unfold count_nonsent. apply zlen_nonneg. Qed.

  Lemma count_nonsent_cons c l : count_nonsent (c :: l) = (if nonsent c then 1 else 0) + count_nonsent l.
  Proof. unfold count_nonsent. cbn [filter]. destruct (nonsent c); rewrite ?zlen_cons; lia. Qed.

  Lemma emit_inv script st :
    CInv script st -> (x_epc st = EWrite -> fault (x_nwr st) = false) -> CInv script (emit_step fault st).
  Proof.
    intros I Hf. pose proof I as [Ierr Ipan Iwf Iorb Iwait Iact Iloc Ichain Iqwg Isent Iheld Iexit Iqc Ieof].
    revert Ichain Iqwg Isent. unfold emit_step, pending, held_pending.
    destruct (x_epc st) eqn:Hepc; try (intros; assumption);
      (destruct (s_eof (x_api st)) eqn:He0; [discriminate (Ieof eq_refl)|]); intros Ichain Iqwg Isent;
      [destruct (x_queue st) as [|c q] eqn:Hq; [destruct (x_qclosed st) eqn:Hqc; [|assumption]|]
      |destruct Iheld as [c Hc]; rewrite Hc in *; destruct (c_stage c) eqn:Hst; cbn [stage_eqb]; try assumption
      |destruct Iheld as (c & Hc & Hst); rewrite Hc in *
      |destruct Iheld as (c & Hc & [Hb He] & Hst & Hbk); rewrite Hc in *; destruct (zlen (x_waiting st) <? x_cap st); [|assumption]].
    (* the range loop takes the next compressor or ends; the flush channel delivers: the pending list stays *)
    1-3: constructor; unfold pending, held_pending; proj; rewrite ?He0, ?Hqc; eauto; try discriminate; exact Ichain.
    - (* writeOK: the member of the first pending block goes out *)
      destruct Ichain as (done & ps & C1 & C2 & C3 & C4). inversion C2 as [|? p ? ps' (E1 & E2 & E3) C2']; subst.
      rewrite Hst in E3. destruct E3 as [Ebuf Eblk].
      rewrite E1, Ierr, Ebuf, M_nonempty, (Hf eq_refl). cbn [is_some].
      assert (Hns : nonsent c = true) by (unfold nonsent; rewrite Hst; reflexivity).
      cbn [app forallb] in Iqwg, Isent. rewrite count_nonsent_cons, Hns in Iqwg. rewrite Hns in Isent.
      constructor; unfold pending, held_pending; proj; rewrite ?He0; cbn [app]; auto; try discriminate.
      + exists (done ++ [p]), ps'. rewrite <- app_assoc, app_nil_r in *. split; [assumption|]. split; [assumption|].
        rewrite C3, map_app. split; [reflexivity|].
        rewrite concat_snoc, zlen_app'. pose proof (zlen_nonneg p). lia.
      + lia.
      + unfold add_id. proj. fold (add_id st).
        destruct (add_pc (s_pc (x_api st))); [|assumption].
        destruct Isent as (P & e & S1 & S2 & S3 & S4).
        destruct P as [|c' P']; cbn [app] in S1; injection S1 as <- S1; [congruence|].
        exists P', e. cbn [forallb] in S4. rewrite Hns in S4. auto.
      + eexists; split; [reflexivity|]. cbn. repeat split; auto.
    - (* the deferred qwg.Done() and bg.waiting <- c *)
      pose proof (count_nonsent_nonneg (x_queue st)). cbn [app] in Ichain, Iqwg, Isent.
      constructor; unfold pending, held_pending; proj; rewrite ?He0; cbn [app]; auto; try discriminate.
      + rewrite Ipan. apply Z.leb_gt. lia.
      + apply Forall_snoc; [assumption|]. repeat split; cbn; auto.
      + lia.
  Qed.

  Lemma orbit_step script st :
    (exists m, x_api st = siter m (sinit script)) -> exists m, step0 (x_api st) = siter m (sinit script).
  Proof. intros [m ->]. exists (S m). rewrite siter_S_end. reflexivity. Qed.

  (** Program points at which the caller's step touches neither the queue nor a
      counter nor a flag (it may take a compressor from waiting). *)
  Definition quiet_pc (pc : apc) : bool :=
    match pc with AIdle | AWLoop _ _ _ | AWRecv _ _ | AFRecv | ACRecv | ACCompress | ADone => true | _ => false end.

  Lemma quiet_pcs s : quiet_pc (s_pc s) = true ->
    submits s = None /\ s_pc s <> ACWg /\ s_pc s <> AWaitQ /\ s_pc s <> ACCloseQ /\ add_pc (s_pc s) = false
    /\ send_pc (s_pc s) = false.
  Proof. unfold submits. destruct (s_pc s); intros H; try discriminate; repeat split; try discriminate; reflexivity. Qed.

  Lemma same_inv script st act loc w :
    CInv script st -> clean act -> clean loc -> Forall idle_ok w -> quiet_pc (s_pc (x_api st)) = true ->
    CInv script (upd_api st (step0 (x_api st)) act loc (x_queue st) w (x_qwg st)).
  Proof.
    intros I Ha Hlo Hw Hq. destruct (quiet_pcs _ Hq) as (Hsub & H1 & H2 & H3 & Hadd & Hsend).
    pose proof I as [Ierr Ipan Iwf Iorb Iwait Iact Iloc Ichain Iqwg Isent Iheld Iexit Iqc Ieof]. rewrite Hadd in Isent.
    constructor; proj; auto using orbit_step; caller_frame; rewrite ?Hsub, ?Hsend; auto.
  Qed.

  Lemma closed_no_submit W s : SInv W s -> s_closed s = true -> submits s = None.
  Proof.
    intros I Hc. destruct (si_closed_pc _ _ I Hc) as [[E|[E|[E|E]]] _]; unfold submits; rewrite E; reflexivity.
  Qed.

  Lemma submits_pcs s b : submits s = Some b ->
    s_pc s <> ACWg /\ s_pc s <> AWaitQ /\ s_pc s <> ACCloseQ /\ add_pc (s_pc s) = false /\ send_pc (s_pc s) = true.
  Proof. unfold submits. destruct (s_pc s); intros H; try discriminate; repeat split; try discriminate; reflexivity. Qed.

  Lemma send_inv script st blk c :
    CInv script st -> submits (x_api st) = Some blk -> clean c -> small blk ->
    c_id c = match s_pc (step0 (x_api st)) with AFAdd => c_id (x_local st) | _ => c_id (x_active st) end ->
    CInv script (upd_api st (step0 (x_api st)) (x_active st) (x_local st)
                         (x_queue st ++ [with_stage (with_block c blk) SSent]) (x_waiting st) (x_qwg st)).
  Proof.
    intros I Hsub [Hcb Hce] Hsm Hid.
    pose proof I as [Ierr Ipan Iwf Iorb Iwait Iact Iloc Ichain Iqwg Isent Iheld Iexit Iqc Ieof].
    destruct (submits_pcs _ _ Hsub) as (P1 & P2 & P3 & P4 & P5). rewrite P4 in Isent.
    set (e := with_stage (with_block c blk) SSent).
    assert (Hpend : pending (upd_api st (step0 (x_api st)) (x_active st) (x_local st)
                         (x_queue st ++ [e]) (x_waiting st) (x_qwg st)) = pending st ++ [e]).
    { unfold pending, held_pending. proj. apply app_assoc. }
    constructor; rewrite ?Hpend; proj; auto using orbit_step; caller_frame; rewrite ?Hsub, ?P5; auto.
    - destruct Ichain as (done & ps & C1 & C2 & C3 & C4). exists done, (ps ++ [blk]). rewrite C1, app_assoc.
      split; [reflexivity|]. split; [|split; assumption].
      apply Forall2_snoc; [assumption|]. unfold entry_ok, e. cbn. auto.
    - rewrite count_nonsent_app, Iqwg. unfold count_nonsent at 3. cbn. lia.
    - exists (pending st), e. repeat split; auto.
    - intros Hx. exfalso. destruct (Iexit Hx) as [_ Hq]. rewrite Iqc in Hq.
      rewrite (closed_no_submit _ _ (api_inv _ _ I) Hq) in Hsub. discriminate.
  Qed.

  Lemma add_pcs s : add_pc (s_pc s) = true ->
    submits s = None /\ s_pc s <> ACWg /\ s_pc s <> AWaitQ /\ s_pc s <> ACCloseQ /\ send_pc (s_pc s) = false.
  Proof. unfold submits. destruct (s_pc s); intros H; try discriminate; repeat split; try discriminate; reflexivity. Qed.

  Lemma add_inv script st :
    CInv script st -> add_pc (s_pc (x_api st)) = true ->
    CInv script (map_pending (mark_on (add_id st))
                   (upd_api st (step0 (x_api st)) (x_active st) (x_local st) (x_queue st) (x_waiting st) (x_qwg st + 1))).
  Proof.
    intros I Hadd.
    pose proof I as [Ierr Ipan Iwf Iorb Iwait Iact Iloc Ichain Iqwg Isent Iheld Iexit Iqc Ieof].
    destruct (add_pcs _ Hadd) as (Hsub & P1 & P2 & P3 & P5).
    rewrite Hadd in Isent. destruct Isent as (P & e & S1 & S2 & S3 & S4).
    set (f := mark_on (add_id st)).
    assert (Hfe : f e = with_stage e STasked).
    { unfold f, mark_on. rewrite S3, Z.eqb_refl, S2. reflexivity. }
    assert (Hpend : pending (map_pending f (upd_api st (step0 (x_api st)) (x_active st) (x_local st) (x_queue st)
                                               (x_waiting st) (x_qwg st + 1))) = P ++ [with_stage e STasked]).
    { rewrite pending_map. unfold pending, held_pending. proj. fold (held_pending st). fold (pending st).
      rewrite S1, map_app. cbn [map]. rewrite Hfe. f_equal.
      apply map_id_nonsent; [|assumption]. intros c Hc. apply mark_nonsent. assumption. }
    assert (Hcnt : count_nonsent (P ++ [with_stage e STasked]) = count_nonsent (pending st) + 1).
    { rewrite S1, !count_nonsent_app. unfold count_nonsent at 2 4. cbn [filter]. unfold nonsent at 1 2. cbn [c_stage with_stage].
      rewrite S2. cbn. lia. }
    constructor; rewrite ?Hpend; unfold map_pending; proj; auto using orbit_step; caller_frame; rewrite ?Hsub, ?P5; auto.
    - destruct Ichain as (done & ps & C1 & C2 & C3 & C4). exists done, ps.
      split; [assumption|]. split; [|split; assumption].
      rewrite <- Hpend, pending_map. apply Forall2_map_l; [apply entry_ok_mark|exact C2].
    - rewrite Hcnt. lia.
    - rewrite forallb_app, S4. reflexivity.
    - apply (held_map f script st); [|assumption]. intros c Hc. apply mark_nonsent. unfold nonsent. rewrite Hc. reflexivity.
    - intros Hx. destruct (Iexit Hx) as [-> ?]. auto.
  Qed.

  Lemma pending_nil_chain st done ps :
    pending st = [] -> Forall2 entry_ok (pending st) ps -> s_sub (x_api st) = done ++ ps ->
    ps = [] /\ s_sub (x_api st) = done.
  Proof. intros E F C. rewrite E in F. inversion F; subst. rewrite app_nil_r in C. auto. Qed.

  (** With nothing pending every submitted block has been delivered, so the
      marks of the caller's next state are covered whatever they are. *)
  Lemma drained_chain script st :
    CInv script st -> pending st = [] -> submits (x_api st) = None ->
    exists done ps,
      s_sub (x_api st) = done ++ ps /\ Forall2 entry_ok (pending st) ps
      /\ x_out st = map M done ++ (if s_eof (x_api st) then [bgzf_magicBlock] else [])
      /\ s_durable (step0 (x_api st)) <= zlen (concat done).
  Proof.
    intros I Hp Hsub. destruct (ci_chain _ _ I) as (done & ps & C1 & C2 & C3 & _). exists done, ps.
    repeat split; try assumption. destruct (pending_nil_chain st done ps Hp C2 C1) as [_ <-].
    pose proof (si_durable _ _ (step0_inv _ _ (api_inv _ _ I))) as D. rewrite step0_sub, Hsub in D. apply D.
  Qed.

  Lemma fb_nil st : Forall idle_ok (x_waiting st) -> fb_of st = [].
  Proof.
    unfold fb_of. intros H. destruct (x_waiting st) as [|c w]; [reflexivity|].
    inversion H as [|? ? [Hb _] _]; subst. assumption.
  Qed.

  (** Under CInv the caller reads no error and an emptied block: its step is [step0]. *)
  Lemma api_step0 script st : CInv script st -> sstep (x_err st) (fb_of st) (x_api st) = step0 (x_api st).
  Proof. intros I. rewrite (ci_err _ _ I), (fb_nil st (ci_waiting _ _ I)). reflexivity. Qed.

  Lemma wait_inv script st :
    CInv script st -> s_pc (x_api st) = AWaitQ -> CInv script (api_step deflate crc32 pm guard ovf lvl h fault st).
  Proof.
    intros I Hpc. unfold api_step. rewrite Hpc, (api_step0 script st I).
    destruct (x_qwg st =? 0) eqn:Hq; [apply Z.eqb_eq in Hq|assumption].
    pose proof I as [Ierr Ipan Iwf Iorb Iwait Iact Iloc Ichain Iqwg Isent Iheld Iexit Iqc Ieof].
    rewrite Hpc in Isent. cbn [add_pc] in Isent.
    assert (Hpend : pending st = []).
    { rewrite (count_nonsent_all _ Isent) in Iqwg. pose proof (zlen_nonneg (pending st)).
      apply zlen_0_nil. destruct (x_epc st); lia. }
    assert (Hsub : submits (x_api st) = None) by (unfold submits; rewrite Hpc; reflexivity).
    pose proof (drained_chain script st I Hpend Hsub).
    constructor; proj; auto using orbit_step; caller_frame; rewrite ?Hpc, ?Hsub; auto.
  Qed.

  Lemma closeq_inv script st :
    CInv script st -> s_pc (x_api st) = ACCloseQ -> CInv script (api_step deflate crc32 pm guard ovf lvl h fault st).
  Proof.
    intros I Hpc. unfold api_step. rewrite Hpc, (api_step0 script st I).
    pose proof I as [Ierr Ipan Iwf Iorb Iwait Iact Iloc Ichain Iqwg Isent Iheld Iexit Iqc Ieof]. rewrite Hpc in Isent.
    constructor; proj; auto using orbit_step; caller_frame; unfold submits; rewrite ?Hpc; auto.
    - intros Hx. destruct (Iexit Hx). auto.
    - symmetry. apply step0_closeq, Hpc.
  Qed.

  Lemma wg_inv script st :
    CInv script st -> s_pc (x_api st) = ACWg -> (x_epc st = EExit -> fault (x_nwr st) = false) ->
    CInv script (api_step deflate crc32 pm guard ovf lvl h fault st).
  Proof.
    intros I Hpc Hf. unfold api_step. rewrite Hpc, (ci_err _ _ I).
    destruct (x_epc st) eqn:Hepc; try assumption. rewrite (Hf eq_refl), <- (ci_err _ _ I), (api_step0 script st I), <- Hepc.
    pose proof I as [Ierr Ipan Iwf Iorb Iwait Iact Iloc Ichain Iqwg Isent Iheld Iexit Iqc Ieof]. rewrite Hpc in Isent.
    assert (Hpend : pending st = []).
    { unfold pending, held_pending. rewrite Hepc. destruct (Iexit Hepc) as [-> _]. reflexivity. }
    assert (Hsub : submits (x_api st) = None) by (unfold submits; rewrite Hpc; reflexivity).
    destruct (drained_chain script st I Hpend Hsub) as (done & ps & C1 & C2 & C3 & C4).
    rewrite (si_close_eof _ _ (api_inv _ _ I)), app_nil_r in C3 by (rewrite Hpc; reflexivity).
    constructor; proj; auto using orbit_step; caller_frame; rewrite ?Hpc, ?Hsub; auto.
    exists done, ps. rewrite C3, (proj1 (step0_wg _ Hpc)). auto.
  Qed.

  Lemma api_step_inv script st :
    CInv script st -> (s_pc (x_api st) = ACWg -> x_epc st = EExit -> fault (x_nwr st) = false) ->
    CInv script (api_step deflate crc32 pm guard ovf lvl h fault st).
  Proof.
    intros I Hf. pose proof (ci_waiting _ _ I) as Iwait. pose proof (ci_active _ _ I) as Iact.
    pose proof (ci_local _ _ I) as Iloc. pose proof (api_inv _ _ I) as SI.
    destruct (s_pc (x_api st)) eqn:Hpc;
      try (apply wait_inv; assumption); try (apply closeq_inv; assumption); try (apply wg_inv; auto; fail);
      unfold api_step; rewrite Hpc, (api_step0 script st I);
      lazymatch goal with
      | |- CInv _ (if zlen (x_queue st) <? _ then _ else _) =>
          (* bg.queue <- c: blocked, or the block enters the queue as SSent *)
          destruct (zlen (x_queue st) <? x_cap st); [|assumption];
          apply send_inv; auto; try apply SI; unfold submits, step0, sstep; rewrite Hpc; reflexivity
      | |- CInv _ (map_pending (mark_on _) _) =>
          (* qwg.Add(1); go c.writeBlock() *)
          replace (c_id _) with (add_id st) by (unfold add_id; rewrite Hpc; reflexivity);
          apply add_inv; auto; rewrite Hpc; reflexivity
      | |- CInv _ (match x_waiting st with _ => _ end) =>
          (* <-bg.waiting: blocked, or an idle compressor comes back *)
          destruct (x_waiting st) as [|c w]; [assumption|inversion Iwait as [|? ? (? & ? & ?) ?]; subst];
          apply same_inv; auto; try (split; assumption); rewrite Hpc; reflexivity
      | |- CInv _ (map_pending _ _) =>
          (* Close compresses its last block itself *)
          apply task_inv, same_inv; auto; rewrite Hpc; reflexivity
      | _ => apply same_inv; auto; rewrite Hpc; reflexivity
      end.
  Qed.

  Lemma step_inv script t st :
    CInv script st -> fault (x_nwr st) = false -> CInv script (stepc t st).
  Proof.
    intros I Hf. unfold stepc, step. destruct t as [|[|i]].
    - apply api_step_inv; auto.
    - apply emit_inv; auto.
    - apply task_inv. assumption.
  Qed.

  Lemma run_inv script sched :
    (forall k, fault k = false) -> forall st, CInv script st -> CInv script (runc sched st).
  Proof.
    intros Hnf. induction sched as [|t r IH]; intros st I; [assumption|]. cbn [runc run]. apply IH.
    apply step_inv; [assumption|apply Hnf].
  Qed.

  Lemma cinit_inv wc script : CInv script (cinit wc script).
  Proof.
    constructor; cbn [cinit x_err x_panic x_wfail x_api x_waiting x_active x_local x_out x_qwg x_epc x_held x_queue x_qclosed];
      auto; try (split; reflexivity); try discriminate.
    - exists 0%nat. reflexivity.
    - apply Forall_forall. intros c Hc. apply in_map_iff in Hc. destruct Hc as [i [<- _]]. repeat split.
    - exists [], []. cbn. repeat split; try constructor; lia.
  Qed.

  Lemma run_conc_inv wc script sched :
    (forall k, fault k = false) ->
    CInv script (run_conc deflate crc32 pm guard ovf lvl h fault wc script sched).
  Proof. intros Hnf. unfold run_conc. apply run_inv; [assumption|]. apply cinit_inv. Qed.

  (** After the first failed underlying Write the error is latched and nothing
      more is delivered: what was delivered stays the members of a prefix of
      the submitted blocks. *)
  Definition Frozen (st : cst) : Prop :=
    x_err st <> None /\ s_eof (x_api st) = false /\
    exists done, prefix_of done (s_sub (x_api st)) /\ x_out st = map M done /\ Forall small done
                 /\ prefix_of (concat done) (s_data (x_api st)).

  (** A state whose output is a block prefix and has no marker is frozen as soon
      as the latch is set, and stays so while nothing is delivered and the
      caller, if it moves, sees the latch. *)
  Lemma Frozen_upd st st' :
    (s_eof (x_api st) = false /\
     exists done, prefix_of done (s_sub (x_api st)) /\ x_out st = map M done /\ Forall small done
                  /\ prefix_of (concat done) (s_data (x_api st))) ->
    x_err st' <> None -> x_out st' = x_out st ->
    (x_api st' = x_api st \/ exists e fb, is_some e = true /\ x_api st' = sstep e fb (x_api st)) ->
    Frozen st'.
  Proof.
    intros (Hf & done & D1 & D2 & D3 & D4) He' Ho [Ha|(e & fb & Hse & Ha)]; unfold Frozen; rewrite Ha.
    - split; [assumption|]. split; [assumption|]. exists done. rewrite Ho. auto.
    - split; [assumption|]. split; [apply sstep_eof_err; assumption|]. exists done. rewrite Ho.
      destruct (sstep_grows e fb (x_api st)) as [G1 G2].
      repeat split; try assumption; eapply prefix_of_trans; eassumption.
  Qed.

  Lemma set_err_some e x : e <> None -> set_err e x <> None.
  Proof. destruct e; cbn; congruence. Qed.
  Lemma set_err_some' e x : set_err e x <> None.
  Proof. destruct e; cbn; congruence. Qed.

  Lemma latched_step t st :
    x_err st <> None ->
    x_err (stepc t st) <> None /\ x_out (stepc t st) = x_out st /\
    (x_api (stepc t st) = x_api st \/ x_api (stepc t st) = sstep (x_err st) (fb_of st) (x_api st)).
  Proof.
    destruct (x_err st) as [x|] eqn:Hx; [intros _|congruence].
    remember (stepc t st) as st' eqn:E. unfold stepc, step in E.
    destruct t as [|[|i]]; [unfold api_step in E|unfold emit_step in E|]; rewrite ?Hx in E; cbn [is_some] in E.
    all: repeat match type of E with
                | _ = match ?y with _ => _ end => destruct y
                | _ = if ?y then _ else _ => destruct y
                end; subst st'; unfold map_pending; proj; rewrite ?Hx; cbn [set_err]; repeat split; auto; discriminate.
  Qed.

  Lemma frozen_step t st : Frozen st -> Frozen (stepc t st).
  Proof.
    intros F. destruct (latched_step t st (proj1 F)) as (E & O & A).
    apply (Frozen_upd st); [apply F|assumption..|]. destruct A as [A|A]; [left; exact A|right].
    exists (x_err st), (fb_of st). split; [|exact A]. destruct F as [N _]. destruct (x_err st); [reflexivity|contradiction].
  Qed.

  Lemma CInv_emitted script st :
    CInv script st ->
    exists done, prefix_of done (s_sub (x_api st))
                 /\ x_out st = map M done ++ (if s_eof (x_api st) then [bgzf_magicBlock] else [])
                 /\ Forall small done /\ prefix_of (concat done) (s_data (x_api st))
                 /\ s_durable (x_api st) <= zlen (concat done)
                 /\ (pending st = [] -> done = s_sub (x_api st)).
  Proof.
    intros I. pose proof (api_inv _ _ I) as SI.
    destruct (ci_chain _ _ I) as (done & ps & C1 & C2 & C3 & C4). exists done.
    split; [exists ps; assumption|]. split; [assumption|].
    split. { pose proof (si_sub _ _ SI) as X. rewrite C1 in X. apply Forall_app in X. apply X. }
    split. { rewrite <- (si_data _ _ SI), C1. exists (concat ps ++ pend (x_api st)). rewrite concat_app, <- app_assoc. reflexivity. }
    split; [assumption|]. intros E. rewrite E in C2. inversion C2; subst. rewrite C1, app_nil_r. reflexivity.
  Qed.

  Lemma CInv_unmarked script st :
    CInv script st -> s_eof (x_api st) = false ->
    s_eof (x_api st) = false /\
    exists done, prefix_of done (s_sub (x_api st)) /\ x_out st = map M done /\ Forall small done
                 /\ prefix_of (concat done) (s_data (x_api st)).
  Proof.
    intros I He. destruct (CInv_emitted script st I) as (done & D1 & D2 & D3 & D4 & _).
    rewrite He, app_nil_r in D2. eauto 6.
  Qed.

  Lemma emit_frozen script st :
    CInv script st -> x_epc st = EWrite -> fault (x_nwr st) = true -> Frozen (emit_step fault st).
  Proof.
    intros I Hepc Hf. pose proof I as [Ierr Ipan Iwf Iorb Iwait Iact Iloc Ichain Iqwg Isent Iheld Iexit Iqc Ieof].
    assert (Heof : s_eof (x_api st) = false).
    { destruct (s_eof (x_api st)) eqn:E; [|reflexivity]. specialize (Ieof eq_refl). congruence. }
    revert Ichain. unfold emit_step, pending, held_pending. rewrite Hepc in *. destruct Iheld as (c & -> & Hst).
    intros (done & ps & _ & C2 & _). inversion C2 as [|? p ? ? (E1 & _ & E3) _]; subst.
    rewrite Hst in E3. destruct E3 as [Ebuf _]. rewrite E1, Ierr, Ebuf, M_nonempty, Hf. cbn [is_some].
    apply (Frozen_upd st); [apply (CInv_unmarked script); assumption|proj; discriminate|reflexivity|left; reflexivity].
  Qed.

  Lemma wg_frozen script st :
    CInv script st -> s_pc (x_api st) = ACWg -> x_epc st = EExit -> fault (x_nwr st) = true ->
    Frozen (api_step deflate crc32 pm guard ovf lvl h fault st).
  Proof.
    intros I Hpc Hepc Hf.
    assert (Heof : s_eof (x_api st) = false) by (apply (si_close_eof _ _ (api_inv _ _ I)); rewrite Hpc; reflexivity).
    unfold api_step. rewrite Hpc, Hepc, (ci_err _ _ I), Hf.
    apply (Frozen_upd st); [apply (CInv_unmarked script); assumption|proj; discriminate|reflexivity|].
    right. exists (Some 9), (fb_of st). split; reflexivity.
  Qed.

  Definition FInv (script : list wop) (st : cst) : Prop := CInv script st \/ Frozen st.

  Lemma step_any script t st : FInv script st -> FInv script (stepc t st).
  Proof.
    intros [I|F]; [|right; apply frozen_step; assumption].
    destruct (fault (x_nwr st)) eqn:Hf; [|left; apply step_inv; auto].
    unfold stepc, step. destruct t as [|[|i]]; [| |left; apply task_inv; assumption].
    - destruct (s_pc (x_api st)) eqn:Hpc; try (left; apply api_step_inv; [assumption|congruence]).
      destruct (x_epc st) eqn:He; try (left; apply api_step_inv; [assumption|congruence]).
      right. apply (wg_frozen script); assumption.
    - destruct (x_epc st) eqn:He; try (left; apply emit_inv; [assumption|congruence]).
      right. apply (emit_frozen script); assumption.
  Qed.

  Lemma run_any script sched : forall st, FInv script st -> FInv script (runc sched st).
  Proof.
    induction sched as [|t r IH]; intros st I; [assumption|]. cbn [runc run]. apply IH. apply step_any. assumption.
  Qed.

  Lemma FInv_emitted script st :
    FInv script st ->
    exists done, prefix_of done (s_sub (x_api st))
                 /\ x_out st = map M done ++ (if s_eof (x_api st) then [bgzf_magicBlock] else [])
                 /\ Forall small done /\ prefix_of (concat done) (s_data (x_api st)).
  Proof.
    intros [I|(_ & -> & done & F)].
    - destruct (CInv_emitted script st I) as (done & D1 & D2 & D3 & D4 & _). exists done. auto.
    - exists done. rewrite app_nil_r. exact F.
  Qed.

  Lemma FInv_eof script st :
    FInv script st -> s_eof (x_api st) = true -> s_closed (x_api st) = true /\ x_err st = None.
  Proof.
    intros [I|(_ & E & _)] He; [|congruence].
    split; [apply (si_eof_closed _ _ (api_inv _ _ I) He)|apply (ci_err _ _ I)].
  Qed.

  Lemma run_conc_any wc script sched :
    FInv script (run_conc deflate crc32 pm guard ovf lvl h fault wc script sched).
  Proof. unfold run_conc. apply run_any. left. apply cinit_inv. Qed.
End ConcProofs.
