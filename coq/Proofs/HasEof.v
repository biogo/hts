(** bgzf.HasEOF reports exactly whether the stream ends with the marker, for
    every kind of reader it distinguishes and every cursor position.  The size
    expressions are the ones gen/ reads off the Go source. *)
From Coq Require Import ZArith Lia List Bool.
From Hts Require Import Base.Prim Generated Model.Bgzf Model.HasEof.
Import ListNotations.
Open Scope Z_scope.

Lemma haseof_size_is_length r k atoms :
  he_lookup k bgzf_haseof_size = Some atoms ->
  0 <= he_pos r <= zlen (he_data r) ->
  he_size r atoms = zlen (he_data r).
Proof.
  intros Hl Hp. unfold bgzf_haseof_size in Hl.
  destruct k; cbn [he_lookup he_kind_eqb] in Hl; injection Hl as <-;
    unfold he_size; cbn [fold_left he_atom_val]; lia.
Qed.

Lemma haseof_all_kinds k : exists atoms, he_lookup k bgzf_haseof_size = Some atoms.
Proof. destruct k; eexists; reflexivity. Qed.

Lemma haseof_iff_marker_gen r k :
  he_methods r = Some k ->
  0 <= he_pos r <= zlen (he_data r) ->
  bgzf_haseof_reads_at_size_minus_marker = true
  /\ haseof_go r = if zlen bgzf_magicBlock <=? zlen (he_data r)
                   then Ok (ends_with_marker (he_data r)) else Err 2.
Proof.
  intros Hm Hp. split; [reflexivity|].
  unfold haseof_go, haseof_impl. rewrite Hm.
  destruct (haseof_all_kinds k) as [atoms Ha]. rewrite Ha.
  rewrite (haseof_size_is_length r k atoms Ha Hp).
  set (d := he_data r). set (n := zlen bgzf_magicBlock).
  assert (Hn : n = 28) by reflexivity.
  unfold he_read_at, ends_with_marker. fold n.
  destruct (n <=? zlen d) eqn:E.
  - apply Z.leb_le in E.
    replace ((zlen d - n <? 0) || (zlen d <? zlen d - n + n)) with false
      by (symmetry; apply orb_false_intro; apply Z.ltb_ge; lia).
    cbn [andb]. f_equal. f_equal.
    apply firstn_all2. unfold zlen in *. rewrite skipn_length. lia.
  - apply Z.leb_gt in E.
    replace (zlen d - n <? 0) with true by (symmetry; apply Z.ltb_lt; lia). reflexivity.
Qed.

Lemma ends_with_marker_has_eof d : ends_with_marker d = has_eof d.
Proof.
  unfold ends_with_marker, has_eof. destruct (zlen bgzf_magicBlock <=? zlen d) eqn:E; [|reflexivity].
  cbn [andb]. apply Z.leb_le in E. f_equal. f_equal. unfold zlen in *. lia.
Qed.
