(** Proofs about the stream readers of cram.go (C20): each call takes exactly
    the bytes its first byte announces, fails exactly on short input, and
    reads nothing once the reader has failed. *)
From Coq Require Import ZArith Lia List Bool.
From Hts Require Import Base.Prim Base.Bits Generated Model.Itf8Spec Model.CramStream Proofs.Varint Proofs.Itf8 Proofs.Ltf8.
Open Scope Z_scope.

(** Both number readers are the same statements around a different decoder
    and array size. *)
Definition er_item (dec : list Z -> outcome (Z * Z * bool)) (maxn : Z) (zeros : list Z)
    (r : ereader) : outcome (Z * ereader) :=
  let buf := zeros in
  let '(got, r) := er_readfull r 1 in
  let buf := blit buf 0 got in
  if er_failed r then Ok (0, r) else
  obind (dec (firstn 1 buf)) (fun '(i, n, ok) =>
  if ok : bool then Ok (i, r) else
  chk ((1 <=? n) && (n <=? maxn)) (
  let '(got, r) := er_readfull r (n - 1) in
  let buf := blit buf 1 got in
  if er_failed r then Ok (0, r) else
  obind (dec (firstn (Z.to_nat n) buf)) (fun '(i, _, ok) =>
  if ok : bool then Ok (i, r) else Ok (i, set_err r E_decode)))).

Lemma er_itf8_is_item r : er_itf8 r = er_item itf8_Decode 5 [0; 0; 0; 0; 0] r.
Proof. reflexivity. Qed.

Lemma er_ltf8_is_item r : er_ltf8 r = er_item ltf8_Decode 9 [0; 0; 0; 0; 0; 0; 0; 0; 0] r.
Proof. reflexivity. Qed.

Lemma zlen_firstn_le {A} (l : list A) k : 0 <= k -> zlen (firstn (Z.to_nat k) l) = Z.min k (zlen l).
Proof. intros H. unfold zlen. rewrite firstn_length. lia. Qed.

Lemma zlen_nil_inv {A} (l : list A) : zlen l = 0 -> l = [].
Proof. destruct l; [reflexivity|]. unfold zlen. simpl length. lia. Qed.

Lemma er_failed_0 l t : er_failed (mkER l t 0) = false.
Proof. reflexivity. Qed.

Lemma er_failed_err l t e : e <> 0 -> er_failed (mkER l t e) = true.
Proof. intros H. apply negb_true_iff, Z.eqb_neq, H. Qed.

(** io.ReadFull on a reader that has not failed: all of [k] bytes, or what is
    left together with the source's error. *)
Lemma er_readfull_fresh s tail k : 0 < k ->
  er_readfull (mkER s tail 0) k =
  if k <=? zlen s then (firstn (Z.to_nat k) s, mkER (skipn (Z.to_nat k) s) tail 0)
  else (s, mkER [] tail (if zlen s =? 0 then tail else if tail =? E_EOF then E_UEOF else tail)).
Proof.
  intros Hk. unfold er_readfull. cbn [er_rest er_tail er_err]. rewrite er_failed_0, zlen_firstn_le by lia.
  destruct (Z.leb_spec k 0); [lia|]. cbv iota. destruct (Z.leb_spec k (zlen s)).
  - rewrite Z.min_l, Z.eqb_refl by lia. reflexivity.
  - rewrite Z.min_r, (proj2 (Z.eqb_neq _ _)), firstn_all2, skipn_all2 by (unfold zlen in *; lia).
    destruct (Z.eqb_spec (zlen s) 0) as [E|]; [rewrite (zlen_nil_inv s E)|]; reflexivity.
Qed.

(** [announced s]: bytes the item at the head of [s] needs; one byte is needed to learn that. *)
Definition announced (spec_n : Z -> Z) (s : list Z) : Z :=
  match s with [] => 1 | b0 :: _ => spec_n b0 end.

(** A reader that takes exactly the announced bytes: min(announced, available)
    are consumed; no error exactly when the announced bytes are there, and then
    the result is what [dec] returns on the input; otherwise 0 and the source's
    error (ErrUnexpectedEOF when the source said EOF in mid-item). *)
Definition reads_exactly (rd : ereader -> outcome (Z * ereader))
    (dec : list Z -> outcome (Z * Z * bool)) (spec_n : Z -> Z) : Prop :=
  forall s tail, all_bytes s = true -> tail <> 0 ->
    exists v r',
      rd (mkER s tail 0) = Ok (v, r') /\
      let n := announced spec_n s in
      er_rest r' = skipn (Z.to_nat (Z.min n (zlen s))) s /\
      er_tail r' = tail /\
      (er_err r' = 0 <-> n <= zlen s) /\
      (n <= zlen s -> dec s = Ok (v, n, true)) /\
      (zlen s < n -> v = 0 /\ (er_err r' = tail \/ (tail = E_EOF /\ er_err r' = E_UEOF))).

Section Item.
  Variable dec : list Z -> outcome (Z * Z * bool).
  Variable spec_n : Z -> Z.
  Variable val : list Z -> Z.
  Variable maxn : Z.
  Variable zeros : list Z.

  Hypothesis Hitem : item_form dec spec_n val.
  Hypothesis Hn : forall b, 1 <= spec_n b <= maxn.

  (** What one call must do on a reader that has not failed. *)
  Definition item_result (s : list Z) (tail : Z) : Z * ereader :=
    match s with
    | [] => (0, mkER [] tail tail)
    | b0 :: _ =>
      let n := spec_n b0 in
      if n <=? zlen s then (val (firstn (Z.to_nat n) s), mkER (skipn (Z.to_nat n) s) tail 0)
      else (0, mkER [] tail (if zlen s =? 1 then tail else if tail =? E_EOF then E_UEOF else tail))
    end.

  Lemma er_item_sticky r : er_err r <> 0 -> er_item dec maxn zeros r = Ok (0, r).
  Proof.
    intros He. unfold er_item, er_readfull.
    assert (Hf : er_failed r = true) by (destruct r; apply er_failed_err, He).
    change (1 <=? 0) with false. cbv iota. rewrite Hf. cbv iota beta. rewrite Hf. reflexivity.
  Qed.

  Lemma er_item_spec s tail :
    all_bytes s = true -> tail <> 0 ->
    er_item dec maxn zeros (mkER s tail 0) = Ok (item_result s tail).
  Proof.
    intros Hb Ht. destruct Hitem as [_ Hdec]. unfold er_item, item_result. rewrite er_readfull_fresh by reflexivity.
    destruct s as [|b0 t]; [cbn; rewrite er_failed_err by assumption; reflexivity|].
    pose proof (Hn b0) as Hr. pose proof (zlen_nonneg t) as Hlt. apply all_bytes_cons in Hb. destruct Hb as [H0 Htb].
    rewrite (zlen_cons b0 t). destruct (Z.leb_spec 1 (1 + zlen t)); [|lia]. rewrite er_failed_0. cbv iota.
    change (skipn (Z.to_nat 1) (b0 :: t)) with t. change (firstn (Z.to_nat 1) (b0 :: t)) with [b0].
    change (firstn 1 (blit zeros 0 [b0])) with [b0].
    rewrite (Hdec b0 []) by (apply all_bytes_intro; [assumption|reflexivity]). cbv zeta. cbn [obind].
    set (n := spec_n b0) in *. change (zlen [b0]) with 1.
    destruct (Z.ltb_spec 1 n) as [Hlong|Hone].
    2:{ assert (n = 1) as -> by lia. rewrite (proj2 (Z.leb_le _ _) H). reflexivity. }
    cbv iota beta. rewrite (proj2 (Z.leb_le 1 n)), (proj2 (Z.leb_le n maxn)) by lia. cbn [andb chk er_rest].
    rewrite er_readfull_fresh by lia.
    destruct (Z.leb_spec (n - 1) (zlen t)) as [Hfull|Hshort].
    - (* the announced bytes are there *)
      rewrite er_failed_0. cbv iota. destruct (Z.leb_spec n (1 + zlen t)); [|lia].
      set (got := firstn (Z.to_nat (n - 1)) t).
      assert (Hgl : length got = Z.to_nat (n - 1)) by (subst got; rewrite firstn_length; unfold zlen in *; lia).
      replace (firstn (Z.to_nat n) (blit (blit zeros 0 [b0]) 1 got)) with (b0 :: got).
      2:{ unfold blit at 1. change (firstn 1 (blit zeros 0 [b0])) with [b0]. cbn [app].
          replace (Z.to_nat n) with (S (length got)) by lia. cbn [firstn]. rewrite firstn_app_exact. reflexivity. }
      rewrite (Hdec b0 got) by (apply all_bytes_intro; [assumption|apply forallb_firstn, Htb]). cbv zeta. fold n.
      replace (zlen (b0 :: got)) with n by (rewrite zlen_cons; unfold zlen; lia).
      rewrite Z.ltb_irrefl. cbn [obind]. replace (Z.to_nat n) with (S (Z.to_nat (n - 1))) by lia. cbn [firstn skipn].
      subst got. rewrite firstn_firstn, Nat.min_id. reflexivity.
    - (* short input *)
      destruct (Z.leb_spec n (1 + zlen t)); [lia|].
      replace (1 + zlen t =? 1) with (zlen t =? 0)
        by (destruct (Z.eqb_spec (zlen t) 0), (Z.eqb_spec (1 + zlen t) 1); lia || reflexivity).
      rewrite er_failed_err; [reflexivity|].
      destruct (zlen t =? 0); [assumption|]. destruct (Z.eqb_spec tail E_EOF); [discriminate|assumption].
  Qed.

  Lemma er_item_exact : reads_exactly (er_item dec maxn zeros) dec spec_n.
  Proof.
    intros s tail Hb Ht. rewrite er_item_spec by assumption.
    exists (fst (item_result s tail)), (snd (item_result s tail)). split; [rewrite <- surjective_pairing; reflexivity|]. cbv zeta.
    destruct s as [|b0 t].
    { cbn. repeat split; try lia; try (intros; discriminate); auto. }
    rewrite (proj2 Hitem b0 t Hb). unfold item_result, announced. cbv zeta.
    pose proof (Hn b0) as H1. pose proof (zlen_nonneg t) as Hl. rewrite zlen_cons in *.
    destruct (Z.leb_spec (spec_n b0) (1 + zlen t)) as [Hle|Hgt].
    - rewrite Z.min_l, (proj2 (Z.ltb_ge _ _) Hle) by lia. cbn [er_rest er_tail er_err fst snd]. repeat split; try lia; auto.
    - rewrite Z.min_r by lia. cbn [er_rest er_tail er_err fst snd].
      rewrite skipn_all2 by (unfold zlen in *; cbn [length]; lia).
      repeat split; try lia; auto.
      + intros He0. destruct (1 + zlen t =? 1); [lia|]. destruct (Z.eqb_spec tail E_EOF); unfold E_UEOF in *; lia.
      + destruct (1 + zlen t =? 1); [left; reflexivity|].
        destruct (Z.eqb_spec tail E_EOF); [right; split; [assumption|reflexivity]|left; reflexivity].
  Qed.

  Lemma er_item_roundtrip enc rest tail v :
    all_bytes (enc ++ rest) = true -> tail <> 0 -> dec (enc ++ rest) = Ok (v, zlen enc, true) ->
    er_item dec maxn zeros (mkER (enc ++ rest) tail 0) = Ok (v, mkER rest tail 0).
  Proof.
    intros Hb Ht Hd. destruct Hitem as [Hnil Hdec]. rewrite er_item_spec by assumption. f_equal. unfold item_result.
    destruct (enc ++ rest) as [|b0 t] eqn:Es; [rewrite Hnil in Hd; discriminate|].
    rewrite (Hdec b0 t Hb) in Hd. cbv zeta in *.
    destruct (Z.ltb_spec (zlen (b0 :: t)) (spec_n b0)); [discriminate|]. injection Hd as Hv Hl.
    rewrite (proj2 (Z.leb_le _ _)), Hv, Hl by lia. unfold zlen. rewrite Nat2Z.id, <- Es, skipn_app_exact. reflexivity.
  Qed.
End Item.

Definition itf8_val (l : list Z) : Z := s32 (itf8_spec_value l).

Lemma er_itf8_exact : reads_exactly er_itf8 itf8_Decode itf8_spec_n.
Proof. exact (er_item_exact _ _ itf8_val _ _ itf8_Decode_item itf8_spec_n_range). Qed.

Lemma er_ltf8_exact : reads_exactly er_ltf8 ltf8_Decode ltf8_spec_n.
Proof. exact (er_item_exact _ _ ltf8_val _ _ ltf8_Decode_item ltf8_spec_n_range). Qed.

Lemma er_itf8_sticky r : er_err r <> 0 -> er_itf8 r = Ok (0, r).
Proof. rewrite er_itf8_is_item. apply er_item_sticky. Qed.

Lemma er_ltf8_sticky r : er_err r <> 0 -> er_ltf8 r = Ok (0, r).
Proof. rewrite er_ltf8_is_item. apply er_item_sticky. Qed.

(** [itf8_items bs vs]: [bs] is the concatenation of complete ITF-8 items
    (each exactly as long as its first byte announces) whose values are [vs]. *)
Inductive itf8_items : list Z -> list Z -> Prop :=
| items_nil : itf8_items [] []
| items_cons b bs v vs :
    b <> [] -> zlen b = itf8_spec_n (hd 0 b) -> v = itf8_val b ->
    itf8_items bs vs -> itf8_items (b ++ bs) (v :: vs).

(** An item that is not all there: nothing, or fewer bytes than announced. *)
Definition itf8_short (l : list Z) : Prop := zlen l < announced itf8_spec_n l.

Lemma itf8_items_app a b va vb : itf8_items a va -> itf8_items b vb -> itf8_items (a ++ b) (va ++ vb).
Proof.
  induction 1 as [|x xs v vs Hne Hl Hv Hi IH]; intros Hb; [assumption|].
  rewrite <- app_assoc. cbn [app]. apply items_cons; auto.
Qed.

Lemma all_bytes_skipn n l : all_bytes l = true -> all_bytes (skipn n l) = true.
Proof.
  revert n; induction l as [|a l IH]; intros [|n] H; simpl in *; auto.
  apply andb_prop in H. destruct H as [_ Hl]. apply IH. assumption.
Qed.

Lemma er_itf8_step s tail :
  all_bytes s = true -> tail <> 0 ->
  exists v s' e,
    er_itf8 (mkER s tail 0) = Ok (v, mkER s' tail e) /\
    (e = 0 /\ all_bytes s' = true /\ (length s' < length s)%nat /\ (exists b, s = b ++ s' /\ itf8_items b [v])
     \/ e <> 0 /\ s' = [] /\ itf8_short s).
Proof.
  intros Hb Ht. destruct (er_itf8_exact s tail Hb Ht) as (v & [s' t' e] & Hrun & Hrest & Htl & Herr & Hok & _).
  cbn [er_rest er_tail er_err] in *. subst t'. exists v, s', e. split; [exact Hrun|].
  fold (itf8_short s). destruct (Z.le_gt_cases (announced itf8_spec_n s) (zlen s)) as [Hle|Hgt].
  - left. destruct s as [|b0 t]; [cbn in Hle; lia|]. unfold announced in *.
    pose proof (itf8_spec_n_range b0). set (n := itf8_spec_n b0) in *.
    rewrite Z.min_l in Hrest by assumption. specialize (Hok Hle). rewrite (proj2 itf8_Decode_item) in Hok by assumption.
    cbv zeta in Hok. fold n in Hok. rewrite (proj2 (Z.ltb_ge _ _) Hle) in Hok. injection Hok as Hv.
    split; [tauto|]. subst s'. split; [apply all_bytes_skipn, Hb|]. split.
    { rewrite skipn_length. unfold zlen in Hle. cbn [length] in *. lia. }
    exists (firstn (Z.to_nat n) (b0 :: t)). split; [symmetry; apply firstn_skipn|].
    rewrite <- (app_nil_r (firstn _ _)). apply items_cons; [| |symmetry; exact Hv|constructor];
      replace (Z.to_nat n) with (S (Z.to_nat (n - 1))) by lia; cbn [firstn hd]; [discriminate|].
    rewrite zlen_cons, zlen_firstn_le by lia. rewrite zlen_cons in Hle. lia.
  - right. split; [intros E; apply Herr in E; unfold itf8_short in Hgt; lia|]. split; [|exact Hgt].
    rewrite Hrest, Z.min_r by lia. apply skipn_all2. unfold zlen. lia.
Qed.

Lemma er_slice_loop_spec fuel : forall i n s tail acc,
  all_bytes s = true -> tail <> 0 -> (length s < fuel)%nat ->
  exists vals s' e',
    er_slice_loop fuel i n (mkER s tail 0) acc = Ok (rev acc ++ vals, mkER s' tail e') /\
    ((e' = 0 /\ zlen vals = Z.max 0 (n - i) /\ exists pre, s = pre ++ s' /\ itf8_items pre vals)
     \/ (e' <> 0 /\ zlen vals < n - i /\ s' = [] /\ exists pre part, s = pre ++ part /\ itf8_items pre vals /\ itf8_short part)).
Proof.
  induction fuel as [|f IH]; intros i n s tail acc Hb Ht Hf; [lia|].
  cbn [er_slice_loop]. destruct (Z.leb_spec n i) as [Hdone|Hmore].
  { exists [], s, 0. rewrite app_nil_r. split; [reflexivity|]. left. split; [reflexivity|]. split; [unfold zlen; simpl; lia|].
    exists []. split; [reflexivity|constructor]. }
  destruct (er_itf8_step s tail Hb Ht) as (v & s1 & e1 & -> & [(-> & Hb1 & Hlen & b & Hs & Hib)|(He & -> & Hshort)]); cbn [obind].
  - rewrite er_failed_0.
    destruct (IH (i + 1) n s1 tail (v :: acc) Hb1 Ht ltac:(lia)) as (vals & s' & e' & Hrun & Hres).
    exists (v :: vals), s', e'. split.
    { rewrite Hrun. cbn [rev]. rewrite <- app_assoc. reflexivity. }
    destruct Hres as [(-> & Hz & pre & Hpre & Hitems)|(He' & Hz & -> & pre & part & Hpre & Hitems & Hshort)].
    + left. split; [reflexivity|]. split; [rewrite zlen_cons; lia|].
      exists (b ++ pre). split; [rewrite <- app_assoc, <- Hpre; assumption|].
      apply (itf8_items_app b pre [v] vals); assumption.
    + right. split; [assumption|]. split; [rewrite zlen_cons; lia|]. split; [reflexivity|].
      exists (b ++ pre), part. split; [rewrite <- app_assoc, <- Hpre; assumption|]. split; [|assumption].
      apply (itf8_items_app b pre [v] vals); assumption.
  - rewrite er_failed_err by assumption. exists [], [], e1. rewrite app_nil_r. split; [reflexivity|]. right.
    split; [assumption|]. split; [unfold zlen; simpl; lia|]. split; [reflexivity|].
    exists [], s. split; [reflexivity|]. split; [constructor|assumption].
Qed.

Lemma stream_itf8slice_exact s tail :
  all_bytes s = true -> tail <> 0 ->
  match er_itf8slice (mkER s tail 0) with
  | Ok (vals, r') =>
    er_tail r' = tail /\
    ((er_err r' = 0 /\ exists pre, s = pre ++ er_rest r' /\ itf8_items pre (zlen vals :: vals))
     \/ (er_err r' <> 0 /\ er_rest r' = [] /\
         exists pre part c, s = pre ++ part /\ itf8_short part /\
           (itf8_items pre (c :: vals) /\ zlen vals < c \/ pre = [] /\ vals = [])))
  | Panic _ => exists pre rest c, s = pre ++ rest /\ itf8_items pre [c] /\ c < 0
  | _ => False
  end.
Proof.
  intros Hb Ht. unfold er_itf8slice.
  destruct (er_itf8_step s tail Hb Ht) as (c & s1 & e1 & -> & [(-> & Hb1 & Hlen & b & Hs & Hib)|(He & -> & Hshort)]); cbn [obind].
  2:{ rewrite er_failed_err by assumption. cbn [er_tail er_err er_rest]. split; [reflexivity|]. right. split; [assumption|]. split; [reflexivity|].
      exists [], s, 0. split; [reflexivity|]. split; [assumption|]. right. split; reflexivity. }
  rewrite er_failed_0.
  destruct (Z.eqb_spec c 0) as [->|Hc0].
  { cbn [er_tail er_err er_rest]. split; [reflexivity|]. left. split; [reflexivity|]. exists b. split; assumption. }
  destruct (Z.ltb_spec c 0) as [Hneg|Hpos].
  { exists b, s1, c. repeat split; assumption. }
  cbn [er_rest].
  destruct (er_slice_loop_spec (S (length s1)) 0 c s1 tail [] Hb1 Ht ltac:(lia)) as (vals & s' & e' & Hrun & Hres).
  rewrite Hrun. cbn [rev app er_tail er_err er_rest]. split; [reflexivity|].
  destruct Hres as [(-> & Hz & pre & Hpre & Hitems)|(He' & Hz & -> & pre & part & Hpre & Hitems & Hshort)].
  - left. split; [reflexivity|]. exists (b ++ pre). split; [rewrite <- app_assoc, <- Hpre; assumption|].
    replace (zlen vals) with c by lia. apply (itf8_items_app b pre [c] vals); assumption.
  - right. split; [assumption|]. split; [reflexivity|]. exists (b ++ pre), part, c.
    split; [rewrite <- app_assoc, <- Hpre; assumption|]. split; [assumption|]. left. split; [|lia].
    apply (itf8_items_app b pre [c] vals); assumption.
Qed.
